(* C07 — `abort` terminates the program and cannot be intercepted. *)
From Coq Require Import List ZArith String.
From VRL Require Import Base.Bytes Base.Value Base.Lit Model.Expr Model.Eval Model.EvalInst Proofs.EvalProofs.
Import ListNotations.
Local Open Scope string_scope.
Local Open Scope list_scope.
Local Open Scope Z_scope.

Theorem C07_abort_ends_program :
  forall F binop (pre : list expr) (C : ctx) (post : list expr) (m : option expr) (s s0 s1 : state)
         (msg : option bytes) (s2 : state),
  root_ok s -> seq F binop pre (rooted s) = Some s0 -> reach F binop C s0 = Some s1 ->
  match m with
  | None => msg = None /\ s2 = s1
  | Some me => exists b, eval F binop me s1 = (inl (VBytes b), s2) /\ msg = Some b
  end ->
  run F binop (pre ++ plug C (EAbort m) :: post) s = (Aborted msg, s2).
Proof.
  intros F binop pre C post m s s0 s1 msg s2 Hroot Hp Hr Hm.
  apply (run_ctl F binop pre C post (EAbort m) s s0 s1 (Abort msg) s2 Hroot Hp Hr); [|reflexivity].
  destruct m as [me|].
  - destruct Hm as [b [Hb ->]]. cbn [eval]. rewrite Hb. reflexivity.
  - destruct Hm as [-> ->]. reflexivity.
Qed.
Print Assumptions C07_abort_ends_program.

(* error coalescing, infallible assignment and every other context let the Abort outcome through *)
Theorem C07_abort_crosses_every_context :
  forall F binop (C : ctx) (x : expr) (s s1 : state) (msg : option bytes) (s2 : state),
  reach F binop C s = Some s1 -> eval F binop x s1 = (inr (Abort msg), s2) ->
  eval F binop (plug C x) s = (inr (Abort msg), s2).
Proof. intros. eapply ctl_propagates; eauto. Qed.
Print Assumptions C07_abort_crosses_every_context.

(* closures do not catch it: the iteration in which the body aborts yields Abort (parameters restored)… *)
Theorem C07_abort_in_iteration_one_param :
  forall (body : state -> res * state) p a s old s1 msg s2,
  bind_param s p a = (old, s1) -> body s1 = (inr (Abort msg), s2) ->
  run1 body p a s = (inr (Abort msg), cleanup_param s2 p old).
Proof. intros body p a s old s1 msg s2 Hb He. unfold run1. rewrite Hb, He. reflexivity. Qed.
Print Assumptions C07_abort_in_iteration_one_param.

Theorem C07_abort_in_iteration_two_params :
  forall (body : state -> res * state) p0 p1 a b s old0 sa old1 s1 msg s2,
  bind_param s p0 a = (old0, sa) -> bind_param sa p1 b = (old1, s1) ->
  body s1 = (inr (Abort msg), s2) ->
  run2 body p0 p1 a b s = (inr (Abort msg), cleanup_param (cleanup_param s2 p0 old0) p1 old1).
Proof. intros body p0 p1 a b s old0 sa old1 s1 msg s2 Hb0 Hb1 He. unfold run2. rewrite Hb0, Hb1, He. reflexivity. Qed.
Print Assumptions C07_abort_in_iteration_two_params.

(* …and the iteration loop of every closure-taking function stops at the first failing iteration
   with that failure: no later iteration runs *)
Theorem C07_loop_stops_at_first_failure :
  forall (A B : Type) (step : A -> state -> (B + err) * state) pre a post s bs s1 e s2,
  loop step pre s = (inl bs, s1) -> step a s1 = (inr e, s2) ->
  loop step (pre ++ a :: post) s = (inr e, s2).
Proof. intros A B step pre. exact (loop_first_failure step pre). Qed.
Print Assumptions C07_loop_stops_at_first_failure.

Example C07_example :
  let s := st0 [] (VObj [(hx "61", VInt 1)]) (VObj []) in
  run_core
    [EAssignInf (TVar (hx "78") []) (TVar (hx "65") [])
       (EBlock [EOp OErr (EBlock [EAbort (Some (ELit (VBytes (hx "6d"))))]) (ELit (VInt 3))]) (VInt 0);
     EAssign (TExt PEvent [SField (hx "7a")]) (ELit (VInt 1))] s
  = (Aborted (Some (hx "6d")), [], VObj [(hx "61", VInt 1)], VObj []).
Proof. vm_compute. reflexivity. Qed.
