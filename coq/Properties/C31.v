(* C31 — Datadog search matching follows the query semantics.
   Model: Model/DdMatch.v (matcher.rs build_matcher + combinators, filter.rs range, VrlFilter of
   match_datadog_query.rs, field.rs normalize_fields).  `sem` is the direct evaluator (the specification),
   `build_matcher` + `run` the implementation's two-stage closure construction.  fdisp / tsdisp are the
   Display of floats / timestamps (library behaviour, universally quantified).  The proofs of any length are in
   Proofs/DdMatchProofs.v; what follows from them in a few lines is derived here. *)
From Coq Require Import List NArith ZArith Bool String.
From Coq Require Import Floats.SpecFloat.
From VRL Require Import Base.Bytes Base.Value Base.Lit Model.ValueCrud Model.DdNode Model.DdMatch Proofs.ListFacts Proofs.DdMatchProofs.
Import ListNotations.
Local Open Scope string_scope.
Local Open Scope list_scope.

(* The matcher the implementation builds decides exactly the specification, for every query, event and
   Display functions, outside the two recorded departures (`known`: existence of the reserved attribute
   `tags` on an event that has one; a tag comparison on an event carrying a tag with another key). *)
Theorem C31_refines : forall (fdisp : spec_float -> bytes) (tsdisp : Z -> bytes) (n : node) (m : matcher) (e : value),
  build_matcher fdisp n = BOk m -> known fdisp tsdisp e n = false ->
  run fdisp tsdisp m e = sem fdisp tsdisp n e.
Proof. exact refines. Qed.
Print Assumptions C31_refines.

(* ...and at the level of the function: it compiles exactly when every attribute names a valid path, and then
   returns the specification's verdict *)
Theorem C31_match_refines : forall fdisp tsdisp (n : node) (e : value),
  wf_node n = true -> known fdisp tsdisp e n = false ->
  match_datadog_query fdisp tsdisp n e = MRBool (sem fdisp tsdisp n e).
Proof.
  intros fdisp tsdisp n e W K. apply (build_ok_iff fdisp) in W as [m Hm]. unfold match_datadog_query. rewrite Hm.
  f_equal. apply refines; assumption.
Qed.
Print Assumptions C31_match_refines.

Theorem C31_compiles_iff_wf : forall fdisp (n : node),
  (exists m, build_matcher fdisp n = BOk m) <-> wf_node n = true.
Proof. exact build_ok_iff. Qed.
Print Assumptions C31_compiles_iff_wf.

(* boolean operators and negation compose as logical operations: on the implementation's own
       matchers, without any exclusion *)
Theorem C31_impl_not : forall fdisp tsdisp (n : node) (m' : matcher) (e : value),
  build_matcher fdisp (NNot n) = BOk m' ->
  exists m, build_matcher fdisp n = BOk m /\ run fdisp tsdisp m' e = negb (run fdisp tsdisp m e).
Proof. intros fdisp tsdisp n m' e H. cbn [build_matcher] in H. apply bmap_ok in H as (m & H & ->). eauto. Qed.
Print Assumptions C31_impl_not.

Theorem C31_impl_and : forall fdisp tsdisp (ns : list node) (m' : matcher) (e : value),
  build_matcher fdisp (NBool BAnd ns) = BOk m' ->
  exists ms, Forall2 (fun n m => build_matcher fdisp n = BOk m) ns ms /\
             run fdisp tsdisp m' e = forallb (fun m => run fdisp tsdisp m e) ms.
Proof.
  intros fdisp tsdisp ns m' e H. rewrite build_bool in H. apply bmap_ok in H as (ms & H & ->).
  exists ms. split; [apply collect_Forall2; exact H | apply run_all].
Qed.
Print Assumptions C31_impl_and.

Theorem C31_impl_or : forall fdisp tsdisp (ns : list node) (m' : matcher) (e : value),
  build_matcher fdisp (NBool BOr ns) = BOk m' ->
  exists ms, Forall2 (fun n m => build_matcher fdisp n = BOk m) ns ms /\
             run fdisp tsdisp m' e = existsb (fun m => run fdisp tsdisp m e) ms.
Proof.
  intros fdisp tsdisp ns m' e H. rewrite build_bool in H. apply bmap_ok in H as (ms & H & ->).
  exists ms. split; [apply collect_Forall2; exact H | apply run_any].
Qed.
Print Assumptions C31_impl_or.

(* a range holds exactly when both of its bounds hold (inclusive and exclusive brackets) *)
Theorem C31_impl_range : forall fdisp tsdisp a lo li hi ui (m : matcher) (e : value),
  bytes_eqb a DEFAULT_FIELD = false -> bounded lo = true -> bounded hi = true ->
  build_matcher fdisp (NRange a lo li hi ui) = BOk m ->
  exists m1 m2,
    build_matcher fdisp (NCmp a (lower_op li) lo) = BOk m1 /\
    build_matcher fdisp (NCmp a (upper_op ui) hi) = BOk m2 /\
    run fdisp tsdisp m e = run fdisp tsdisp m1 e && run fdisp tsdisp m2 e.
Proof. exact impl_range. Qed.
Print Assumptions C31_impl_range.

(* unbounded sides: the very same matcher as the remaining comparison / as existence *)
Theorem C31_impl_range_upper : forall fdisp a li hi ui, bounded hi = true ->
  build_matcher fdisp (NRange a CUnb li hi ui) = build_matcher fdisp (NCmp a (upper_op ui) hi).
Proof. intros fdisp a li hi ui H. destruct hi; try discriminate; reflexivity. Qed.
Print Assumptions C31_impl_range_upper.

Theorem C31_impl_range_lower : forall fdisp a lo li ui, bounded lo = true ->
  build_matcher fdisp (NRange a lo li CUnb ui) = build_matcher fdisp (NCmp a (lower_op li) lo).
Proof. intros fdisp a lo li ui H. destruct lo; try discriminate; reflexivity. Qed.
Print Assumptions C31_impl_range_lower.

Theorem C31_impl_range_open : forall fdisp a li ui,
  build_matcher fdisp (NRange a CUnb li CUnb ui) = build_matcher fdisp (NExists a).
Proof. reflexivity. Qed.
Print Assumptions C31_impl_range_open.

(* the same sentences on the specification *)
Theorem C31_sem_not : forall fdisp tsdisp n e, sem fdisp tsdisp (NNot n) e = negb (sem fdisp tsdisp n e).
Proof. reflexivity. Qed.
Print Assumptions C31_sem_not.

Theorem C31_sem_and : forall fdisp tsdisp ns e,
  sem fdisp tsdisp (NBool BAnd ns) e = forallb (fun n => sem fdisp tsdisp n e) ns.
Proof. reflexivity. Qed.
Print Assumptions C31_sem_and.

Theorem C31_sem_or : forall fdisp tsdisp ns e,
  sem fdisp tsdisp (NBool BOr ns) e = existsb (fun n => sem fdisp tsdisp n e) ns.
Proof. reflexivity. Qed.
Print Assumptions C31_sem_or.

Theorem C31_sem_missing : forall fdisp tsdisp a e,
  sem fdisp tsdisp (NMissing a) e = negb (sem fdisp tsdisp (NExists a) e).
Proof.
  intros fdisp tsdisp a e. cbn [sem]. induction (normalize_fields a) as [|f l IH]; cbn; [reflexivity|].
  rewrite IH, negb_orb. reflexivity.
Qed.
Print Assumptions C31_sem_missing.

Theorem C31_sem_de_morgan_and : forall fdisp tsdisp ns e,
  sem fdisp tsdisp (NNot (NBool BAnd ns)) e = sem fdisp tsdisp (NBool BOr (map NNot ns)) e.
Proof.
  intros fdisp tsdisp ns e. rewrite C31_sem_not, C31_sem_and, C31_sem_or.
  induction ns as [|n ns IH]; cbn; [reflexivity|]. rewrite negb_andb, IH. reflexivity.
Qed.
Print Assumptions C31_sem_de_morgan_and.

Theorem C31_sem_de_morgan_or : forall fdisp tsdisp ns e,
  sem fdisp tsdisp (NNot (NBool BOr ns)) e = sem fdisp tsdisp (NBool BAnd (map NNot ns)) e.
Proof.
  intros fdisp tsdisp ns e. rewrite C31_sem_not, C31_sem_and, C31_sem_or.
  induction ns as [|n ns IH]; cbn; [reflexivity|]. rewrite negb_orb, IH. reflexivity.
Qed.
Print Assumptions C31_sem_de_morgan_or.

Theorem C31_sem_range : forall fdisp tsdisp a lo li hi ui e,
  bytes_eqb a DEFAULT_FIELD = false -> bounded lo = true -> bounded hi = true ->
  sem fdisp tsdisp (NRange a lo li hi ui) e =
  sem fdisp tsdisp (NCmp a (lower_op li) lo) e && sem fdisp tsdisp (NCmp a (upper_op ui) hi) e.
Proof.
  intros fdisp tsdisp a lo li hi ui e Ha Hlo Hhi. cbn [sem]. destruct (single_field a Ha) as [f ->].
  cbn [existsb]. rewrite !orb_false_r. apply s_range_both; assumption.
Qed.
Print Assumptions C31_sem_range.

(* without a field name the query addresses the five default fields: one of them satisfies both bounds *)
Theorem C31_sem_range_fields : forall fdisp tsdisp a lo li hi ui e,
  bounded lo = true -> bounded hi = true ->
  sem fdisp tsdisp (NRange a lo li hi ui) e =
  existsb (fun f => s_compare fdisp tsdisp (lower_op li) lo e f && s_compare fdisp tsdisp (upper_op ui) hi e f)
          (normalize_fields a).
Proof.
  intros fdisp tsdisp a lo li hi ui e Hlo Hhi. apply existsb_ext_in. intros f _. apply s_range_both; assumption.
Qed.
Print Assumptions C31_sem_range_fields.

Theorem C31_sem_range_upper : forall fdisp tsdisp a li hi ui e, bounded hi = true ->
  sem fdisp tsdisp (NRange a CUnb li hi ui) e = sem fdisp tsdisp (NCmp a (upper_op ui) hi) e.
Proof. intros fdisp tsdisp a li hi ui e H. destruct hi; try discriminate; reflexivity. Qed.
Print Assumptions C31_sem_range_upper.

Theorem C31_sem_range_lower : forall fdisp tsdisp a lo li ui e, bounded lo = true ->
  sem fdisp tsdisp (NRange a lo li CUnb ui) e = sem fdisp tsdisp (NCmp a (lower_op li) lo) e.
Proof. intros fdisp tsdisp a lo li ui e H. destruct lo; try discriminate; reflexivity. Qed.
Print Assumptions C31_sem_range_lower.

(* the leaves are judged on the addressed attribute / tag values *)
Theorem C31_leaf_attr_exists : forall fdisp tsdisp s e,
  s_exists fdisp tsdisp e (FAttribute s) = true <->
  exists p x, parse_value_path s = PPOk p /\ get e p = Some x.
Proof.
  intros fdisp tsdisp s e. change (s_exists fdisp tsdisp e (FAttribute s)) with (on_addr e (FAttribute s) (fun _ => true)).
  rewrite on_addr_iff. split; [intros (p & x & Hp & Hg & _) | intros (p & x & Hp & Hg)]; eauto.
Qed.
Print Assumptions C31_leaf_attr_exists.

Theorem C31_leaf_attr_equals : forall fdisp tsdisp s v e,
  s_equals fdisp tsdisp v e (FAttribute s) = true <->
  exists p x, parse_value_path s = PPOk p /\ get e p = Some x /\ string_value fdisp tsdisp x = v.
Proof. intros. unfold s_equals. rewrite on_addr_iff. setoid_rewrite bytes_eqb_eq. reflexivity. Qed.
Print Assumptions C31_leaf_attr_equals.

Theorem C31_leaf_attr_prefix : forall fdisp tsdisp s v e,
  s_prefix fdisp tsdisp v e (FAttribute s) = true <->
  exists p x r, parse_value_path s = PPOk p /\ get e p = Some x /\ string_value fdisp tsdisp x = v ++ r.
Proof.
  intros fdisp tsdisp s v e. unfold s_prefix. rewrite on_addr_iff. setoid_rewrite starts_with_iff.
  split; [intros (p & x & Hp & Hg & r & Hr) | intros (p & x & r & Hp & Hg & Hr)]; eauto 7.
Qed.
Print Assumptions C31_leaf_attr_prefix.

(* gmatch w s: every `*` of w stands for a run of bytes without newline, every other byte for itself *)
Theorem C31_leaf_attr_wildcard : forall fdisp tsdisp s w e,
  s_wildcard fdisp tsdisp w e (FAttribute s) = true <->
  exists p x, parse_value_path s = PPOk p /\ get e p = Some x /\ gmatch w (string_value fdisp tsdisp x).
Proof. intros. unfold s_wildcard. rewrite on_addr_iff. setoid_rewrite glob_correct. reflexivity. Qed.
Print Assumptions C31_leaf_attr_wildcard.

Theorem C31_leaf_glob : forall w s, glob (pat_of w) s = true <-> gmatch w s.
Proof. exact glob_correct. Qed.
Print Assumptions C31_leaf_glob.

Theorem C31_leaf_attr_compare_int : forall fdisp tsdisp s op l r e p,
  parse_value_path s = PPOk p -> get e p = Some (VInt l) ->
  s_compare fdisp tsdisp op (CInt r) e (FAttribute s) = zcmp op l r.
Proof. intros fdisp tsdisp s op l r e p. exact (leaf_attr_compare fdisp tsdisp s op (CInt r) (VInt l) e p). Qed.
Print Assumptions C31_leaf_attr_compare_int.

Theorem C31_leaf_attr_compare_float : forall fdisp tsdisp s op l r e p,
  parse_value_path s = PPOk p -> get e p = Some (VFloat l) ->
  s_compare fdisp tsdisp op (CFloat r) e (FAttribute s) = fcmp op l r.
Proof. intros fdisp tsdisp s op l r e p. exact (leaf_attr_compare fdisp tsdisp s op (CFloat r) (VFloat l) e p). Qed.
Print Assumptions C31_leaf_attr_compare_float.

Theorem C31_leaf_attr_compare_string : forall fdisp tsdisp s op r e p x,
  parse_value_path s = PPOk p -> get e p = Some x ->
  s_compare fdisp tsdisp op (CStr r) e (FAttribute s) = scmp op (string_value fdisp tsdisp x) r.
Proof.
  intros fdisp tsdisp s op r e p x Hp Hg. rewrite (leaf_attr_compare _ _ _ _ (CStr r) _ _ _ Hp Hg). destruct x; reflexivity.
Qed.
Print Assumptions C31_leaf_attr_compare_string.

Theorem C31_leaf_zcmp : forall op a b,
  zcmp op a b = true <-> match op with Lt => a < b | Lte => a <= b | Gt => a > b | Gte => a >= b end%Z.
Proof.
  intros op a b. destruct op; cbn; rewrite ?Z.gt_lt_iff, ?Z.ge_le_iff; first [apply Z.ltb_lt | apply Z.leb_le].
Qed.
Print Assumptions C31_leaf_zcmp.

Theorem C31_leaf_tag_exists : forall fdisp tsdisp tag e,
  s_exists fdisp tsdisp e (FTag tag) = true <->
  exists vs x, get e [SField TAGS] = Some (VArr vs) /\ In x vs /\
               (string_value fdisp tsdisp x = tag \/ exists r, string_value fdisp tsdisp x = tag ++ 58%N :: r).
Proof.
  intros fdisp tsdisp tag e. unfold s_exists, tag_has_key. rewrite on_tags_iff.
  setoid_rewrite orb_true_iff. setoid_rewrite bytes_eqb_eq. setoid_rewrite starts_with_iff.
  setoid_rewrite <- app_assoc. reflexivity.
Qed.
Print Assumptions C31_leaf_tag_exists.

Theorem C31_leaf_tag_equals : forall fdisp tsdisp tag v e,
  s_equals fdisp tsdisp v e (FTag tag) = true <->
  exists vs, get e [SField TAGS] = Some (VArr vs) /\ In (VBytes (tag ++ 58%N :: v)) vs.
Proof.
  intros fdisp tsdisp tag v e. unfold s_equals. rewrite on_tags_iff. split.
  - intros (vs & y & Hg & Hi & Hk). apply value_eqb_eq in Hk as ->. eauto.
  - intros (vs & Hg & Hi). exists vs, (VBytes (tag ++ 58%N :: v)). auto using value_eqb_refl.
Qed.
Print Assumptions C31_leaf_tag_equals.

Theorem C31_leaf_tag_compare : forall fdisp tsdisp tag op cv e,
  s_compare fdisp tsdisp op cv e (FTag tag) = true <->
  exists vs x lhs, get e [SField TAGS] = Some (VArr vs) /\ In x vs /\
                   string_value fdisp tsdisp x = tag ++ 58%N :: lhs /\ ~ In 58%N tag /\
                   scmp op lhs (cval_display fdisp cv) = true.
Proof. exact leaf_tag_compare. Qed.
Print Assumptions C31_leaf_tag_compare.

(* a term without a field name: one of the five default fields holds a string in which the term occurs between
   two word boundaries (wb = exactly one side is a word byte; gmatch: every `*` a run without newline) *)
Theorem C31_leaf_word_match : forall w s,
  word_match (pat_of w) s = true <->
  exists pre mid post, s = pre ++ mid ++ post /\ gmatch w mid /\
                       wb (last_or None pre) (mid ++ post) = true /\
                       wb (last_or (last_or None pre) mid) post = true.
Proof. exact word_match_correct. Qed.
Print Assumptions C31_leaf_word_match.

Theorem C31_leaf_default_term : forall fdisp tsdisp s v e,
  s_equals fdisp tsdisp v e (FDefault s) = true <->
  exists p b, parse_value_path s = PPOk p /\ get e p = Some (VBytes b) /\ word_match (pat_of v) b = true.
Proof.
  intros fdisp tsdisp s v e. unfold s_equals. rewrite on_addr_iff. split.
  - intros (p & x & H1 & H2 & H3). destruct x; try discriminate. eauto.
  - intros (p & b & H). exists p, (VBytes b). exact H.
Qed.
Print Assumptions C31_leaf_default_term.

(* the two departures of the implementation from the specification (known findings) *)

(* C31-exists-tags: `_exists_:tags` is false on every event (the closure compares each element of the
   array with the array itself), although the specification says true whenever the attribute is there *)
Theorem C31_exists_tags_never : forall fdisp tsdisp m e,
  build_matcher fdisp (NExists TAGS) = BOk m -> run fdisp tsdisp m e = false.
Proof.
  intros fdisp tsdisp m e H. vm_compute in H. injection H as <-. cbn [run]. rewrite orb_false_r.
  destruct (get e _) as [[| | | | | | |vs|]|]; try reflexivity. apply no_self_element.
Qed.
Print Assumptions C31_exists_tags_never.

Example C31_exists_tags_refuted :
  let e := VObj [(bs "tags", VArr [VBytes (bs "a")])] in
  match_datadog_query fdisp_simple tsdisp_none (NExists TAGS) e = MRBool false
  /\ sem fdisp_simple tsdisp_none (NExists TAGS) e = true
  /\ match_datadog_query fdisp_simple tsdisp_none (NTerm TAGS (bs "a")) e = MRBool true
  /\ known fdisp_simple tsdisp_none e (NExists TAGS) = true.
Proof. vm_compute. repeat split. Qed.

(* C31-tagcmp-key: `tag1:>a` holds on an event whose only tag is "other:zzz" *)
Example C31_tagcmp_key_refuted :
  let e := VObj [(bs "tags", VArr [VBytes (bs "other:zzz")])] in
  let n := NCmp (bs "tag1") Gt (CStr (bs "a")) in
  match_datadog_query fdisp_simple tsdisp_none n e = MRBool true
  /\ sem fdisp_simple tsdisp_none n e = false
  /\ match_datadog_query fdisp_simple tsdisp_none (NExists (bs "tag1")) e = MRBool false
  /\ known fdisp_simple tsdisp_none e n = true.
Proof. vm_compute. repeat split. Qed.

(* non-vacuity of C31_refines / C31_impl_range: a nested query over a tag, a facet, a reserved attribute
   and the default fields, on an event where it is outside `known` *)
Example C31_refines_nonvacuous :
  let e := VObj [(bs "a", VInt 7); (bs "host", VBytes (bs "h1")); (bs "message", VBytes (bs "hello big world"));
                 (bs "tags", VArr [VBytes (bs "tag1:foo"); VBytes (bs "tag1:zz")])] in
  let n := NBool BAnd [NRange (bs "@a") (CInt 5) true (CFloat (f64_of_bits 0x4024000000000000)) false;
                       NNot (NTerm (bs "host") (bs "h2"));
                       NBool BOr [NTerm (bs "_default_") (bs "big"); NExists (bs "tag9")];
                       NRange (bs "tag1") (CStr (bs "a")) true (CStr (bs "g")) true;
                       NWild (bs "host") (bs "h*")] in
  wf_node n = true /\ known fdisp_simple tsdisp_none e n = false
  /\ match_datadog_query fdisp_simple tsdisp_none n e = MRBool true
  /\ sem fdisp_simple tsdisp_none n e = true.
Proof. vm_compute. repeat split. Qed.
