(* C11 - Arithmetic follows the documented numeric semantics.
   Model: Model/Arith.v (src/compiler/value/arithmetic.rs try_add/sub/mul/div/rem, float_result;
   src/stdlib/mod_func.rs).  Statements; what is not read off the model directly is proved in Proofs/ArithProofs.v and
   Proofs/ArithFloatProofs.v (the statements about int-to-float conversion). *)
From Coq Require Import List NArith ZArith Bool String Lia.
From Coq Require Import Floats.SpecFloat.
From VRL Require Import Base.Bytes Base.Value Base.Lit Model.Arith Proofs.ArithProofs Proofs.ArithFloatProofs.
Import ListNotations.
Local Open Scope string_scope.
Local Open Scope list_scope.
Local Open Scope Z_scope.

(* wrap64 is the 64-bit two's-complement wrap: the unique integer in [-2^63, 2^63) congruent to z modulo 2^64 *)
Theorem C11_wrap64_char : forall z : Z,
  in_i64 (wrap64 z) /\ (wrap64 z - z) mod two64 = 0
  /\ (forall r, in_i64 r -> (r - z) mod two64 = 0 -> r = wrap64 z)
  /\ (in_i64 z -> wrap64 z = z).
Proof.
  intros z. split; [apply wrap64_range|]. split; [apply wrap64_mod|]. split; [apply wrap64_unique | apply wrap64_id].
Qed.
Print Assumptions C11_wrap64_char.

(* integer + - * are the exact operation followed by the wrap, for all pairs *)
Theorem C11_int_wrap : forall a b : Z,
  try_add (VInt a) (VInt b) = Ok (VInt (wrap64 (a + b)))
  /\ try_sub (VInt a) (VInt b) = Ok (VInt (wrap64 (a - b)))
  /\ try_mul (VInt a) (VInt b) = Ok (VInt (wrap64 (a * b))).
Proof. repeat split; reflexivity. Qed.
Print Assumptions C11_int_wrap.

(* `/` on two numbers: "divide by zero" when the divisor is 0, 0.0 or -0.0; otherwise the binary64 quotient of the
   operands (integers converted), which is an error instead of a value when it is NaN *)
Theorem C11_div : forall x y : value,
  is_number x = true -> is_number y = true ->
  try_div x y = if divisor_is_zero y then Err EDivZero else float_result (f_div (to_f x) (to_f y)).
Proof. intros x y Hx Hy. rewrite try_div_eq, Hx, Hy. reflexivity. Qed.
Print Assumptions C11_div.

(* ... it fails with "divide by zero" exactly for a zero divisor (whatever the left operand), and every value it
   yields is a float *)
Theorem C11_div_zero_iff : forall x y : value,
  (try_div x y = Err EDivZero <-> divisor_is_zero y = true)
  /\ (forall v, try_div x y = Ok v -> exists f, v = VFloat f /\ f_is_nan f = false).
Proof. intros x y. split; [apply div_zero_iff | apply div_yields_float]. Qed.
Print Assumptions C11_div_zero_iff.

(* mod(value, modulus) *)
Theorem C11_rem : forall x y : value,
  is_number x = true -> is_number y = true ->
  try_rem x y =
  if divisor_is_zero y then Err EDivZero
  else match x, y with
       | VInt a, VInt b => Ok (VInt (Z.rem a b))
       | _, _ => float_result (sf_rem (to_f x) (to_f y))
       end.
Proof. intros x y Hx Hy. rewrite try_rem_eq, Hx, Hy. destruct x, y; reflexivity. Qed.
Print Assumptions C11_rem.

(* integer mod is the remainder of the truncating division: it has the sign of the dividend, is smaller than the
   divisor in magnitude, needs no wrap (MIN mod -1 = 0), and stays in range *)
Theorem C11_int_rem : forall a b : Z, b <> 0 ->
  try_rem (VInt a) (VInt b) = Ok (VInt (Z.rem a b))
  /\ a = b * Z.quot a b + Z.rem a b /\ Z.abs (Z.rem a b) < Z.abs b /\ 0 <= Z.rem a b * a
  /\ (in_i64 a -> in_i64 (Z.rem a b)).
Proof. intros a b Hb. split; [apply try_rem_int | apply rem_truncated]; exact Hb. Qed.
Print Assumptions C11_int_rem.

(* an operation mixing an integer and a float equals the float operation on the converted integer:
   integer on the left, all five operations ... *)
Theorem C11_mixed_left : forall (a : Z) (g : spec_float),
  try_add (VInt a) (VFloat g) = try_add (VFloat (of_i64 a)) (VFloat g)
  /\ try_sub (VInt a) (VFloat g) = try_sub (VFloat (of_i64 a)) (VFloat g)
  /\ try_mul (VInt a) (VFloat g) = try_mul (VFloat (of_i64 a)) (VFloat g)
  /\ try_div (VInt a) (VFloat g) = try_div (VFloat (of_i64 a)) (VFloat g)
  /\ try_rem (VInt a) (VFloat g) = try_rem (VFloat (of_i64 a)) (VFloat g).
Proof. repeat split; reflexivity. Qed.
Print Assumptions C11_mixed_left.

(* ... integer on the right: + - * likewise; / and mod test the integer itself for zero, then divide by the
   converted integer *)
Theorem C11_mixed_right : forall (f : spec_float) (b : Z),
  try_add (VFloat f) (VInt b) = try_add (VFloat f) (VFloat (of_i64 b))
  /\ try_sub (VFloat f) (VInt b) = try_sub (VFloat f) (VFloat (of_i64 b))
  /\ try_mul (VFloat f) (VInt b) = try_mul (VFloat f) (VFloat (of_i64 b))
  /\ (b = 0 -> try_div (VFloat f) (VInt b) = Err EDivZero /\ try_rem (VFloat f) (VInt b) = Err EDivZero
               /\ try_div (VFloat f) (VFloat (of_i64 b)) = Err EDivZero
               /\ try_rem (VFloat f) (VFloat (of_i64 b)) = Err EDivZero)
  /\ (b <> 0 -> try_div (VFloat f) (VInt b) = float_result (f_div f (of_i64 b))
                /\ try_rem (VFloat f) (VInt b) = float_result (sf_rem f (of_i64 b))).
Proof.
  intros f b. do 3 (split; [reflexivity|]).
  split; [intros ->; repeat split; reflexivity | intros Hb; destruct b; try contradiction; split; reflexivity].
Qed.
Print Assumptions C11_mixed_right.

(* ... and since the conversion of a non-zero i64 is never a zero, / and mod with the integer on the right are also
   literally the float operation on the converted integer, for every i64.  Uses the real-number semantics of binary64
   (Flocq) and therefore depends on the axioms of Coq's classical reals; see Proofs/ArithFloatProofs.v *)
Theorem C11_mixed_right_div : forall (f : spec_float) (b : Z), in_i64 b ->
  try_div (VFloat f) (VInt b) = try_div (VFloat f) (VFloat (of_i64 b))
  /\ try_rem (VFloat f) (VInt b) = try_rem (VFloat f) (VFloat (of_i64 b)).
Proof.
  intros f b Hb. destruct (Z.eq_dec b 0) as [->|Hnz]; [split; reflexivity|].
  cbn. rewrite of_i64_nonzero by (unfold in_i64, two63 in Hb; lia). destruct b; [contradiction| |]; split; reflexivity.
Qed.
Print Assumptions C11_mixed_right_div.

(* two floats: the IEEE-754 binary64 operations (Coq's SpecFloat, round to nearest even) with the NaN check *)
Theorem C11_float_ops : forall f g : spec_float,
  try_add (VFloat f) (VFloat g) = float_result (SFadd 53 1024 f g)
  /\ try_sub (VFloat f) (VFloat g) = float_result (SFsub 53 1024 f g)
  /\ try_mul (VFloat f) (VFloat g) = float_result (SFmul 53 1024 f g)
  /\ (f_is_zero g = false -> try_div (VFloat f) (VFloat g) = float_result (SFdiv 53 1024 f g)).
Proof. intros f g. repeat split; try reflexivity. intros H. cbn. rewrite H. reflexivity. Qed.
Print Assumptions C11_float_ops.

(* string + string concatenates; null acts as the empty string on either side *)
Theorem C11_concat : forall s t : bytes,
  try_add (VBytes s) (VBytes t) = Ok (VBytes (s ++ t))
  /\ try_add (VBytes s) VNull = Ok (VBytes s) /\ try_add VNull (VBytes t) = Ok (VBytes t)
  /\ try_add (VBytes s) VNull = try_add (VBytes s) (VBytes []) /\ try_add VNull (VBytes t) = try_add (VBytes []) (VBytes t).
Proof. intros s t. repeat split; try reflexivity. cbn. rewrite app_nil_r. reflexivity. Qed.
Print Assumptions C11_concat.

(* string * n (either order) repeats the string max(n, 0) times *)
Theorem C11_repeat : forall (s : bytes) (n : Z),
  try_mul (VBytes s) (VInt n) = Ok (VBytes (List.concat (repeat s (Z.to_nat (Z.max n 0)))))
  /\ try_mul (VInt n) (VBytes s) = Ok (VBytes (List.concat (repeat s (Z.to_nat (Z.max n 0)))))
  /\ List.length (List.concat (repeat s (Z.to_nat (Z.max n 0)))) = (Z.to_nat (Z.max n 0) * List.length s)%nat.
Proof. intros s n. cbn. rewrite bytes_repeat_spec. repeat split. apply concat_repeat_length. Qed.
Print Assumptions C11_repeat.

(* a float result is never NaN: every operator, every pair of operands of any kinds *)
Theorem C11_never_nan : forall (o : opcode) (x y : value) (f : spec_float),
  binop o x y = Ok (VFloat f) -> f_is_nan f = false.
Proof. exact never_nan. Qed.
Print Assumptions C11_never_nan.

(* the NaN-producing operations fail (they are errors of class NaN, not values) *)
Example C11_nan_cases :
  let inf := f64_of_bits 0x7ff0000000000000 in
  let ninf := f64_of_bits 0xfff0000000000000 in
  binop OAdd (VFloat inf) (VFloat ninf) = Err ENan /\ binop OSub (VFloat inf) (VFloat inf) = Err ENan
  /\ binop OMul (VFloat inf) (VInt 0) = Err ENan /\ binop OMul (VInt 0) (VFloat inf) = Err ENan
  /\ binop ODiv (VFloat inf) (VFloat ninf) = Err ENan /\ binop ORem (VFloat inf) (VInt 1) = Err ENan.
Proof. vm_compute. repeat split; reflexivity. Qed.

(* non-vacuity and concrete instances *)
Example C11_examples :
  binop OAdd (VInt 9223372036854775807) (VInt 1) = Ok (VInt (-9223372036854775808))
  /\ binop OMul (VInt (-9223372036854775808)) (VInt (-1)) = Ok (VInt (-9223372036854775808))
  /\ binop ORem (VInt (-9223372036854775808)) (VInt (-1)) = Ok (VInt 0)
  /\ binop ORem (VInt (-7)) (VInt 2) = Ok (VInt (-1))
  /\ binop ODiv (VInt 1) (VInt 2) = Ok (VFloat (f64_of_bits 0x3fe0000000000000))
  /\ binop ODiv (VBytes (hx "61")) (VInt 0) = Err EDivZero
  /\ binop ODiv (VInt 1) (VFloat (f64_of_bits 0x8000000000000000)) = Err EDivZero
  /\ binop ORem (VFloat (f64_of_bits 0xc016000000000000)) (VInt 2) = Ok (VFloat (f64_of_bits 0xbff8000000000000))
  /\ binop OMul (VBytes (hx "6162")) (VInt 3) = Ok (VBytes (hx "616261626162"))
  /\ binop OMul (VInt (-4)) (VBytes (hx "6162")) = Ok (VBytes [])
  /\ is_number (VInt 3) = true /\ divisor_is_zero (VInt 3) = false.
Proof. vm_compute. repeat split; reflexivity. Qed.
