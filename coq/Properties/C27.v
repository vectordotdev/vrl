(* C27 — Digest and checksum functions match reference algorithms.
   Specifications (the published algorithms, in Gallina): Model/DigestMd5.v (RFC 1321), DigestSha1.v and
   DigestSha2.v (FIPS 180-4), DigestSha3.v (FIPS 202), Hmac.v (RFC 2104), Crc.v (Rocksoft model + the 112
   catalogue parameter sets), XxHash.v (xxHash specification: XXH32, XXH64, XXH3-64, XXH3-128), Seahash.v.
   VRL side: Model/DigestGlue.v (src/stdlib/{md5,sha1,sha2,sha3,hmac,crc,xxhash,seahash}.rs).
   `str "..."` is the byte string of an ASCII text, `hx "..."` of a hex text.

   The property is agreement with external definitions: the theorems below say that the VRL-level model
   returns `encode (spec variant input)` for every accepted name and every input, which names are accepted,
   that the encoders lose nothing, and that each specification reproduces its standard's test vectors.  The
   tie between the specifications and the Rust crates is the correspondence run (props/C27.py). *)
From Coq Require Import List NArith ZArith Bool String.
From VRL Require Import Base.Bytes Base.Value Base.Lit Model.DigestWord Model.DigestMd5 Model.DigestSha1
     Model.DigestSha2 Model.DigestSha3 Model.Hmac Model.Crc Model.XxHash Model.Seahash Model.Base64 Model.DigestGlue
     Proofs.DigestProofs.
Import ListNotations.
Local Open Scope N_scope.
Local Open Scope string_scope.
Local Open Scope list_scope.

Theorem C27_glue_md5 : forall b : bytes, vrl_md5 (VBytes b) = ROk (VBytes (hex (md5 b))).
Proof. reflexivity. Qed.
Print Assumptions C27_glue_md5.

Theorem C27_glue_sha1 : forall b : bytes, vrl_sha1 (VBytes b) = ROk (VBytes (hex (sha1 b))).
Proof. reflexivity. Qed.
Print Assumptions C27_glue_sha1.

Theorem C27_glue_seahash : forall b : bytes, vrl_seahash (VBytes b) = ROk (VInt (to_i64 (seahash b))).
Proof. reflexivity. Qed.
Print Assumptions C27_glue_seahash.

Theorem C27_glue_sha2 : forall (v : sha2_variant) (b : bytes),
  vrl_sha2 (ALit (str (sha2_name v))) (VBytes b) = ROk (VBytes (hex (sha2_spec v b))).
Proof. intros [] b; reflexivity. Qed.
Print Assumptions C27_glue_sha2.

Theorem C27_glue_sha2_default : forall b : bytes,
  vrl_sha2 ADefault (VBytes b) = ROk (VBytes (hex (sha512_256 b))).
Proof. reflexivity. Qed.
Print Assumptions C27_glue_sha2_default.

(* nothing else is accepted: a successful call used the default or a literal spelled exactly as documented *)
Theorem C27_sha2_accepted : forall (a : varg) (x r : value), vrl_sha2 a x = ROk r ->
  exists v b, x = VBytes b /\ r = VBytes (hex (sha2_spec v b))
              /\ ((a = ADefault /\ v = S512_256) \/ a = ALit (str (sha2_name v))).
Proof. exact (enum_call_ok sha2_name sha2_all S512_256 (fun v b => VBytes (hex (sha2_spec v b)))). Qed.
Print Assumptions C27_sha2_accepted.

Theorem C27_glue_sha3 : forall (v : sha3_variant) (b : bytes),
  vrl_sha3 (ALit (str (sha3_name v))) (VBytes b) = ROk (VBytes (hex (sha3_spec v b))).
Proof. intros [] b; reflexivity. Qed.
Print Assumptions C27_glue_sha3.

Theorem C27_glue_sha3_default : forall b : bytes,
  vrl_sha3 ADefault (VBytes b) = ROk (VBytes (hex (sha3_512 b))).
Proof. reflexivity. Qed.
Print Assumptions C27_glue_sha3_default.

Theorem C27_sha3_accepted : forall (a : varg) (x r : value), vrl_sha3 a x = ROk r ->
  exists v b, x = VBytes b /\ r = VBytes (hex (sha3_spec v b))
              /\ ((a = ADefault /\ v = T512) \/ a = ALit (str (sha3_name v))).
Proof. exact (enum_call_ok sha3_name sha3_all T512 (fun v b => VBytes (hex (sha3_spec v b)))). Qed.
Print Assumptions C27_sha3_accepted.

Theorem C27_glue_hmac : forall (alg : hmac_alg) (k b : bytes),
  vrl_hmac (ADyn (VBytes (str (hmac_name alg)))) (VBytes b) (VBytes k) = ROk (VBytes (hmac_spec alg k b))
  /\ vrl_hmac (ALit (str (hmac_name alg))) (VBytes b) (VBytes k) = ROk (VBytes (hmac_spec alg k b)).
Proof. intros [] k b; split; reflexivity. Qed.
Print Assumptions C27_glue_hmac.

Theorem C27_glue_hmac_default : forall k b : bytes,
  vrl_hmac ADefault (VBytes b) (VBytes k) = ROk (VBytes (hmac_spec HSha256 k b)).
Proof. reflexivity. Qed.
Print Assumptions C27_glue_hmac_default.

(* a successful call: the name, upper-cased the way str::to_uppercase does, is one of the five documented *)
Theorem C27_hmac_accepted : forall (a : varg) (x key r : value), vrl_hmac a x key = ROk r ->
  exists alg b k, x = VBytes b /\ key = VBytes k /\ r = VBytes (hmac_spec alg k b)
    /\ match a with
       | ADefault => alg = HSha256
       | _ => exists n, name_given a = Some n /\ name_upper n = str (hmac_name alg)
       end.
Proof.
  intros a x key r (b & -> & (k & -> & H)%with_bytes_ok)%with_bytes_ok.
  apply (runtime_call_ok hmac_name hmac_all _ (fun alg => ROk (VBytes (hmac_spec alg k b)))) in H
    as (alg & _ & [= <-] & Ha).
  exists alg, b, k. repeat split. destruct a; try assumption. destruct alg; (reflexivity || discriminate).
Qed.
Print Assumptions C27_hmac_accepted.

(* the documented way to get text: encode_base16 / encode_base64 around the call *)
Theorem C27_glue_hmac_encoded : forall (alg : hmac_alg) (k b : bytes),
  wrap_res WHex (vrl_hmac (ADyn (VBytes (str (hmac_name alg)))) (VBytes b) (VBytes k))
    = ROk (VBytes (hex (hmac_spec alg k b)))
  /\ wrap_res WB64 (vrl_hmac (ADyn (VBytes (str (hmac_name alg)))) (VBytes b) (VBytes k))
    = ROk (VBytes (b64_encode false true (hmac_spec alg k b))).
Proof. intros alg k b. rewrite (proj1 (C27_glue_hmac alg k b)). split; reflexivity. Qed.
Print Assumptions C27_glue_hmac_encoded.

Theorem C27_glue_crc : forall (e : crc_entry) (b : bytes), In e crc_catalogue ->
  vrl_crc (ADyn (VBytes (str (crc_name e)))) (VBytes b) = ROk (VBytes (dec (crc_spec e b)))
  /\ vrl_crc (ALit (str (crc_name e))) (VBytes b) = ROk (VBytes (dec (crc_spec e b))).
Proof. intros e b Hin. exact (glue_crc_spelled e _ b Hin (proj1 (crc_name_upper e Hin))). Qed.
Print Assumptions C27_glue_crc.

(* the default is CRC-32/ISO-HDLC: poly 04c11db7, init ffffffff, reflected in and out, xorout ffffffff *)
Theorem C27_glue_crc_default : exists e, In e crc_catalogue /\ crc_name e = "CRC_32_ISO_HDLC"
  /\ snd (fst e) = mkCrc 32 0x04c11db7 0xffffffff true true 0xffffffff
  /\ forall b, vrl_crc ADefault (VBytes b) = ROk (VBytes (dec (crc_spec e b))).
Proof.
  destruct (crc_lookup (str "CRC_32_ISO_HDLC")) as [e|] eqn:L; [|vm_compute in L; discriminate].
  exists e. split; [exact (proj1 (lookup_some _ _ _ _ L)) |].
  vm_compute in L. injection L as <-. repeat split.
Qed.
Print Assumptions C27_glue_crc_default.

Theorem C27_crc_accepted : forall (a : varg) (x r : value), vrl_crc a x = ROk r ->
  exists e b, In e crc_catalogue /\ x = VBytes b /\ r = VBytes (dec (crc_spec e b))
    /\ match a with
       | ADefault => crc_name e = "CRC_32_ISO_HDLC"
       | _ => exists n, name_given a = Some n /\ name_upper n = str (crc_name e)
       end.
Proof.
  intros a x r H. destruct x as [b| | | | | | | |];
    try (unfold vrl_crc in H; destruct (runtime_name _ a); discriminate).
  apply (runtime_call_ok crc_name crc_catalogue _ (fun e => ROk (VBytes (dec (crc_spec e b))))) in H
    as (e & Hin & [= <-] & Ha).
  exists e, b. repeat split; try assumption. destruct a; try assumption. symmetry. apply str_inj, Ha.
Qed.
Print Assumptions C27_crc_accepted.

(* the Rocksoft model with each of the 112 parameter sets yields the catalogue's check value for "123456789" *)
Theorem C27_crc_catalogue_check : List.length crc_catalogue = 112%nat /\
  forall e : crc_entry, In e crc_catalogue -> crc_spec e (str "123456789") = crc_check e.
Proof. split; [reflexivity | exact crc_catalogue_check]. Qed.
Print Assumptions C27_crc_catalogue_check.

Theorem C27_glue_xxhash : forall (v : xxh_variant) (b : bytes),
  vrl_xxhash (ADyn (VBytes (str (xxh_name v)))) (VBytes b) = ROk (xxh_spec v b)
  /\ vrl_xxhash (ALit (str (xxh_name v))) (VBytes b) = ROk (xxh_spec v b).
Proof. intros [] b; split; reflexivity. Qed.
Print Assumptions C27_glue_xxhash.

Theorem C27_glue_xxhash_default : forall b : bytes,
  vrl_xxhash ADefault (VBytes b) = ROk (VInt (Z.of_N (xxh32 b))).
Proof. reflexivity. Qed.
Print Assumptions C27_glue_xxhash_default.

Theorem C27_xxhash_accepted : forall (a : varg) (x r : value), vrl_xxhash a x = ROk r ->
  exists v b, x = VBytes b /\ r = xxh_spec v b
    /\ match a with
       | ADefault => v = X32
       | _ => exists n, name_given a = Some n /\ name_upper n = str (xxh_name v)
       end.
Proof.
  intros a x r (b & -> & H)%with_bytes_ok.
  apply (runtime_call_ok xxh_name xxh_all _ (fun v => ROk (xxh_spec v b))) in H as (v & _ & [= <-] & Ha).
  exists v, b. repeat split. destruct a; try assumption. destruct v; (reflexivity || discriminate).
Qed.
Print Assumptions C27_xxhash_accepted.

(* hmac, crc and xxhash fold case: the lower-case spelling of every documented name gives the same result;
   sha2 and sha3 do not (a lower-case literal does not compile) *)
Theorem C27_lowercase_names :
  (forall alg k b, vrl_hmac (ADyn (VBytes (lower_ascii (str (hmac_name alg))))) (VBytes b) (VBytes k)
                   = ROk (VBytes (hmac_spec alg k b)))
  /\ (forall v b, vrl_xxhash (ADyn (VBytes (lower_ascii (str (xxh_name v))))) (VBytes b) = ROk (xxh_spec v b))
  /\ (forall e b, In e crc_catalogue ->
        vrl_crc (ADyn (VBytes (lower_ascii (str (crc_name e))))) (VBytes b) = ROk (VBytes (dec (crc_spec e b))))
  /\ (forall v x, vrl_sha2 (ALit (lower_ascii (str (sha2_name v)))) x = RCompile)
  /\ (forall v x, vrl_sha3 (ALit (lower_ascii (str (sha3_name v)))) x = RCompile).
Proof. repeat apply conj; try (intros []; reflexivity). intros e b Hin. exact (proj1 (glue_crc_spelled e _ b Hin (proj2 (crc_name_upper e Hin)))). Qed.
Print Assumptions C27_lowercase_names.

(* a `value` (or `key`) that is not a byte string never yields a digest *)
Theorem C27_type_errors : forall x : value, as_bytes x = None ->
  vrl_md5 x = RErr EType /\ vrl_sha1 x = RErr EType /\ vrl_seahash x = RErr EType
  /\ (forall a r, vrl_sha2 a x <> ROk r) /\ (forall a r, vrl_sha3 a x <> ROk r)
  /\ (forall a k r, vrl_hmac a x k <> ROk r) /\ (forall a b r, vrl_hmac a (VBytes b) x <> ROk r)
  /\ (forall a r, vrl_crc a x <> ROk r) /\ (forall a r, vrl_xxhash a x <> ROk r).
Proof.
  intros x Hx.
  repeat split; unfold vrl_md5, vrl_sha1, vrl_seahash, vrl_sha2, vrl_sha3, vrl_hmac, vrl_crc, vrl_xxhash, with_bytes;
    cbn [as_bytes]; rewrite ?Hx; try reflexivity; intros a; try discriminate.
  - destruct (enum_arg sha2_name sha2_all S512_256 a); discriminate.
  - destruct (enum_arg sha3_name sha3_all T512 a); discriminate.
  - destruct (runtime_name "CRC_32_ISO_HDLC" a); discriminate.
Qed.
Print Assumptions C27_type_errors.

Theorem C27_hmac_def : forall (H : bytes -> bytes) (B : N) (key msg : bytes),
  hmac H B key msg =
  H (xor_bytes 0x5c (hmac_key H B key) ++ H (xor_bytes 0x36 (hmac_key H B key) ++ msg)).
Proof. reflexivity. Qed.
Print Assumptions C27_hmac_def.

Theorem C27_hmac_key_short : forall (H : bytes -> bytes) (B : N) (key : bytes),
  blen key <= B -> hmac_key H B key = key ++ zeros (B - blen key).
Proof. exact hmac_key_short. Qed.
Print Assumptions C27_hmac_key_short.

Theorem C27_hmac_key_long : forall (H : bytes -> bytes) (B : N) (key : bytes),
  B < blen key -> hmac_key H B key = H key ++ zeros (B - blen (H key)).
Proof. exact hmac_key_long. Qed.
Print Assumptions C27_hmac_key_long.

(* for the five hashes `hmac` offers the padded key K' has exactly the block size *)
Theorem C27_hmac_key_length : forall (alg : hmac_alg) (key : bytes),
  blen (hmac_key (hmac_hash alg) (hmac_block alg) key) = hmac_block alg.
Proof. intros alg key. apply hmac_key_length. intros m. apply hmac_hash_fits. Qed.
Print Assumptions C27_hmac_key_length.

Theorem C27_hex_inj : forall a b : bytes, hex a = hex b -> a = b.
Proof. exact hex_inj. Qed.
Print Assumptions C27_hex_inj.

Theorem C27_hex_length : forall b : bytes, List.length (hex b) = (2 * List.length b)%nat
  /\ (wf_bytes b = true ->
      forallb (fun c => (((48 <=? c) && (c <=? 57)) || ((97 <=? c) && (c <=? 102)))%N) (hex b) = true).
Proof. intros b. split; [apply hex_length | apply hex_alphabet]. Qed.
Print Assumptions C27_hex_length.

Theorem C27_dec_inj : forall a b : N, dec a = dec b -> a = b.
Proof. exact dec_inj. Qed.
Print Assumptions C27_dec_inj.

Theorem C27_i64_inj : forall a b : N, a < 2 ^ 64 -> b < 2 ^ 64 ->
  (to_i64 a = to_i64 b -> a = b) /\ (- 2 ^ 63 <= to_i64 a < 2 ^ 63)%Z.
Proof. intros a b Ha Hb. split; [apply to_i64_inj; assumption | apply to_i64_range; assumption]. Qed.
Print Assumptions C27_i64_inj.

(* digests have their standard sizes (so the hex text is twice as long); hmac returns the hash's size *)
Theorem C27_digest_lengths : forall m : bytes,
  List.length (md5 m) = 16%nat /\ List.length (sha1 m) = 20%nat
  /\ (forall v, List.length (sha2_spec v m) = sha2_outlen v)
  /\ (forall v, List.length (sha3_spec v m) = sha3_outlen v)
  /\ (forall a k, List.length (hmac_spec a k m) = hmac_outlen a).
Proof.
  intros m. split; [apply md5_length | split; [apply sha1_length | split; [| split]]]; intros.
  - apply sha2_spec_length. - apply sha3_spec_length. - apply hmac_spec_length.
Qed.
Print Assumptions C27_digest_lengths.

(* the integer results are genuine 32-/64-bit words, so C27_i64_inj applies to them *)
Theorem C27_word_ranges : forall m : bytes,
  xxh32 m < 2 ^ 32 /\ xxh64 m < 2 ^ 64 /\ xxh3_64 m < 2 ^ 64 /\ seahash m < 2 ^ 64.
Proof.
  intros m. split; [apply xxh32_lt | split; [apply xxh64_lt | split; [apply xxh3_64_lt | apply seahash_lt]]].
Qed.
Print Assumptions C27_word_ranges.

Theorem C27_sha512t_iv :
  sha512t_iv_gen (str "SHA-512/224") = iv512_224 /\ sha512t_iv_gen (str "SHA-512/256") = iv512_256.
Proof. split; vm_compute; reflexivity. Qed.
Print Assumptions C27_sha512t_iv.

(* RFC 1321 appendix A.5 test suite *)
Theorem C27_vectors_md5 :
  md5 (str "") = hx "d41d8cd98f00b204e9800998ecf8427e"
  /\ md5 (str "a") = hx "0cc175b9c0f1b6a831c399e269772661"
  /\ md5 (str "abc") = hx "900150983cd24fb0d6963f7d28e17f72"
  /\ md5 (str "message digest") = hx "f96b697d7cb7938d525a2f31aaf161d0"
  /\ md5 (str "abcdefghijklmnopqrstuvwxyz") = hx "c3fcd3d76192e4007dfb496cca67e13b"
  /\ md5 (str "ABCDEFGHIJKLMNOPQRSTUVWXYZabcdefghijklmnopqrstuvwxyz0123456789") = hx "d174ab98d277d9f5a5611c2c9f419d9f"
  /\ md5 (str "12345678901234567890123456789012345678901234567890123456789012345678901234567890") = hx "57edf4a22be3c955ac49da2e2107b67a".
Proof. repeat apply conj; vm_compute; reflexivity. Qed.
Print Assumptions C27_vectors_md5.

(* FIPS 180 / NIST CSRC example messages: abc, empty, the 448-bit and the 896-bit message *)
Theorem C27_vectors_sha1 :
  sha1 (str "abc") = hx "a9993e364706816aba3e25717850c26c9cd0d89d"
  /\ sha1 (str "") = hx "da39a3ee5e6b4b0d3255bfef95601890afd80709"
  /\ sha1 (str "abcdbcdecdefdefgefghfghighijhijkijkljklmklmnlmnomnopnopq") = hx "84983e441c3bd26ebaae4aa1f95129e5e54670f1"
  /\ sha1 (str "abcdefghbcdefghicdefghijdefghijkefghijklfghijklmghijklmnhijklmnoijklmnopjklmnopqklmnopqrlmnopqrsmnopqrstnopqrstu") = hx "a49b2446a02c645bf419f995b67091253a04a259".
Proof. repeat apply conj; vm_compute; reflexivity. Qed.
Print Assumptions C27_vectors_sha1.

(* NIST CSRC example values for every SHA-2 variant: abc, empty, the 448-bit and the 896-bit message *)
Theorem C27_vectors_sha2 :
  sha224 (str "abc") = hx "23097d223405d8228642a477bda255b32aadbce4bda0b3f7e36c9da7"
  /\ sha224 (str "") = hx "d14a028c2a3a2bc9476102bb288234c415a2b01f828ea62ac5b3e42f"
  /\ sha224 (str "abcdbcdecdefdefgefghfghighijhijkijkljklmklmnlmnomnopnopq") = hx "75388b16512776cc5dba5da1fd890150b0c6455cb4f58b1952522525"
  /\ sha224 (str "abcdefghbcdefghicdefghijdefghijkefghijklfghijklmghijklmnhijklmnoijklmnopjklmnopqklmnopqrlmnopqrsmnopqrstnopqrstu") = hx "c97ca9a559850ce97a04a96def6d99a9e0e0e2ab14e6b8df265fc0b3"
  /\ sha256 (str "abc") = hx "ba7816bf8f01cfea414140de5dae2223b00361a396177a9cb410ff61f20015ad"
  /\ sha256 (str "") = hx "e3b0c44298fc1c149afbf4c8996fb92427ae41e4649b934ca495991b7852b855"
  /\ sha256 (str "abcdbcdecdefdefgefghfghighijhijkijkljklmklmnlmnomnopnopq") = hx "248d6a61d20638b8e5c026930c3e6039a33ce45964ff2167f6ecedd419db06c1"
  /\ sha256 (str "abcdefghbcdefghicdefghijdefghijkefghijklfghijklmghijklmnhijklmnoijklmnopjklmnopqklmnopqrlmnopqrsmnopqrstnopqrstu") = hx "cf5b16a778af8380036ce59e7b0492370b249b11e8f07a51afac45037afee9d1"
  /\ sha384 (str "abc") = hx "cb00753f45a35e8bb5a03d699ac65007272c32ab0eded1631a8b605a43ff5bed8086072ba1e7cc2358baeca134c825a7"
  /\ sha384 (str "") = hx "38b060a751ac96384cd9327eb1b1e36a21fdb71114be07434c0cc7bf63f6e1da274edebfe76f65fbd51ad2f14898b95b"
  /\ sha384 (str "abcdbcdecdefdefgefghfghighijhijkijkljklmklmnlmnomnopnopq") = hx "3391fdddfc8dc7393707a65b1b4709397cf8b1d162af05abfe8f450de5f36bc6b0455a8520bc4e6f5fe95b1fe3c8452b"
  /\ sha384 (str "abcdefghbcdefghicdefghijdefghijkefghijklfghijklmghijklmnhijklmnoijklmnopjklmnopqklmnopqrlmnopqrsmnopqrstnopqrstu") = hx "09330c33f71147e83d192fc782cd1b4753111b173b3b05d22fa08086e3b0f712fcc7c71a557e2db966c3e9fa91746039"
  /\ sha512 (str "abc") = hx "ddaf35a193617abacc417349ae20413112e6fa4e89a97ea20a9eeee64b55d39a2192992a274fc1a836ba3c23a3feebbd454d4423643ce80e2a9ac94fa54ca49f"
  /\ sha512 (str "") = hx "cf83e1357eefb8bdf1542850d66d8007d620e4050b5715dc83f4a921d36ce9ce47d0d13c5d85f2b0ff8318d2877eec2f63b931bd47417a81a538327af927da3e"
  /\ sha512 (str "abcdbcdecdefdefgefghfghighijhijkijkljklmklmnlmnomnopnopq") = hx "204a8fc6dda82f0a0ced7beb8e08a41657c16ef468b228a8279be331a703c33596fd15c13b1b07f9aa1d3bea57789ca031ad85c7a71dd70354ec631238ca3445"
  /\ sha512 (str "abcdefghbcdefghicdefghijdefghijkefghijklfghijklmghijklmnhijklmnoijklmnopjklmnopqklmnopqrlmnopqrsmnopqrstnopqrstu") = hx "8e959b75dae313da8cf4f72814fc143f8f7779c6eb9f7fa17299aeadb6889018501d289e4900f7e4331b99dec4b5433ac7d329eeb6dd26545e96e55b874be909"
  /\ sha512_224 (str "abc") = hx "4634270f707b6a54daae7530460842e20e37ed265ceee9a43e8924aa"
  /\ sha512_224 (str "") = hx "6ed0dd02806fa89e25de060c19d3ac86cabb87d6a0ddd05c333b84f4"
  /\ sha512_224 (str "abcdbcdecdefdefgefghfghighijhijkijkljklmklmnlmnomnopnopq") = hx "e5302d6d54bb242275d1e7622d68df6eb02dedd13f564c13dbda2174"
  /\ sha512_224 (str "abcdefghbcdefghicdefghijdefghijkefghijklfghijklmghijklmnhijklmnoijklmnopjklmnopqklmnopqrlmnopqrsmnopqrstnopqrstu") = hx "23fec5bb94d60b23308192640b0c453335d664734fe40e7268674af9"
  /\ sha512_256 (str "abc") = hx "53048e2681941ef99b2e29b76b4c7dabe4c2d0c634fc6d46e0e2f13107e7af23"
  /\ sha512_256 (str "") = hx "c672b8d1ef56ed28ab87c3622c5114069bdd3ad7b8f9737498d0c01ecef0967a"
  /\ sha512_256 (str "abcdbcdecdefdefgefghfghighijhijkijkljklmklmnlmnomnopnopq") = hx "bde8e1f9f19bb9fd3406c90ec6bc47bd36d8ada9f11880dbc8a22a7078b6a461"
  /\ sha512_256 (str "abcdefghbcdefghicdefghijdefghijkefghijklfghijklmghijklmnhijklmnoijklmnopjklmnopqklmnopqrlmnopqrsmnopqrstnopqrstu") = hx "3928e184fb8690f840da3988121d31be65cb9d3ef83ee6146feac861e19b563a".
Proof. repeat apply conj; vm_compute; reflexivity. Qed.
Print Assumptions C27_vectors_sha2.

(* NIST CSRC SHA-3 example values: abc, empty, 448-bit, 896-bit, and the 1600-bit message 0xA3 x 200 *)
Theorem C27_vectors_sha3 :
  sha3_224 (str "abc") = hx "e642824c3f8cf24ad09234ee7d3c766fc9a3a5168d0c94ad73b46fdf"
  /\ sha3_224 (str "") = hx "6b4e03423667dbb73b6e15454f0eb1abd4597f9a1b078e3f5b5a6bc7"
  /\ sha3_224 (str "abcdbcdecdefdefgefghfghighijhijkijkljklmklmnlmnomnopnopq") = hx "8a24108b154ada21c9fd5574494479ba5c7e7ab76ef264ead0fcce33"
  /\ sha3_224 (str "abcdefghbcdefghicdefghijdefghijkefghijklfghijklmghijklmnhijklmnoijklmnopjklmnopqklmnopqrlmnopqrsmnopqrstnopqrstu") = hx "543e6868e1666c1a643630df77367ae5a62a85070a51c14cbf665cbc"
  /\ sha3_224 (repeat 163%N 200) = hx "9376816aba503f72f96ce7eb65ac095deee3be4bf9bbc2a1cb7e11e0"
  /\ sha3_256 (str "abc") = hx "3a985da74fe225b2045c172d6bd390bd855f086e3e9d525b46bfe24511431532"
  /\ sha3_256 (str "") = hx "a7ffc6f8bf1ed76651c14756a061d662f580ff4de43b49fa82d80a4b80f8434a"
  /\ sha3_256 (str "abcdbcdecdefdefgefghfghighijhijkijkljklmklmnlmnomnopnopq") = hx "41c0dba2a9d6240849100376a8235e2c82e1b9998a999e21db32dd97496d3376"
  /\ sha3_256 (str "abcdefghbcdefghicdefghijdefghijkefghijklfghijklmghijklmnhijklmnoijklmnopjklmnopqklmnopqrlmnopqrsmnopqrstnopqrstu") = hx "916f6061fe879741ca6469b43971dfdb28b1a32dc36cb3254e812be27aad1d18"
  /\ sha3_256 (repeat 163%N 200) = hx "79f38adec5c20307a98ef76e8324afbfd46cfd81b22e3973c65fa1bd9de31787"
  /\ sha3_384 (str "abc") = hx "ec01498288516fc926459f58e2c6ad8df9b473cb0fc08c2596da7cf0e49be4b298d88cea927ac7f539f1edf228376d25"
  /\ sha3_384 (str "") = hx "0c63a75b845e4f7d01107d852e4c2485c51a50aaaa94fc61995e71bbee983a2ac3713831264adb47fb6bd1e058d5f004"
  /\ sha3_384 (str "abcdbcdecdefdefgefghfghighijhijkijkljklmklmnlmnomnopnopq") = hx "991c665755eb3a4b6bbdfb75c78a492e8c56a22c5c4d7e429bfdbc32b9d4ad5aa04a1f076e62fea19eef51acd0657c22"
  /\ sha3_384 (str "abcdefghbcdefghicdefghijdefghijkefghijklfghijklmghijklmnhijklmnoijklmnopjklmnopqklmnopqrlmnopqrsmnopqrstnopqrstu") = hx "79407d3b5916b59c3e30b09822974791c313fb9ecc849e406f23592d04f625dc8c709b98b43b3852b337216179aa7fc7"
  /\ sha3_384 (repeat 163%N 200) = hx "1881de2ca7e41ef95dc4732b8f5f002b189cc1e42b74168ed1732649ce1dbcdd76197a31fd55ee989f2d7050dd473e8f"
  /\ sha3_512 (str "abc") = hx "b751850b1a57168a5693cd924b6b096e08f621827444f70d884f5d0240d2712e10e116e9192af3c91a7ec57647e3934057340b4cf408d5a56592f8274eec53f0"
  /\ sha3_512 (str "") = hx "a69f73cca23a9ac5c8b567dc185a756e97c982164fe25859e0d1dcc1475c80a615b2123af1f5f94c11e3e9402c3ac558f500199d95b6d3e301758586281dcd26"
  /\ sha3_512 (str "abcdbcdecdefdefgefghfghighijhijkijkljklmklmnlmnomnopnopq") = hx "04a371e84ecfb5b8b77cb48610fca8182dd457ce6f326a0fd3d7ec2f1e91636dee691fbe0c985302ba1b0d8dc78c086346b533b49c030d99a27daf1139d6e75e"
  /\ sha3_512 (str "abcdefghbcdefghicdefghijdefghijkefghijklfghijklmghijklmnhijklmnoijklmnopjklmnopqklmnopqrlmnopqrsmnopqrstnopqrstu") = hx "afebb2ef542e6579c50cad06d2e578f9f8dd6881d7dc824d26360feebf18a4fa73e3261122948efcfd492e74e82e2189ed0fb440d187f382270cb455f21dd185"
  /\ sha3_512 (repeat 163%N 200) = hx "e76dfad22084a8b1467fcf2ffa58361bec7628edf5f3fdc0e4805dc48caeeca81b7c13c30adf52a3659584739a2df46be589c51ca1a4a8416df6545a1ce8ba00".
Proof. repeat apply conj; vm_compute; reflexivity. Qed.
Print Assumptions C27_vectors_sha3.

(* RFC 2202 (HMAC-SHA-1, cases 1-7) and RFC 4231 (HMAC-SHA-224/256/384/512, cases 1-4, 6, 7) *)
Theorem C27_vectors_hmac :
  hmac_spec HSha1 (hx "0b0b0b0b0b0b0b0b0b0b0b0b0b0b0b0b0b0b0b0b") (hx "4869205468657265") = hx "b617318655057264e28bc0b6fb378c8ef146be00"
  /\ hmac_spec HSha1 (hx "4a656665") (hx "7768617420646f2079612077616e7420666f72206e6f7468696e673f") = hx "effcdf6ae5eb2fa2d27416d5f184df9c259a7c79"
  /\ hmac_spec HSha1 (hx "aaaaaaaaaaaaaaaaaaaaaaaaaaaaaaaaaaaaaaaa") (hx "dddddddddddddddddddddddddddddddddddddddddddddddddddddddddddddddddddddddddddddddddddddddddddddddddddd") = hx "125d7342b9ac11cd91a39af48aa17b4f63f175d3"
  /\ hmac_spec HSha1 (hx "0102030405060708090a0b0c0d0e0f10111213141516171819") (hx "cdcdcdcdcdcdcdcdcdcdcdcdcdcdcdcdcdcdcdcdcdcdcdcdcdcdcdcdcdcdcdcdcdcdcdcdcdcdcdcdcdcdcdcdcdcdcdcdcdcd") = hx "4c9007f4026250c6bc8414f9bf50c86c2d7235da"
  /\ hmac_spec HSha1 (hx "0c0c0c0c0c0c0c0c0c0c0c0c0c0c0c0c0c0c0c0c") (hx "546573742057697468205472756e636174696f6e") = hx "4c1a03424b55e07fe7f27be1d58bb9324a9a5a04"
  /\ hmac_spec HSha1 (hx "aaaaaaaaaaaaaaaaaaaaaaaaaaaaaaaaaaaaaaaaaaaaaaaaaaaaaaaaaaaaaaaaaaaaaaaaaaaaaaaaaaaaaaaaaaaaaaaaaaaaaaaaaaaaaaaaaaaaaaaaaaaaaaaaaaaaaaaaaaaaaaaaaaaaaaaaaaaaaaaa") (hx "54657374205573696e67204c6172676572205468616e20426c6f636b2d53697a65204b6579202d2048617368204b6579204669727374") = hx "aa4ae5e15272d00e95705637ce8a3b55ed402112"
  /\ hmac_spec HSha1 (hx "aaaaaaaaaaaaaaaaaaaaaaaaaaaaaaaaaaaaaaaaaaaaaaaaaaaaaaaaaaaaaaaaaaaaaaaaaaaaaaaaaaaaaaaaaaaaaaaaaaaaaaaaaaaaaaaaaaaaaaaaaaaaaaaaaaaaaaaaaaaaaaaaaaaaaaaaaaaaaaaa") (hx "54657374205573696e67204c6172676572205468616e20426c6f636b2d53697a65204b657920616e64204c6172676572205468616e204f6e6520426c6f636b2d53697a652044617461") = hx "e8e99d0f45237d786d6bbaa7965c7808bbff1a91"
  /\ hmac_spec HSha224 (hx "0b0b0b0b0b0b0b0b0b0b0b0b0b0b0b0b0b0b0b0b") (hx "4869205468657265") = hx "896fb1128abbdf196832107cd49df33f47b4b1169912ba4f53684b22"
  /\ hmac_spec HSha224 (hx "4a656665") (hx "7768617420646f2079612077616e7420666f72206e6f7468696e673f") = hx "a30e01098bc6dbbf45690f3a7e9e6d0f8bbea2a39e6148008fd05e44"
  /\ hmac_spec HSha224 (hx "aaaaaaaaaaaaaaaaaaaaaaaaaaaaaaaaaaaaaaaa") (hx "dddddddddddddddddddddddddddddddddddddddddddddddddddddddddddddddddddddddddddddddddddddddddddddddddddd") = hx "7fb3cb3588c6c1f6ffa9694d7d6ad2649365b0c1f65d69d1ec8333ea"
  /\ hmac_spec HSha224 (hx "0102030405060708090a0b0c0d0e0f10111213141516171819") (hx "cdcdcdcdcdcdcdcdcdcdcdcdcdcdcdcdcdcdcdcdcdcdcdcdcdcdcdcdcdcdcdcdcdcdcdcdcdcdcdcdcdcdcdcdcdcdcdcdcdcd") = hx "6c11506874013cac6a2abc1bb382627cec6a90d86efc012de7afec5a"
  /\ hmac_spec HSha224 (hx "aaaaaaaaaaaaaaaaaaaaaaaaaaaaaaaaaaaaaaaaaaaaaaaaaaaaaaaaaaaaaaaaaaaaaaaaaaaaaaaaaaaaaaaaaaaaaaaaaaaaaaaaaaaaaaaaaaaaaaaaaaaaaaaaaaaaaaaaaaaaaaaaaaaaaaaaaaaaaaaaaaaaaaaaaaaaaaaaaaaaaaaaaaaaaaaaaaaaaaaaaaaaaaaaaaaaaaaaaaaaaaaaaaaaaaaaaaaaaaaaaaaaaaaaaaaaaaaaaaaaaa") (hx "54657374205573696e67204c6172676572205468616e20426c6f636b2d53697a65204b6579202d2048617368204b6579204669727374") = hx "95e9a0db962095adaebe9b2d6f0dbce2d499f112f2d2b7273fa6870e"
  /\ hmac_spec HSha224 (hx "aaaaaaaaaaaaaaaaaaaaaaaaaaaaaaaaaaaaaaaaaaaaaaaaaaaaaaaaaaaaaaaaaaaaaaaaaaaaaaaaaaaaaaaaaaaaaaaaaaaaaaaaaaaaaaaaaaaaaaaaaaaaaaaaaaaaaaaaaaaaaaaaaaaaaaaaaaaaaaaaaaaaaaaaaaaaaaaaaaaaaaaaaaaaaaaaaaaaaaaaaaaaaaaaaaaaaaaaaaaaaaaaaaaaaaaaaaaaaaaaaaaaaaaaaaaaaaaaaaaaaa") (hx "5468697320697320612074657374207573696e672061206c6172676572207468616e20626c6f636b2d73697a65206b657920616e642061206c6172676572207468616e20626c6f636b2d73697a6520646174612e20546865206b6579206e6565647320746f20626520686173686564206265666f7265206265696e6720757365642062792074686520484d414320616c676f726974686d2e") = hx "3a854166ac5d9f023f54d517d0b39dbd946770db9c2b95c9f6f565d1"
  /\ hmac_spec HSha256 (hx "0b0b0b0b0b0b0b0b0b0b0b0b0b0b0b0b0b0b0b0b") (hx "4869205468657265") = hx "b0344c61d8db38535ca8afceaf0bf12b881dc200c9833da726e9376c2e32cff7"
  /\ hmac_spec HSha256 (hx "4a656665") (hx "7768617420646f2079612077616e7420666f72206e6f7468696e673f") = hx "5bdcc146bf60754e6a042426089575c75a003f089d2739839dec58b964ec3843"
  /\ hmac_spec HSha256 (hx "aaaaaaaaaaaaaaaaaaaaaaaaaaaaaaaaaaaaaaaa") (hx "dddddddddddddddddddddddddddddddddddddddddddddddddddddddddddddddddddddddddddddddddddddddddddddddddddd") = hx "773ea91e36800e46854db8ebd09181a72959098b3ef8c122d9635514ced565fe"
  /\ hmac_spec HSha256 (hx "0102030405060708090a0b0c0d0e0f10111213141516171819") (hx "cdcdcdcdcdcdcdcdcdcdcdcdcdcdcdcdcdcdcdcdcdcdcdcdcdcdcdcdcdcdcdcdcdcdcdcdcdcdcdcdcdcdcdcdcdcdcdcdcdcd") = hx "82558a389a443c0ea4cc819899f2083a85f0faa3e578f8077a2e3ff46729665b"
  /\ hmac_spec HSha256 (hx "aaaaaaaaaaaaaaaaaaaaaaaaaaaaaaaaaaaaaaaaaaaaaaaaaaaaaaaaaaaaaaaaaaaaaaaaaaaaaaaaaaaaaaaaaaaaaaaaaaaaaaaaaaaaaaaaaaaaaaaaaaaaaaaaaaaaaaaaaaaaaaaaaaaaaaaaaaaaaaaaaaaaaaaaaaaaaaaaaaaaaaaaaaaaaaaaaaaaaaaaaaaaaaaaaaaaaaaaaaaaaaaaaaaaaaaaaaaaaaaaaaaaaaaaaaaaaaaaaaaaaa") (hx "54657374205573696e67204c6172676572205468616e20426c6f636b2d53697a65204b6579202d2048617368204b6579204669727374") = hx "60e431591ee0b67f0d8a26aacbf5b77f8e0bc6213728c5140546040f0ee37f54"
  /\ hmac_spec HSha256 (hx "aaaaaaaaaaaaaaaaaaaaaaaaaaaaaaaaaaaaaaaaaaaaaaaaaaaaaaaaaaaaaaaaaaaaaaaaaaaaaaaaaaaaaaaaaaaaaaaaaaaaaaaaaaaaaaaaaaaaaaaaaaaaaaaaaaaaaaaaaaaaaaaaaaaaaaaaaaaaaaaaaaaaaaaaaaaaaaaaaaaaaaaaaaaaaaaaaaaaaaaaaaaaaaaaaaaaaaaaaaaaaaaaaaaaaaaaaaaaaaaaaaaaaaaaaaaaaaaaaaaaaa") (hx "5468697320697320612074657374207573696e672061206c6172676572207468616e20626c6f636b2d73697a65206b657920616e642061206c6172676572207468616e20626c6f636b2d73697a6520646174612e20546865206b6579206e6565647320746f20626520686173686564206265666f7265206265696e6720757365642062792074686520484d414320616c676f726974686d2e") = hx "9b09ffa71b942fcb27635fbcd5b0e944bfdc63644f0713938a7f51535c3a35e2"
  /\ hmac_spec HSha384 (hx "0b0b0b0b0b0b0b0b0b0b0b0b0b0b0b0b0b0b0b0b") (hx "4869205468657265") = hx "afd03944d84895626b0825f4ab46907f15f9dadbe4101ec682aa034c7cebc59cfaea9ea9076ede7f4af152e8b2fa9cb6"
  /\ hmac_spec HSha384 (hx "4a656665") (hx "7768617420646f2079612077616e7420666f72206e6f7468696e673f") = hx "af45d2e376484031617f78d2b58a6b1b9c7ef464f5a01b47e42ec3736322445e8e2240ca5e69e2c78b3239ecfab21649"
  /\ hmac_spec HSha384 (hx "aaaaaaaaaaaaaaaaaaaaaaaaaaaaaaaaaaaaaaaa") (hx "dddddddddddddddddddddddddddddddddddddddddddddddddddddddddddddddddddddddddddddddddddddddddddddddddddd") = hx "88062608d3e6ad8a0aa2ace014c8a86f0aa635d947ac9febe83ef4e55966144b2a5ab39dc13814b94e3ab6e101a34f27"
  /\ hmac_spec HSha384 (hx "0102030405060708090a0b0c0d0e0f10111213141516171819") (hx "cdcdcdcdcdcdcdcdcdcdcdcdcdcdcdcdcdcdcdcdcdcdcdcdcdcdcdcdcdcdcdcdcdcdcdcdcdcdcdcdcdcdcdcdcdcdcdcdcdcd") = hx "3e8a69b7783c25851933ab6290af6ca77a9981480850009cc5577c6e1f573b4e6801dd23c4a7d679ccf8a386c674cffb"
  /\ hmac_spec HSha384 (hx "aaaaaaaaaaaaaaaaaaaaaaaaaaaaaaaaaaaaaaaaaaaaaaaaaaaaaaaaaaaaaaaaaaaaaaaaaaaaaaaaaaaaaaaaaaaaaaaaaaaaaaaaaaaaaaaaaaaaaaaaaaaaaaaaaaaaaaaaaaaaaaaaaaaaaaaaaaaaaaaaaaaaaaaaaaaaaaaaaaaaaaaaaaaaaaaaaaaaaaaaaaaaaaaaaaaaaaaaaaaaaaaaaaaaaaaaaaaaaaaaaaaaaaaaaaaaaaaaaaaaaa") (hx "54657374205573696e67204c6172676572205468616e20426c6f636b2d53697a65204b6579202d2048617368204b6579204669727374") = hx "4ece084485813e9088d2c63a041bc5b44f9ef1012a2b588f3cd11f05033ac4c60c2ef6ab4030fe8296248df163f44952"
  /\ hmac_spec HSha384 (hx "aaaaaaaaaaaaaaaaaaaaaaaaaaaaaaaaaaaaaaaaaaaaaaaaaaaaaaaaaaaaaaaaaaaaaaaaaaaaaaaaaaaaaaaaaaaaaaaaaaaaaaaaaaaaaaaaaaaaaaaaaaaaaaaaaaaaaaaaaaaaaaaaaaaaaaaaaaaaaaaaaaaaaaaaaaaaaaaaaaaaaaaaaaaaaaaaaaaaaaaaaaaaaaaaaaaaaaaaaaaaaaaaaaaaaaaaaaaaaaaaaaaaaaaaaaaaaaaaaaaaaa") (hx "5468697320697320612074657374207573696e672061206c6172676572207468616e20626c6f636b2d73697a65206b657920616e642061206c6172676572207468616e20626c6f636b2d73697a6520646174612e20546865206b6579206e6565647320746f20626520686173686564206265666f7265206265696e6720757365642062792074686520484d414320616c676f726974686d2e") = hx "6617178e941f020d351e2f254e8fd32c602420feb0b8fb9adccebb82461e99c5a678cc31e799176d3860e6110c46523e"
  /\ hmac_spec HSha512 (hx "0b0b0b0b0b0b0b0b0b0b0b0b0b0b0b0b0b0b0b0b") (hx "4869205468657265") = hx "87aa7cdea5ef619d4ff0b4241a1d6cb02379f4e2ce4ec2787ad0b30545e17cdedaa833b7d6b8a702038b274eaea3f4e4be9d914eeb61f1702e696c203a126854"
  /\ hmac_spec HSha512 (hx "4a656665") (hx "7768617420646f2079612077616e7420666f72206e6f7468696e673f") = hx "164b7a7bfcf819e2e395fbe73b56e0a387bd64222e831fd610270cd7ea2505549758bf75c05a994a6d034f65f8f0e6fdcaeab1a34d4a6b4b636e070a38bce737"
  /\ hmac_spec HSha512 (hx "aaaaaaaaaaaaaaaaaaaaaaaaaaaaaaaaaaaaaaaa") (hx "dddddddddddddddddddddddddddddddddddddddddddddddddddddddddddddddddddddddddddddddddddddddddddddddddddd") = hx "fa73b0089d56a284efb0f0756c890be9b1b5dbdd8ee81a3655f83e33b2279d39bf3e848279a722c806b485a47e67c807b946a337bee8942674278859e13292fb"
  /\ hmac_spec HSha512 (hx "0102030405060708090a0b0c0d0e0f10111213141516171819") (hx "cdcdcdcdcdcdcdcdcdcdcdcdcdcdcdcdcdcdcdcdcdcdcdcdcdcdcdcdcdcdcdcdcdcdcdcdcdcdcdcdcdcdcdcdcdcdcdcdcdcd") = hx "b0ba465637458c6990e5a8c5f61d4af7e576d97ff94b872de76f8050361ee3dba91ca5c11aa25eb4d679275cc5788063a5f19741120c4f2de2adebeb10a298dd"
  /\ hmac_spec HSha512 (hx "aaaaaaaaaaaaaaaaaaaaaaaaaaaaaaaaaaaaaaaaaaaaaaaaaaaaaaaaaaaaaaaaaaaaaaaaaaaaaaaaaaaaaaaaaaaaaaaaaaaaaaaaaaaaaaaaaaaaaaaaaaaaaaaaaaaaaaaaaaaaaaaaaaaaaaaaaaaaaaaaaaaaaaaaaaaaaaaaaaaaaaaaaaaaaaaaaaaaaaaaaaaaaaaaaaaaaaaaaaaaaaaaaaaaaaaaaaaaaaaaaaaaaaaaaaaaaaaaaaaaaa") (hx "54657374205573696e67204c6172676572205468616e20426c6f636b2d53697a65204b6579202d2048617368204b6579204669727374") = hx "80b24263c7c1a3ebb71493c1dd7be8b49b46d1f41b4aeec1121b013783f8f3526b56d037e05f2598bd0fd2215d6a1e5295e64f73f63f0aec8b915a985d786598"
  /\ hmac_spec HSha512 (hx "aaaaaaaaaaaaaaaaaaaaaaaaaaaaaaaaaaaaaaaaaaaaaaaaaaaaaaaaaaaaaaaaaaaaaaaaaaaaaaaaaaaaaaaaaaaaaaaaaaaaaaaaaaaaaaaaaaaaaaaaaaaaaaaaaaaaaaaaaaaaaaaaaaaaaaaaaaaaaaaaaaaaaaaaaaaaaaaaaaaaaaaaaaaaaaaaaaaaaaaaaaaaaaaaaaaaaaaaaaaaaaaaaaaaaaaaaaaaaaaaaaaaaaaaaaaaaaaaaaaaaa") (hx "5468697320697320612074657374207573696e672061206c6172676572207468616e20626c6f636b2d73697a65206b657920616e642061206c6172676572207468616e20626c6f636b2d73697a6520646174612e20546865206b6579206e6565647320746f20626520686173686564206265666f7265206265696e6720757365642062792074686520484d414320616c676f726974686d2e") = hx "e37b6a775dc87dbaa4dfa9f96e5e3ffddebd71f8867289865df5a32d20cdc944b6022cac3c4982b10d5eeb55c3e4de15134676fb6de0446065c97440fa8c6a58".
Proof. repeat apply conj; vm_compute; reflexivity. Qed.
Print Assumptions C27_vectors_hmac.

(* xxHash reference values (empty input, short texts; the documented VRL examples for "foo") *)
Theorem C27_vectors_xxhash :
  xxh32 (str "") = 0x02cc5d05
  /\ xxh64 (str "") = 0xef46db3751d8e999
  /\ xxh3_64 (str "") = 0x2d06800538d394c2
  /\ xxh3_128 (str "") = 0x99aa06d3014798d86001c324468d497f
  /\ xxh32 (str "a") = 0x550d7456
  /\ xxh64 (str "a") = 0xd24ec4f1a98c6e5b
  /\ xxh3_64 (str "a") = 0xe6c632b61e964e1f
  /\ xxh3_128 (str "a") = 0xa96faf705af16834e6c632b61e964e1f
  /\ xxh32 (str "abc") = 0x32d153ff
  /\ xxh64 (str "abc") = 0x44bc2cf5ad770999
  /\ xxh3_64 (str "abc") = 0x78af5f94892f3950
  /\ xxh3_128 (str "abc") = 0x06b05ab6733a618578af5f94892f3950
  /\ xxh32 (str "foo") = 0xe20f0dd9
  /\ xxh64 (str "foo") = 0x33bf00a859c4ba3f
  /\ xxh3_64 (str "foo") = 0xab6e5f64077e7d8a
  /\ xxh3_128 (str "foo") = 0x79aef92e83454121ab6e5f64077e7d8a
  /\ xxh32 (str "Nobody inspects the spammish repetition") = 0xe2293b2f
  /\ xxh64 (str "Nobody inspects the spammish repetition") = 0xfbcea83c8a378bf1
  /\ xxh3_64 (str "Nobody inspects the spammish repetition") = 0x6cb00603b5cc47e9
  /\ xxh3_128 (str "Nobody inspects the spammish repetition") = 0xa32c6f55b80b5f449f1a957522431b91.
Proof. repeat apply conj; vm_compute; reflexivity. Qed.
Print Assumptions C27_vectors_xxhash.

(* the seahash crate's own test vectors (helper.rs diffuse vectors, reference.rs "to be or not to be") and the documented VRL example *)
Theorem C27_vectors_seahash :
  sea_diffuse 94203824938 = 17289265692384716055
  /\ sea_diffuse 0xDEADBEEF = 12110756357096144265
  /\ sea_diffuse 0 = 0
  /\ sea_diffuse 1 = 15197155197312260123
  /\ sea_diffuse 2 = 1571904453004118546
  /\ sea_diffuse 3 = 16467633989910088880
  /\ seahash (str "to be or not to be") = 1988685042348123509
  /\ seahash (str "foo") = 4413582353838009230.
Proof. repeat apply conj; vm_compute; reflexivity. Qed.
Print Assumptions C27_vectors_seahash.

Example C27_ex_sha2 : vrl_sha2 (ALit (str "SHA-256")) (VBytes (str "abc"))
  = ROk (VBytes (str "ba7816bf8f01cfea414140de5dae2223b00361a396177a9cb410ff61f20015ad")).
Proof. vm_compute. reflexivity. Qed.
Example C27_ex_crc : vrl_crc (ADyn (VBytes (str "crc_32_iso_hdlc"))) (VBytes (str "123456789"))
  = ROk (VBytes (str "3421780262")).                      (* 0xCBF43926 *)
Proof. vm_compute. reflexivity. Qed.
Example C27_ex_hmac_long_key : 64 < blen (repeat 170 131) /\
  hmac_key sha256 64 (repeat 170 131) = sha256 (repeat 170 131) ++ zeros 32.
Proof. split; vm_compute; reflexivity. Qed.
Example C27_ex_unicode_name :      (* U+017F LATIN SMALL LETTER LONG S upper-cases to S *)
  vrl_hmac (ADyn (VBytes (hx "c5bf68612d323536"))) (VBytes []) (VBytes [])
  = vrl_hmac ADefault (VBytes []) (VBytes []).
Proof. vm_compute. reflexivity. Qed.
Example C27_ex_i64 : to_i64 (xxh3_64 (str "foo")) = (-6093828362558603894)%Z.
Proof. vm_compute. reflexivity. Qed.
