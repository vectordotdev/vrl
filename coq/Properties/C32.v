(* C32 — Grok rules match and capture faithfully.
   Model: Model/Grok.v (src/datadog/grok/{parse_grok_rules,parse_grok,grok_filter,grok}.rs on a fragment: literal
   characters, the core patterns word / integer / notSpace / data, user aliases, the filters integer, number, scale,
   lowercase, uppercase, nullIf).  The proofs are in Proofs/GrokProofs.v; what stands here is a last step.

   A grok rule's text is a regular expression: the implementation does not escape anything, `a.c` matches `abc` by design.
   "A literal-only rule matches exactly its own text" is therefore a statement about the text a user has to write,
   esc s, which puts a backslash before every ASCII punctuation character.
   Partial: Oniguruma and the pattern library outside the fragment are not modelled (see notes/C32.md). *)
From Coq Require Import String List NArith ZArith Bool Lia.
From VRL Require Import Base.Bytes Base.Value Base.Lit Model.ValueCrud Model.IntText Model.EvalInst Model.Grok Proofs.GrokProofs.
Import ListNotations.
Local Open Scope list_scope.

(* escaping is complete: whatever bytes s is made of (every regex metacharacter, `%{`, quotes, ...), the rule text
   esc s is scanned without finding a %{..} pattern, compiles to the literal pieces of s, and the anchored rule
   matches t exactly when t = s *)
Theorem C32_literal : forall (aliases : list (bytes * bytes)) (s t : bytes),
  compile_rule aliases (esc s) = Some (inl (map PLit s, [])) /\ (matches (map PLit s) t <-> t = s).
Proof. intros al s t. split; [apply compile_literal|apply literal_matches]. Qed.
Print Assumptions C32_literal.

(* the same for the executable matcher: it answers with no captures when t = s and with "no match" otherwise *)
Theorem C32_literal_exec : forall (s t : bytes),
  match_rule (map PLit s) t = if bytes_eqb t s then Some [] else None.
Proof. exact literal_exec. Qed.
Print Assumptions C32_literal_exec.

(* a compiled rule matches a text exactly when the text splits into consecutive parts that match the rule's pieces
   in order (mlist: literals, k?, k+ / k*, \b with its left and right context, groups), for every rule of the fragment *)
Theorem C32_rule : forall (ps : list piece) (t : bytes),
  (exists caps, match_rule ps t = Some caps) <-> matches ps t.
Proof.
  intros ps t. split.
  - intros [caps H]. exists caps. apply match_rule_sound, H.
  - intros H. apply match_rule_complete in H. destruct (match_rule ps t); [eauto|congruence].
Qed.
Print Assumptions C32_rule.

(* ... and alternative by alternative: everything the backtracking enumerates is such a split of a prefix, and every
   split of a prefix is enumerated (so the priorities only choose among genuine splits) *)
Theorem C32_rule_exec : forall (ps : list piece) (caps : list (nat * bytes)) (p : option N) (w rest : bytes)
                               (cs : list (nat * bytes)),
  (mlist ps p w (hd_opt rest) cs -> In (cs ++ caps, last_of p w, rest) (run_list ps caps p (w ++ rest)))
  /\ (forall a, In a (run_list ps caps p (w ++ rest)) ->
        let '(c1, p1, s1) := a in
        exists w' cs', w ++ rest = w' ++ s1 /\ mlist ps p w' (hd_opt s1) cs' /\ c1 = cs' ++ caps /\ p1 = last_of p w').
Proof.
  intros ps caps p w rest cs. split.
  - intros M. apply run_list_exact. exists w, cs. auto.
  - intros a Ha. apply run_list_exact in Ha. exact Ha.
Qed.
Print Assumptions C32_rule_exec.

(* captured fields hold the matched substrings: the captures returned for a text are those of a split of that text -
   each named group (g, part) is listed with exactly the part of the text the group matched in that split *)
Theorem C32_captures : forall (ps : list piece) (t : bytes) (caps : list (nat * bytes)),
  match_rule ps t = Some caps -> mlist ps None t None caps.
Proof. exact match_rule_sound. Qed.
Print Assumptions C32_captures.

(* alias expansion terminates within its fuel (number of aliases + 1): the alias stack holds distinct alias names *)
Theorem C32_cycle_fuel : forall (aliases : list (bytes * bytes)) (rule : bytes),
  compile_rule aliases rule <> Some (inr EFuel).
Proof.
  intros al rule. unfold compile_rule. destruct (scan_text rule) as [ts|]; [|discriminate].
  apply bind_no_fuel; [|discriminate]. apply comp_no_fuel; [split; [constructor|intros x []]|cbn; lia].
Qed.
Print Assumptions C32_cycle_fuel.

(* a reference to an alias whose expansion is in progress is rejected at compile time with the circular-dependency
   error, which names the outermost alias under expansion (alias_stack.first()) *)
Theorem C32_cycle_rejected :
  forall (aliases : list (bytes * bytes)) (rec : list tok -> ctx -> cres ctx) (inner : bytes) (rest : list tok)
         (cx : ctx) (p : pat) (def : bytes),
    parse_pat inner = Some p -> p_dest p = None ->
    alias_get aliases (p_name p) = Some def -> on_stack (c_stack cx) (p_name p) = true ->
    comp_toks aliases rec (TPat inner :: rest) cx = Some (inr (ECircular (last (c_stack cx) (p_name p)))).
Proof. exact comp_toks_on_stack. Qed.
Print Assumptions C32_cycle_rejected.

(* whole-pipeline instances for arbitrary identifiers a, b: a self-referential alias and a cycle of length two *)
Theorem C32_cycle_two : forall (a b : bytes), ident a -> ident b -> a <> b ->
  compile_rule [(a, ref b); (b, ref a)] (ref a) = Some (inr (ECircular a))
  /\ (forall aliases, alias_get aliases a = Some (ref a) -> compile_rule aliases (ref a) = Some (inr (ECircular a))).
Proof. intros a b Ha Hb Hab. split; [apply cycle_two; auto|intros al H; apply cycle_self; auto]. Qed.
Print Assumptions C32_cycle_two.

(* the filters of the fragment: nullIf drops exactly the given text, lowercase / uppercase map ASCII letters and are
   idempotent, integer is i64::from_str (Model/IntText.v) *)
Theorem C32_filters : forall (s x : bytes),
  (apply_filter (VBytes s) (FNullIf x) = if bytes_eqb s x then FDrop else FVal (VBytes s))
  /\ (is_ascii s = true -> apply_filter (VBytes s) FLower = FVal (VBytes (map to_lower s))
                           /\ map to_lower (map to_lower s) = map to_lower s)
  /\ (is_ascii s = true -> apply_filter (VBytes s) FUpper = FVal (VBytes (map to_upper s))
                           /\ map to_upper (map to_upper s) = map to_upper s)
  /\ (apply_filter (VBytes s) FInteger = match from_str_radix s 10 with Some z => FVal (VInt z) | None => FDrop end).
Proof.
  intros s x. split; [reflexivity|]. split; [|split; [|reflexivity]]; intros Ha; split;
    auto using lower_filter, upper_filter, map_to_lower_idem, map_to_upper_idem.
Qed.
Print Assumptions C32_filters.

(* the definitions compute; ident is inhabited *)
Local Open Scope string_scope.

Example C32_example :
  (* `%{integer:n} %{word:w:uppercase}` on "12 ab" *)
  parse_groks [] [nm "%{integer:n} %{word:w:uppercase}"] (nm "12 ab")
  = GOk (VObj [(nm "n", VInt 12); (nm "w", VBytes (nm "AB"))])
  (* lazy data: the first capture takes as little as possible *)
  /\ parse_groks [] [nm "%{data:a} %{data:b}"] (nm "x y z") = GOk (VObj [(nm "a", VBytes (nm "x")); (nm "b", VBytes (nm "y z"))])
  (* an alias with a destination captures the whole alias; a repeated field becomes an array *)
  /\ parse_groks [(nm "al", nm "%{word:inner}\!")] [nm "%{al:x}\-%{al}"] (nm "ab!-cd!")
     = GOk (VObj [(nm "inner", VArr [VBytes (nm "ab"); VBytes (nm "cd")]); (nm "x", VBytes (nm "ab!"))])
  (* escaped metacharacters are literal, unescaped ones are outside the fragment *)
  /\ parse_groks [] [nm "a\.c"] (nm "abc") = GNoMatch
  /\ parse_groks [] [nm "a.c"] (nm "abc") = GUnmodelled
  (* cycles *)
  /\ parse_groks [(nm "a", nm "%{b}"); (nm "b", nm "x%{a}")] [nm "%{a}"] (nm "x") = GErr (ECircular (nm "a"))
  /\ ident (nm "a_1") /\ ident (nm "b").
Proof.
  repeat split; try (vm_compute; reflexivity); try (eexists; eexists; split; reflexivity).
Qed.
