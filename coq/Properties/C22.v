(* C22 — Binary codecs round-trip.
   Models: Model/Base16.v, Base64.v, Percent.v, CodecUtf8.v, Punycode.v, CodecGlue.v
   (src/stdlib/{encode,decode}_{base16,base64,percent,punycode,gzip,zlib,zstd,snappy,lz4,charset}.rs).
   Statements; a proof that takes more than a line or two is in Proofs/.  Bytes are `N`; `wf_bytes b` says every element is < 256. *)
From Coq Require Import List NArith ZArith Bool String.
From VRL Require Import Base.Bytes Base.Lit Model.Base16 Model.Base64 Model.CodecUtf8 Model.Percent
     Model.Punycode Model.CodecGlue
     Proofs.CodecProofs Proofs.PercentProofs Proofs.PunycodeProofs Proofs.CodecGlueProofs.
Import ListNotations.
Local Open Scope string_scope.
Local Open Scope list_scope.

(* ---- base16: every byte string ---- *)
Theorem C22_base16 : forall v : bytes, wf_bytes v = true ->
  exists e, encode_base16 v = ROk e /\ decode_base16 e = ROk v.
Proof.
  intros v H. exists (b16_encode v). split; [reflexivity|].
  unfold decode_base16. rewrite (b16_roundtrip v H). reflexivity.
Qed.
Print Assumptions C22_base16.

(* ---- base64: every byte string, both alphabets ("standard", "url_safe"), with and without padding;
        the decoder is the one of decode_base64.rs (strip all trailing '=', NO_PAD engine) ---- *)
Theorem C22_base64 : forall (padding : bool) (charset v : bytes),
  wf_bytes v = true -> charset_of charset <> None ->
  exists e, encode_base64 padding charset v = ROk e /\ decode_base64 charset e = ROk v.
Proof. exact base64_roundtrip. Qed.
Print Assumptions C22_base64.

Theorem C22_base64_unknown_charset : forall (padding : bool) (charset v : bytes),
  charset_of charset = None ->
  encode_base64 padding charset v = RErr /\ decode_base64 charset v = RErr.
Proof. intros padding charset v H. unfold encode_base64, decode_base64. rewrite H. split; reflexivity. Qed.
Print Assumptions C22_base64_unknown_charset.

(* ---- percent-encoding: all nine sets, UTF-8 input, under the exact side condition ---- *)
Theorem C22_percent : forall (set : ascii_set) (s : bytes),
  wf_bytes s = true -> valid_utf8 s = true ->
  (set_contains set 37%N = true \/ no_triplet s = true) ->
  exists e, encode_percent set s = ROk e /\ decode_percent e = ROk s.
Proof. exact percent_roundtrip. Qed.
Print Assumptions C22_percent.

Theorem C22_percent_sets_with_percent : forall set : ascii_set,
  set_contains set 37%N = true <-> (set = NON_ALPHANUMERIC \/ set = COMPONENT \/ set = WWW_FORM_URLENCODED).
Proof.
  intros set. split.
  - destruct set; vm_compute; intros H; try discriminate; auto.
  - intros [H|[H|H]]; subst set; reflexivity.
Qed.
Print Assumptions C22_percent_sets_with_percent.

(* the literal statement ("every character set") fails: "%41" -> "A".  The witness is the set CONTROLS;
   PercentProofs.percent_refuted_every_set_without_percent has the same text for each of the six sets without '%'. *)
Theorem C22_percent_unescaped_refuted :
  exists set s, wf_bytes s = true /\ valid_utf8 s = true /\ set_contains set 37%N = false
                /\ encode_percent set s = ROk s /\ decode_percent s = ROk [65%N] /\ s <> [65%N].
Proof. exists CONTROLS, [37; 52; 49]%N. vm_compute. repeat split; congruence. Qed.
Print Assumptions C22_percent_unescaped_refuted.

(* String::from_utf8_lossy is the identity on valid UTF-8 (used by percent and punycode) *)
Theorem C22_utf8_lossy_valid : forall s : bytes, valid_utf8 s = true -> utf8_lossy s = s.
Proof. exact StrUtf8.lossy_valid. Qed.
Print Assumptions C22_utf8_lossy_valid.

(* ---- punycode, validate: false.  Full statement intended:
        forall parts, parts <> [] -> Forall good_part parts -> Forall encodable parts ->
          decode (encode (join "." parts)) = join "." parts
      It is proved relative to the RFC 3492 bootstring inverse, which stays a premise (partial).
      The premise is written for all lists of code points, and in that form the model's functions do not meet
      it (puny_encode [55296] = Some "ib9b" and puny_decode "ib9b" = None: the decoder refuses surrogates), so
      the theorem says nothing about them; the proof uses the premise for the characters of the parts only, and
      PunycodeProofs.punycode_novalidate_roundtrip is the statement with the premise so restricted. ---- *)
Theorem C22_punycode_partial :
  (forall (cps : list N) (e : bytes), puny_encode cps = Some e ->
      puny_decode e = Some cps /\ is_ascii_bytes e = true /\ no_dot e = true) ->
  forall parts : list bytes,
  parts <> [] -> Forall good_part parts ->
  Forall (fun p => is_ascii_bytes p = false -> puny_encode (utf8_chars p) <> None) parts ->
  exists e, encode_punycode_novalidate (join_with dot parts) = ROk e
            /\ decode_punycode_novalidate e = ROk (join_with dot parts).
Proof. intros H parts. apply punycode_novalidate_roundtrip. intros p e _. apply H. Qed.
Print Assumptions C22_punycode_partial.

Theorem C22_punycode_ascii_passthrough : forall s : bytes,
  forallb plain_char s = true ->
  encode_punycode_novalidate s = ROk s /\ decode_punycode_novalidate s = ROk s.
Proof. exact punycode_ascii_passthrough. Qed.
Print Assumptions C22_punycode_ascii_passthrough.

(* the generalized variable-length integer of RFC 3492: the decoder reads back the delta the encoder wrote *)
Theorem C22_punycode_vli : forall (delta bias i : N) (rest : bytes),
  (i + 36 * delta <= u32_max)%N ->
  dec_vli (enc_vli 12 delta 36 bias ++ rest) i 1 36 bias = Some ((i + delta)%N, rest).
Proof. exact vli_roundtrip_u32. Qed.
Print Assumptions C22_punycode_vli.

(* a label that already is an A-label is not a fixed point: "xn--maana-pta" comes back as "mañana" *)
Theorem C22_punycode_alabel_refuted :
  exists s d, forallb (fun c => (c <? 128)%N) s = true /\ to_lowercase s = s
              /\ encode_punycode_novalidate s = ROk s /\ decode_punycode_novalidate s = ROk d /\ d <> s.
Proof.
  exists [120; 110; 45; 45; 109; 97; 97; 110; 97; 45; 112; 116; 97]%N, [109; 97; 195; 177; 97; 110; 97]%N.
  vm_compute. repeat split; congruence.
Qed.
Print Assumptions C22_punycode_alabel_refuted.

(* ---- library codecs: the VRL glue, for every option value, from the library's inverse law ---- *)
Theorem C22_codec_glue_flate : forall (lib_enc : Z -> bytes -> lres) (lib_dec : bytes -> lres),
  (forall l b, (0 <= l <= 9)%Z -> exists e, lib_enc l b = LOk e /\ lib_dec e = LOk b) ->
  forall (level : Z) (v : bytes),
  ((as_u32 level <= 9)%Z ->
     exists e, encode_flate lib_enc level v = ROk e /\ decode_flate lib_dec e = ROk v)
  /\ ((10 < as_u32 level)%Z -> encode_flate lib_enc level v = RErr).
Proof.
  intros lib_enc lib_dec H level v. split.
  - exact (flate_roundtrip lib_enc lib_dec H level v).
  - exact (flate_level_rejected lib_enc level v).
Qed.
Print Assumptions C22_codec_glue_flate.

(* level 10 passes the VRL range check and reaches the library: IF the library panics on it (flate2's zlib-rs
   backend does; this is the premise, not something shown here), so does encode_flate *)
Theorem C22_flate_level10_refuted : forall lib_enc : Z -> bytes -> lres,
  (forall b, lib_enc 10%Z b = LPanic) ->
  forall v, (max_flate_level <? as_u32 10)%Z = false /\ encode_flate lib_enc 10%Z v = RPanic.
Proof. intros lib_enc H v. split; [reflexivity|]. unfold encode_flate. cbn. rewrite H. reflexivity. Qed.
Print Assumptions C22_flate_level10_refuted.

Theorem C22_codec_glue_zstd : forall (lib_enc : Z -> bytes -> lres) (lib_dec : bytes -> lres),
  (forall l b, exists e, lib_enc l b = LOk e /\ lib_dec e = LOk b) ->
  forall (level : Z) (v : bytes),
  exists e, encode_zstd lib_enc level v = ROk e /\ decode_zstd lib_dec e = ROk v.
Proof. exact zstd_roundtrip. Qed.
Print Assumptions C22_codec_glue_zstd.

Theorem C22_codec_glue_snappy : forall (lib_enc lib_dec : bytes -> lres),
  (forall b, exists e, lib_enc b = LOk e /\ lib_dec e = LOk b) ->
  forall v : bytes, exists e, encode_snappy lib_enc v = ROk e /\ decode_snappy lib_dec e = ROk v.
Proof. exact snappy_roundtrip. Qed.
Print Assumptions C22_codec_glue_snappy.

(* lz4 blocks, with and without the prepended size, for matching options.  The side conditions are exact:
   buf_size must be a u32 (anything else is rejected up front, C22_lz4_bufsize_rejected); with prepend_size the
   input must not be 0x184D2204 bytes long (its size prefix would be the frame magic and the decoder would take
   the frame path); without it the caller's buf_size must be large enough. *)
Theorem C22_codec_glue_lz4 :
  forall (compress : bytes -> bytes) (decompress : bytes -> N -> lres) (frame_dec : bytes -> lres),
  (forall b n, (N.of_nat (List.length b) <= n)%N -> decompress (compress b) n = LOk b) ->
  (forall b, starts_with lz4_magic (compress b) = false) ->
  forall (prepend : bool) (buf_size : Z) (v : bytes),
  (N.of_nat (List.length v) < 4294967296)%N ->
  (0 <= buf_size < 2 ^ 32)%Z ->
  (prepend = true -> N.of_nat (List.length v) <> magic_len) ->
  (prepend = false -> (Z.of_nat (List.length v) <= buf_size)%Z) ->
  exists e, encode_lz4 compress prepend v = ROk e
            /\ decode_lz4 decompress frame_dec buf_size prepend e = ROk v.
Proof. exact lz4_roundtrip. Qed.
Print Assumptions C22_codec_glue_lz4.

Theorem C22_lz4_size_prefix : forall n : N, (n < 4294967296)%N ->
  match size_le n with
  | [b0; b1; b2; b3] => read_le b0 b1 b2 b3 = n
  | _ => False
  end.
Proof. exact size_prefix. Qed.
Print Assumptions C22_lz4_size_prefix.

(* the two functions' defaults are not a matching pair: decode_lz4 hands the size-prefixed data of encode_lz4
   to the block decompressor.  IF that does not happen to return v (the premise), the round trip fails. *)
Theorem C22_lz4_default_options_refuted :
  forall (compress : bytes -> bytes) (decompress : bytes -> N -> lres) (frame_dec : bytes -> lres) (v : bytes),
  (N.of_nat (List.length v) < 4294967296)%N -> N.of_nat (List.length v) <> magic_len ->
  decompress (size_le (N.of_nat (List.length v)) ++ compress v) 1000000%N <> LOk v ->
  exists e, encode_lz4 compress default_prepend_size v = ROk e /\
            decode_lz4 decompress frame_dec default_buf_size default_prepended_size e <> ROk v.
Proof. exact lz4_default_options_refuted. Qed.
Print Assumptions C22_lz4_default_options_refuted.

(* buf_size outside 0..2^32-1 is an ordinary error, for every input and either value of prepended_size
   (repaired by c2888f1; it used to panic with a capacity overflow) *)
Theorem C22_lz4_bufsize_rejected :
  forall (decompress : bytes -> N -> lres) (frame_dec : bytes -> lres) (buf_size : Z) (prepended : bool) (v : bytes),
  (buf_size < 0 \/ 2 ^ 32 <= buf_size)%Z ->
  decode_lz4 decompress frame_dec buf_size prepended v = RErr.
Proof. exact lz4_bufsize_rejected. Qed.
Print Assumptions C22_lz4_bufsize_rejected.

Theorem C22_codec_glue_charset :
  forall (E : Type) (for_label : bytes -> option E) (cs_encode cs_decode : E -> bytes -> bytes)
         (representable : E -> bytes -> Prop),
  (forall e t, representable e t -> cs_decode e (cs_encode e t) = t) ->
  forall (label : bytes) (t : bytes),
  (forall e, for_label label = Some e -> valid_utf8 t = true -> representable e t ->
     exists b, encode_charset for_label cs_encode label t = ROk b
               /\ decode_charset for_label cs_decode label b = ROk t)
  /\ (for_label label = None ->
      encode_charset for_label cs_encode label t = RErr /\ decode_charset for_label cs_decode label t = RErr).
Proof.
  intros E for_label cs_encode cs_decode representable H label t. split.
  - intros e Hl Hv Hr. exact (charset_roundtrip E for_label cs_encode cs_decode representable H label e t Hl Hv Hr).
  - intros Hl. exact (charset_unknown_label E for_label cs_encode cs_decode label t Hl).
Qed.
Print Assumptions C22_codec_glue_charset.

(* bytes that are not UTF-8 are converted lossily before encoding (repaired by a0ffe6c; it used to panic) *)
Theorem C22_charset_invalid_utf8_lossy :
  forall (E : Type) (for_label : bytes -> option E) (cs_encode : E -> bytes -> bytes) (label : bytes) (e : E) (v : bytes),
  for_label label = Some e ->
  encode_charset for_label cs_encode label v = ROk (cs_encode e (utf8_lossy v)).
Proof. intros E for_label cs_encode label e v Hl. unfold encode_charset. rewrite Hl. reflexivity. Qed.
Print Assumptions C22_charset_invalid_utf8_lossy.

Theorem C22_codec_glue_punycode_validate :
  forall (to_ascii : bytes -> option bytes) (to_unicode : bytes -> bytes * bool) (valid_domain : bytes -> Prop),
  (forall s, valid_domain s ->
     exists a, to_ascii s = Some a /\ valid_utf8 a = true /\ to_unicode a = (s, false)
               /\ (contains xn_prefix a = false -> a = s)) ->
  forall s : bytes, valid_utf8 s = true -> valid_domain s ->
  exists a, encode_punycode_validate to_ascii s = ROk a /\ decode_punycode_validate to_unicode a = ROk s.
Proof. exact punycode_validate_roundtrip. Qed.
Print Assumptions C22_codec_glue_punycode_validate.

(* non-vacuity: the premises above are met by concrete non-trivial inputs / library instances *)
Example C22_nonvacuous :
  (* a well-formed byte string and a known charset *)
  wf_bytes (hx "00ff10fb") = true /\ charset_of cs_url_safe <> None
  (* valid UTF-8 with a '%' that is no triplet, under a set without '%' *)
  /\ valid_utf8 (hx "313030252025c3a9") = true /\ no_triplet (hx "313030252025c3a9") = true
  /\ set_contains PATH 37%N = false
  (* a domain of good parts, one of them non-ASCII and encodable: "mañana.example" *)
  /\ good_part (hx "6d61c3b1616e61") /\ good_part (hx "6578616d706c65")
  /\ is_ascii_bytes (hx "6d61c3b1616e61") = false
  /\ puny_encode (utf8_chars (hx "6d61c3b1616e61")) = Some (hx "6d61616e612d707461")
  /\ puny_decode (hx "6d61616e612d707461") = Some (utf8_chars (hx "6d61c3b1616e61"))
  (* the library premises are satisfiable: a store-only "compressor" meets them *)
  /\ (forall l b, (0 <= l <= 9)%Z -> exists e, (fun (_ : Z) x => LOk x) l b = LOk e /\ LOk e = LOk b)
  /\ (forall b n, (N.of_nat (List.length b) <= n)%N ->
        (fun (d : bytes) (_ : N) => match d with _ :: r => LOk r | [] => LErr end) ((fun x => 0%N :: x) b) n = LOk b)
  /\ (forall b : bytes, starts_with lz4_magic ((fun x => 0%N :: x) b) = false)
  (* the lz4 side conditions hold for ordinary inputs and exclude exactly one length *)
  /\ magic_len = 407708164%N /\ size_le magic_len = lz4_magic.
Proof.
  repeat split; try (vm_compute; congruence); try reflexivity.
  - intros l b _. exists b. split; reflexivity.
Qed.
