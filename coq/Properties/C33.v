(* C33 — Diagnostics are always renderable and point into the source.
   Modelled: the span arithmetic of verify_overwritable (Model/SpanArith.v), the only label positions the compiler
   derives from the printed form of a path instead of taking them from the lexer.  Every other span comes from the
   lexer, the LALRPOP parser and the compiler, which are NOT modelled: for those the check is exploration on the
   implementation (see props/C33.py, notes/C33.md).  Everything rests on Proofs/SpanArithProofs.v assign_spans. *)
From Coq Require Import String.
From Coq Require Import List NArith Bool Lia.
From VRL Require Import Base.Bytes Base.Lit Model.SpanArith Proofs.SpanArithProofs.
(* no statement below uses it: required only so that building this file also rebuilds the correspondence glue *)
From VRL Require Corr.C33.
Import ListNotations.
Local Open Scope N_scope.

(* whatever the path, the printed lengths and the kind tests: the reported segment span is ordered and ends inside the
   text; the reported parent span starts where the target starts and ends inside the text (saturating_sub) *)
Theorem C33_assign_in_bounds : forall segs valid target len ss ps,
  s_start target <= s_end target -> s_end target <= len ->
  verify_overwritable_spans segs valid target = Some (ss, ps) ->
  in_bounds len ss = true /\ s_end ps <= len /\ s_start ps = s_start target
  /\ s_end ss <= s_end target /\ s_end ps <= s_end target.
Proof. intros * Ho Hl H. apply assign_spans in H. rewrite in_bounds_iff. lia. Qed.
Print Assumptions C33_assign_in_bounds.

(* ... and when the printed segments (each field with its '.') are no longer than the target's text, both spans are
   ordered and lie inside the target's text *)
Theorem C33_assign_ordered : forall segs valid target len ss ps,
  s_start target <= s_end target -> s_end target <= len ->
  total_width segs <= s_end target - s_start target ->
  verify_overwritable_spans segs valid target = Some (ss, ps) ->
  in_bounds len ss = true /\ in_bounds len ps = true
  /\ s_start target <= s_start ss /\ s_end ss <= s_end target /\ s_start ps = s_start target /\ s_end ps <= s_end target.
Proof. intros * Ho Hl Hw H. apply assign_spans in H. rewrite !in_bounds_iff. lia. Qed.
Print Assumptions C33_assign_ordered.

Example C33_assign_example :                     (* x = 1 \n x.b.c = 2 : target bytes 6..11 *)
  verify_overwritable_spans [SegField 1; SegField 1] [] (mkSpan 6 11) = Some (mkSpan 10 11, mkSpan 6 9)
  /\ verify_overwritable_spans [SegField 1; SegIndex 3] [true] (mkSpan 6 11) = Some (mkSpan 7 8, mkSpan 6 6)
  /\ total_width [SegField 1; SegField 1] <= 11 - 6.
Proof. vm_compute. repeat split; discriminate. Qed.

(* Full statement: every label lies on character boundaries.  Proved for a target whose text is ASCII (span_ok = ordered,
   inside the text, both ends on boundaries).  Refuted in general below. *)
Theorem C33_assign_boundary_partial : forall src segs valid target ss ps,
  s_start target <= s_end target -> s_end target <= N.of_nat (length src) ->
  total_width segs <= s_end target - s_start target ->
  ascii_between src (s_start target) (s_end target) ->
  is_boundary src (s_start target) = true -> is_boundary src (s_end target) = true ->
  verify_overwritable_spans segs valid target = Some (ss, ps) ->
  span_ok src ss = true /\ span_ok src ps = true.
Proof. intros * Ho Hl Hw Ha _. apply assign_boundary_ascii; assumption. Qed.
Print Assumptions C33_assign_boundary_partial.

(* a quoted field with a multi-byte character and escape sequences:   x = 1 \n x."é\t\t" = 2
   the printed name "é<TAB><TAB>" (6 bytes) is shorter than its source text (8 bytes): the label starts at byte 10, the
   second byte of é.  Replayed on the implementation (known finding). *)
Theorem C33_assign_boundary_refuted :
  exists src segs target ss ps,
    s_start target <= s_end target /\ s_end target <= N.of_nat (length src)
    /\ total_width segs <= s_end target - s_start target
    /\ is_boundary src (s_start target) = true /\ is_boundary src (s_end target) = true
    /\ verify_overwritable_spans segs [] target = Some (ss, ps)
    /\ is_boundary src (s_start ss) = false.
Proof.
  exists (hx "78203d20310a782e22c3a95c745c7422203d20320a"%string), [SegField 6], (mkSpan 6 16), (mkSpan 10 16), (mkSpan 6 9).
  vm_compute. repeat split; try reflexivity; discriminate.
Qed.
Print Assumptions C33_assign_boundary_refuted.

(* without the width hypothesis the arithmetic alone does not keep the parent span ordered (model level: no source
   text was found for which the printed path is longer than its source) *)
Theorem C33_assign_parent_order_refuted :
  exists segs target ss ps,
    s_start target <= s_end target /\ verify_overwritable_spans segs [] target = Some (ss, ps)
    /\ s_end ps < s_start ps.
Proof.
  exists [SegField 4], (mkSpan 5 7), (mkSpan 3 7), (mkSpan 5 2). vm_compute. repeat split; try reflexivity; discriminate.
Qed.
Print Assumptions C33_assign_parent_order_refuted.
