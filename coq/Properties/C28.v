(* C28 — String and collection functions obey their algebraic laws.
   Models: Model/StrFns.v, Model/CollFns.v, Model/Casing.v (+ Model/CaseTables.v, Model/CodecUtf8.v).  The proofs are in
   Proofs/{StrUtf8,StrFnsProofs,StrFnsProofs2,CasingProofs,CollFnsProofs}.v; only tables and witnesses are settled here. *)
From Coq Require Import List NArith ZArith Bool String Lia ZifyBool.
From VRL Require Import Base.Bytes Base.Value Base.Lit Model.CodecUtf8 Model.CaseTables Model.StrFns Model.CollFns
     Model.Casing Proofs.StrUtf8 Proofs.StrFnsProofs Proofs.StrFnsProofs2 Proofs.CollFnsProofs Proofs.CasingProofs.
Import ListNotations.
Local Open Scope string_scope.
Local Open Scope list_scope.

(* upcase is idempotent for EVERY per-code-point uppercase mapping whose outputs are chars and are themselves
   fixed points.  (The harness checks both hypotheses on the implementation for all 1,112,064 scalar values.) *)
Theorem C28_upcase_idem_any_table : forall upper : N -> list N,
  (forall c, is_scalar_cp c = true -> Forall (fun d => is_scalar_cp d = true) (upper c)) ->
  (forall c d, In d (upper c) -> upper d = [d]) ->
  forall s : bytes, upcase_with upper (upcase_with upper s) = upcase_with upper s.
Proof. exact upcase_with_idem. Qed.
Print Assumptions C28_upcase_idem_any_table.

(* ...and for the modelled table (complete on Model/CaseTables.v `case_domain`, the identity outside it) on all
   byte strings *)
Theorem C28_upcase_idem : forall s : bytes, upcase (upcase s) = upcase s.
Proof. exact upcase_idem. Qed.
Print Assumptions C28_upcase_idem.

(* downcase (str::to_lowercase with its context-dependent final-sigma rule) is idempotent for every lowercase
   mapping with char outputs that are fixed points different from capital sigma, and any Cased/Case_Ignorable *)
Theorem C28_downcase_idem_any_table : forall (lower : N -> list N) (cased ign : N -> bool),
  (forall c, is_scalar_cp c = true -> Forall (fun d => is_scalar_cp d = true) (lower c)) ->
  (forall c d, In d (lower c) -> lower d = [d] /\ d <> capital_sigma) ->
  lower final_sigma = [final_sigma] -> lower small_sigma = [small_sigma] ->
  forall s : bytes,
    downcase_with lower cased ign (downcase_with lower cased ign s) = downcase_with lower cased ign s.
Proof. exact downcase_with_idem. Qed.
Print Assumptions C28_downcase_idem_any_table.

Theorem C28_downcase_idem : forall s : bytes, downcase (downcase s) = downcase s.
Proof. exact downcase_idem. Qed.
Print Assumptions C28_downcase_idem.

(* the casing functions are those of convert_case, modelled on printable ASCII (Model/Casing.v): snakecase, kebabcase
   and screamingsnakecase are idempotent *)
Theorem C28_snake_kebab_screaming_idem_ascii : forall s : bytes,
  snakecase (snakecase s) = snakecase s /\ kebabcase (kebabcase s) = kebabcase s
  /\ screamingsnakecase (screamingsnakecase s) = screamingsnakecase s.
Proof. intros s. split; [apply snakecase_idem | split; [apply kebabcase_idem | apply screamingsnakecase_idem]]. Qed.
Print Assumptions C28_snake_kebab_screaming_idem_ascii.

(* every word of the segmentation is non-empty, free of separators and has no letter|digit neighbours *)
Theorem C28_casing_words_ok : forall s : bytes, Forall okw (words s).
Proof. exact words_okw. Qed.
Print Assumptions C28_casing_words_ok.

(* KNOWN FINDING C28-casing-camel-resegmentation: camelcase("x_a_b") = "xAB" but camelcase("xAB") = "xAb";
   pascalcase("a_b") = "AB" but pascalcase("AB") = "Ab" *)
Theorem C28_camel_pascal_idem_refuted :
  (exists s, forallb printable s = true /\ camelcase (camelcase s) <> camelcase s)
  /\ (exists s, forallb printable s = true /\ pascalcase (pascalcase s) <> pascalcase s).
Proof.
  split; [exists [120; 95; 97; 95; 98]%N | exists [97; 95; 98]%N]; vm_compute; split; try reflexivity; discriminate.
Qed.
Print Assumptions C28_camel_pascal_idem_refuted.

(* the table: exactly the 25 White_Space code points.  One direction evaluates is_ws on the 25; the other is
   arithmetic on the ranges of is_ws, which lia reads off the boolean comparisons (ZifyBool). *)
Theorem C28_is_ws_spec : forall c : N, is_ws c = true <-> In c ws_cps.
Proof.
  intros c. split.
  - unfold is_ws, ws_cps. cbn [In]. lia.
  - assert (T : forallb is_ws ws_cps = true) by reflexivity. rewrite forallb_forall in T. apply T.
Qed.
Print Assumptions C28_is_ws_spec.

(* the result is the input (after lossy UTF-8 conversion) minus a whitespace-only prefix and suffix, and it
   neither starts nor ends with whitespace: the removed prefix/suffix are maximal *)
Theorem C28_strip_ws_spec : forall s : bytes, exists pre t suf : list N,
  chars s = pre ++ t ++ suf /\ strip_ws s = str t
  /\ Forall (fun c => is_ws c = true) pre /\ Forall (fun c => is_ws c = true) suf
  /\ ((forall c r, t = c :: r -> is_ws c = false) /\ (forall c r, t = r ++ [c] -> is_ws c = false))
  /\ utf8_lossy s = str pre ++ strip_ws s ++ str suf.
Proof. exact strip_ws_spec. Qed.
Print Assumptions C28_strip_ws_spec.

Theorem C28_strip_ws_idem : forall s : bytes, strip_ws (strip_ws s) = strip_ws s.
Proof. exact strip_ws_idem. Qed.
Print Assumptions C28_strip_ws_idem.

(* join(split(s, d, limit), d) == s for every string pattern (the empty one included) and every limit >= 1
   (limit defaults to 999999999); with limit <= 0 split returns [] by design.  Invalid UTF-8 is replaced first. *)
Theorem C28_join_split : forall (s d : bytes) (limit : Z), (1 <= limit)%Z ->
  join_bytes (utf8_lossy d) (split_str s d limit) = utf8_lossy s.
Proof. exact join_split. Qed.
Print Assumptions C28_join_split.

Theorem C28_join_split_valid : forall (s d : bytes) (limit : Z), (1 <= limit)%Z ->
  valid_utf8 s = true -> valid_utf8 d = true -> join_bytes d (split_str s d limit) = s.
Proof. exact join_split_valid. Qed.
Print Assumptions C28_join_split_valid.

(* every piece of a split is valid UTF-8, so the law holds on the functions themselves (join converts each item
   lossily): join(split(s, d, limit: n), d) = s *)
Theorem C28_fn_join_split : forall (s d : bytes) (limit : Z), (1 <= limit)%Z ->
  exists l, fn_split (VBytes s) (VBytes d) (VInt limit) = ROk (VArr l)
            /\ fn_join (VArr l) (Some (VBytes d)) = ROk (VBytes (utf8_lossy s)).
Proof. exact fn_join_split. Qed.
Print Assumptions C28_fn_join_split.

Theorem C28_split_pieces_valid : forall (s d : bytes) (limit : Z),
  Forall (fun x => valid_utf8 x = true) (split_str s d limit).
Proof. exact split_pieces_valid. Qed.
Print Assumptions C28_split_pieces_valid.

Theorem C28_starts_with_spec : forall s p : bytes, starts_with_cs s p = true <-> exists t, s = p ++ t.
Proof. exact starts_with_cs_spec. Qed.
Print Assumptions C28_starts_with_spec.

Theorem C28_ends_with_spec : forall s p : bytes,
  ends_with_cs s p = true <-> exists t, utf8_lossy s = t ++ utf8_lossy p.
Proof. intros s p. apply is_suffix_iff. Qed.
Print Assumptions C28_ends_with_spec.

Theorem C28_contains_spec : forall s p : bytes,
  contains_cs s p = true <-> exists a b, utf8_lossy s = a ++ utf8_lossy p ++ b.
Proof. intros s p. apply is_infix_iff. Qed.
Print Assumptions C28_contains_spec.

(* the position found by the search (used by split) is the first one *)
Theorem C28_find_first : forall (p s b a : bytes), find_sub p s = Some (b, a) ->
  s = b ++ p ++ a /\ forall b1 b2, b = b1 ++ b2 -> b2 <> [] -> is_prefix p (b2 ++ p ++ a) = false.
Proof. intros p s b a H. pose proof (find_sub_spec p s) as S. rewrite H in S. exact S. Qed.
Print Assumptions C28_find_first.

(* case-insensitive ends_with/contains = the same search on the lowercased strings *)
Theorem C28_ci_spec : forall s p : bytes,
  (ends_with_ci s p = true <-> exists t, downcase s = t ++ downcase p)
  /\ (contains_ci s p = true <-> exists a b, downcase s = a ++ downcase p ++ b).
Proof. intros s p. split; [apply is_suffix_iff | apply is_infix_iff]. Qed.
Print Assumptions C28_ci_spec.

(* KNOWN FINDING C28-ci-final-sigma: a case-sensitive match is not always a case-insensitive match *)
Theorem C28_ci_final_sigma_refuted : exists s p : bytes,
  valid_utf8 s = true /\ valid_utf8 p = true /\ contains_cs s p = true /\ contains_ci s p = false.
Proof. exists (utf8_of_cps [913; 931; 913]%N), (utf8_of_cps [913; 931]%N). vm_compute. repeat split. Qed.
Print Assumptions C28_ci_final_sigma_refuted.

(* KNOWN FINDING C28-starts-with-ci-zip: case-insensitive starts_with accepts a needle with more chars than the
   haystack ("K" U+212A vs "kk") *)
Theorem C28_starts_with_ci_refuted : exists s p : bytes,
  valid_utf8 s = true /\ valid_utf8 p = true /\ starts_with_ci s p = true
  /\ is_prefix (downcase p) (downcase s) = false /\ (List.length (chars s) < List.length (chars p))%nat.
Proof. exists (s_of [8490]%N), (s_of [107; 107]%N). exact starts_with_ci_zip_witness. Qed.
Print Assumptions C28_starts_with_ci_refuted.

(* ...and outside that class (every char of both strings lowercases to ONE char of the same UTF-8 length) the
   case-insensitive starts_with is exactly "the per-char lowercase of p is a prefix of that of s" *)
Theorem C28_starts_with_ci_spec : forall s p : bytes,
  valid_utf8 s = true -> valid_utf8 p = true -> KnownC28_sw_zip s p = false ->
  starts_with_ci s p = is_prefix (map low1 (utf8_chars p)) (map low1 (utf8_chars s)).
Proof. exact starts_with_ci_spec. Qed.
Print Assumptions C28_starts_with_ci_spec.

(* on arbitrary bytes (the Chars iterator yields Err(byte) for invalid UTF-8, two such items match iff equal): a
   case-sensitive match of a valid needle is a case-insensitive match, whatever the haystack; on valid UTF-8 the
   iterator yields exactly the chars *)
Theorem C28_starts_with_cs_implies_ci : forall s p : bytes,
  valid_utf8 p = true -> starts_with_cs s p = true -> starts_with_ci s p = true.
Proof. exact starts_with_cs_ci. Qed.
Print Assumptions C28_starts_with_cs_implies_ci.

Theorem C28_chars_iterator_valid : forall s : bytes,
  valid_utf8 s = true -> ci_items s = map CIok (utf8_chars s).
Proof. exact ci_items_valid. Qed.
Print Assumptions C28_chars_iterator_valid.

(* chars(truncate(s, limit, suffix)) <= max(limit, 0) + chars(suffix) *)
Theorem C28_truncate_len : forall (s : bytes) (limit : Z) (suffix : bytes),
  (nchars (truncate_str s limit suffix) <= limit_of limit + nchars suffix)%N.
Proof. exact truncate_len. Qed.
Print Assumptions C28_truncate_len.

(* short strings are returned unchanged; longer ones are cut after exactly `limit` chars and get the suffix *)
Theorem C28_truncate_spec : forall (s : bytes) (limit : Z) (suffix : bytes),
  ((nchars s <= limit_of limit)%N -> truncate_str s limit suffix = utf8_lossy s)
  /\ ((limit_of limit < nchars s)%N ->
      truncate_str s limit suffix = str (firstn (N.to_nat (limit_of limit)) (chars s)) ++ utf8_lossy suffix).
Proof. exact truncate_spec. Qed.
Print Assumptions C28_truncate_spec.

(* strlen counts Unicode scalar values *)
Theorem C28_strlen_utf8 : forall cps : list N, Forall (fun c => is_scalar_cp c = true) cps ->
  strlen (utf8_of_cps cps) = Z.of_nat (List.length cps).
Proof. exact strlen_utf8. Qed.
Print Assumptions C28_strlen_utf8.

(* slice agrees with positional indexing (bytes are sliced by byte offsets, arrays by elements; negative
   start/end count from the end; an end past the length is clamped; errors exactly outside these bounds) *)
Theorem C28_slice_spec : forall (A : Type) (l : list A) (start : Z) (end_ : option Z),
  let len := Z.of_nat (List.length l) in
  let s := norm_idx start len in
  let e := match end_ with Some e => norm_idx e len | None => len end in
  if ((0 <=? s) && (s <=? len) && (s <=? e))%Z
  then exists r, slice_list l start end_ = Some r
                 /\ Z.of_nat (List.length r) = (Z.min e len - s)%Z
                 /\ forall i, (i < List.length r)%nat -> nth_error r i = nth_error l (Z.to_nat s + i)
  else slice_list l start end_ = None.
Proof. exact @slice_spec. Qed.
Print Assumptions C28_slice_spec.

Theorem C28_chunks_spec : forall (b : bytes) (n : Z), (1 <= n)%Z ->
  exists ps, fn_chunks (VBytes b) (VInt n) = ROk (VArr (map VBytes ps)) /\ List.concat ps = b
             /\ Forall (fun c => 1 <= Z.of_nat (List.length c) <= n)%Z ps.
Proof. exact chunks_spec. Qed.
Print Assumptions C28_chunks_spec.

(* no element of the result equals (Rust `==` on Value: veq) an earlier one *)
Theorem C28_unique_nodup : forall l : list value, nodupv (unique_list l).
Proof. exact unique_nodup. Qed.
Print Assumptions C28_unique_nodup.

(* same elements: every input element has an equal one in the result, and the result invents nothing *)
Theorem C28_unique_same_elements : forall (l : list value) (x : value),
  (In x l -> memv x (unique_list l) = true) /\ (In x (unique_list l) -> In x l).
Proof. intros l x. split; [apply unique_complete | apply unique_sound]. Qed.
Print Assumptions C28_unique_same_elements.

(* first occurrences in order *)
Theorem C28_unique_first_occurrence : forall (x : value) (l : list value),
  unique_list (x :: l) = x :: unique_list (filter (fun y => negb (veq y x)) l).
Proof. exact unique_first_occurrence. Qed.
Print Assumptions C28_unique_first_occurrence.

Theorem C28_unique_idem : forall l : list value, unique_list (unique_list l) = unique_list l.
Proof. intros l. apply unique_fixed, unique_nodup. Qed.
Print Assumptions C28_unique_idem.

Theorem C28_veq_equiv : forall a b : value, veq a a = true /\ veq a b = veq b a.
Proof. intros a b. split; [apply veq_refl | apply veq_sym]. Qed.
Print Assumptions C28_veq_equiv.

(* compact removes exactly the items that are configured-empty (after compacting them first when recursive) *)
Theorem C28_compact_spec : forall (o : compact_opts) (a : list value) (m : obj),
  compact_val o (VArr a) = VArr (filter (keep o) (map (recur o) a))
  /\ compact_val o (VObj m) = VObj (filter (fun kv => keep o (snd kv)) (map (fun kv => (fst kv, recur o (snd kv))) m)).
Proof. intros o a m. split; [apply compact_arr_spec | apply compact_obj_spec]. Qed.
Print Assumptions C28_compact_spec.

(* nothing configured-empty is left, at any depth when recursive; and compacting a clean value changes nothing *)
Theorem C28_compact_clean : forall (o : compact_opts) (v : value),
  clean o (compact_val o v) /\ (clean o v -> compact_val o v = v).
Proof. intros o v. split; [apply compact_clean | apply compact_clean_id]. Qed.
Print Assumptions C28_compact_clean.

Theorem C28_compact_idem : forall (o : compact_opts) (v : value),
  compact_val o (compact_val o v) = compact_val o v.
Proof. intros o v. apply compact_clean_id, compact_clean. Qed.
Print Assumptions C28_compact_idem.

Theorem C28_keys_values_length : forall m : obj,
  exists ks vs, fn_keys (VObj m) = ROk (VArr ks) /\ fn_values (VObj m) = ROk (VArr vs)
    /\ fn_length (VObj m) = ROk (VInt (Z.of_nat (List.length m)))
    /\ List.length ks = List.length m /\ List.length vs = List.length m
    /\ ks = map (fun kv => VBytes (fst kv)) m /\ vs = map snd m
    /\ (forall i k v, nth_error m i = Some (k, v) -> nth_error ks i = Some (VBytes k) /\ nth_error vs i = Some v).
Proof. exact keys_values_length. Qed.
Print Assumptions C28_keys_values_length.

(* merge(a, b)[k] = b[k] on b's keys (recursively merged when deep and both fields are objects), a[k] elsewhere *)
Theorem C28_merge_right_bias : forall (deep : bool) (m1 m2 : obj) (k : bytes), NoDup (map fst m2) ->
  obj_get (merge_into deep m1 (VObj m2)) k =
  match obj_get m2 k with
  | Some x => Some (merged_field deep (obj_get m1 k) x)
  | None => obj_get m1 k
  end.
Proof. exact merge_right_bias. Qed.
Print Assumptions C28_merge_right_bias.

Theorem C28_merge_shallow : forall (m1 m2 : obj) (k : bytes), NoDup (map fst m2) ->
  obj_get (merge_into false m1 (VObj m2)) k = match obj_get m2 k with Some x => Some x | None => obj_get m1 k end.
Proof. intros m1 m2 k H. rewrite merge_right_bias by exact H. reflexivity. Qed.
Print Assumptions C28_merge_shallow.

Theorem C28_push_append : forall (l r : list value) (x : value),
  (exists u, fn_push (VArr l) x = ROk (VArr u) /\ List.length u = S (List.length l) /\ nth_error u (List.length l) = Some x
             /\ forall i, (i < List.length l)%nat -> nth_error u i = nth_error l i)
  /\ fn_append (VArr l) (VArr r) = ROk (VArr (l ++ r)).
Proof. intros l r x. split; [apply push_spec | reflexivity]. Qed.
Print Assumptions C28_push_append.

Theorem C28_flatten : forall l : list value,
  Forall not_array (flat_items (VArr l)) /\ flat_items (VArr (flat_items (VArr l))) = flat_items (VArr l).
Proof. intros l. split; [apply flatten_no_arrays | apply flatten_idem]. Qed.
Print Assumptions C28_flatten.

Example C28_nonvacuous :
  (* hypotheses of the any-table theorems hold for the modelled tables *)
  (forall c d, In d (upper_cp c) -> upper_cp d = [d])
  /\ (forall c d, In d (lower_cp c) -> lower_cp d = [d] /\ d <> capital_sigma)
  (* ß -> SS, İ -> i + U+0307, final sigma *)
  /\ upcase (hx "c39f") = hx "5353" /\ downcase (hx "c4b0") = hx "69cc87"
  /\ downcase (hx "ce91cea3") = hx "ceb1cf82" /\ downcase (hx "ce91cea3ce91") = hx "ceb1cf83ceb1"
  (* split/join on an overlapping pattern, the empty pattern and a limit *)
  /\ split_str (hx "61616161") (hx "6161") 999999999 = [[]; []; []]
  /\ split_str (hx "616263") [] 3 = [[]; hx "61"; hx "6263"]
  /\ strip_ws (hx "e2808061c2a062e38080") = hx "61c2a062"
  /\ truncate_str (hx "68c3a96c6c6f") 2 (hx "e280a6") = hx "68c3a9e280a6"
  /\ slice_list (hx "616263") (-2) (Some 5%Z) = Some (hx "6263") /\ slice_list (hx "616263") 4 None = None
  /\ unique_list [VInt 1; VFloat (f64_of_bits 0); VInt 1; VFloat (f64_of_bits 0x8000000000000000)] = [VInt 1; VFloat (f64_of_bits 0)]
  /\ compact_val compact_defaults (VArr [VNull; VArr [VNull]; VBytes (hx "61"); VObj [(hx "6b", VBytes [])]]) = VArr [VBytes (hx "61")]
  /\ merge_into true [(hx "61", VObj [(hx "78", VInt 1)])] (VObj [(hx "61", VObj [(hx "79", VInt 2)])])
     = [(hx "61", VObj [(hx "78", VInt 1); (hx "79", VInt 2)])]
  /\ KnownC28_sw_zip (hx "c389c39f") (hx "c3a9") = false /\ starts_with_ci (hx "c389c39f") (hx "c3a9") = true
  /\ KnownC28_sw_zip (hx "e284aa") (hx "6b6b") = true
  (* invalid UTF-8: byte-wise on the invalid bytes, case-insensitive on the rest; a needle ending inside a char *)
  /\ starts_with_ci (hx "ff6162") (hx "ff41") = true /\ starts_with_ci (hx "6162") (hx "41ff") = false
  /\ starts_with_ci (hx "c3") (hx "c3") = true /\ starts_with_ci (hx "c3a9") (hx "c3") = false
  /\ snakecase (hx "763252656c6561736520584d4c48747470") = hx "765f325f72656c656173655f786d6c5f68747470"
  /\ NoDup (map fst [(hx "61", VObj [(hx "79", VInt 2)])]).
Proof.
  split; [exact upper_cp_stable|]. split; [exact lower_cp_stable|].
  vm_compute. repeat (split; [reflexivity|]). constructor; [intros []|constructor].
Qed.
