(* C30 — Datadog search queries round-trip through their text form.
   Model: Model/DdSearch.v (node.rs to_lucene / lucene_escape / quoted_escape, grammar.pest as a
   recursive-descent recogniser with pest's semantics, grammar.rs QueryVisitor, parser.rs).
   The unchanged implementation does NOT round-trip every accepted text (see the `_refuted` witnesses, one per
   recorded finding); the theorems state the round trip on the trees outside those classes (`safe`).
   The proofs are in the Proofs/DdSearch files. *)
From Coq Require Import String List NArith ZArith Bool.
From Coq Require Import Floats.SpecFloat.
From VRL Require Import Base.Bytes Base.Value Base.Lit Model.DdNode Model.DdSearch
  Proofs.DdSearchProofs Proofs.DdSearchNum Proofs.DdSearchRT Proofs.DdSearchWild Proofs.DdSearchQuery
  Proofs.DdSearchMulti.
Import ListNotations.
Local Open Scope string_scope.
Local Open Scope list_scope.

(* escaping: unescape undoes lucene_escape and quoted_escape, for every string *)
Theorem C30_escape_term : forall s : bytes, unescape (lucene_escape s) = s.
Proof. exact unescape_lucene_escape. Qed.
Print Assumptions C30_escape_term.

Theorem C30_escape_quoted : forall s : bytes, unescape (quoted_escape s) = s.
Proof. exact unescape_quoted_escape. Qed.
Print Assumptions C30_escape_quoted.

(* the lexical lemmas: the escaped text is consumed as exactly one token of the grammar.
   term_ok s: s is not empty, has no blank, does not start with AND / OR / NOT / && / || and does not contain
   the literal text UNICODE3000 (the three cases lucene_escape does not protect; see the refuted witnesses).
   stops rest: what follows is the end, a blank or a special character other than - + = and backslash. *)
Theorem C30_lex_term : forall s rest : bytes,
  term_ok s = true -> stops rest = true ->
  lex_term (lucene_escape s ++ rest) = Some (lucene_escape s, rest).
Proof. exact lex_term_escaped. Qed.
Print Assumptions C30_lex_term.

Theorem C30_lex_prefix : forall s rest : bytes,
  nonempty s = true -> no_ws s = true -> uni_free s = true -> term_end rest = true ->
  lex_term_prefix (lucene_escape s ++ 42%N :: rest) = Some (lucene_escape s, rest).
Proof. exact lex_term_prefix_escaped. Qed.
Print Assumptions C30_lex_prefix.

(* a quoted phrase is read back as one PHRASE whatever it contains and whatever follows *)
Theorem C30_quoted : forall s rest : bytes,
  lex_phrase (34%N :: quoted_escape s ++ 34%N :: rest) = Some (quoted_escape s, rest)
  /\ unescape (quoted_escape s) = s.
Proof. intros s rest. split; [apply lex_phrase_quoted | apply unescape_quoted_escape]. Qed.
Print Assumptions C30_quoted.

(* integer bounds: printed in decimal, read back by ComparisonValue::from as the same i64 *)
Theorem C30_int_bound : forall z : Z, i64_range z = true -> cval_from (dec_of_Z z) = CInt z.
Proof. exact cval_from_dec. Qed.
Print Assumptions C30_int_bound.

(* values: each kind of value text is read back by the `value` rule as the same alternative *)
Theorem C30_value_term : forall v rest, term_ok v = true -> term_end rest = true ->
  parse_value (lucene_escape v ++ rest) = Some (PVTerm (lucene_escape v), rest).
Proof. exact parse_value_term. Qed.
Print Assumptions C30_value_term.

Theorem C30_value_quoted : forall v rest,
  parse_value (34%N :: quoted_escape v ++ 34%N :: rest) = Some (PVPhrase (quoted_escape v), rest).
Proof. exact parse_value_quoted. Qed.
Print Assumptions C30_value_quoted.

Theorem C30_value_range : forall b lo hi rest,
  nonempty lo = true -> forallb range_char lo = true -> nonempty hi = true -> forallb range_char hi = true ->
  parse_value (lbr b :: lo ++ bs " TO " ++ hi ++ rbr b :: rest) = Some (PVRange b lo hi b, rest).
Proof. exact parse_value_range. Qed.
Print Assumptions C30_value_range.

(* a wildcard text X g0 Y (X without wildcard characters, g0 the first `*` / `?`, see wild_parts) is read back
   by TERM_GLOB, every earlier alternative of `value` failing *)
Theorem C30_value_wild : forall X g0 Y rest, wild_parts X g0 Y -> term_end rest = true ->
  parse_value ((X ++ g0 :: Y) ++ rest) = Some (PVGlob (X ++ g0 :: Y), rest).
Proof. exact parse_value_wild. Qed.
Print Assumptions C30_value_wild.

(* visit_query: an AND list and an OR list of clauses fold into the Boolean node *)
Theorem C30_fold_and : forall df x y ns,
  fold_query df (items_of x ++ list_items false (y :: ns)) = VOk (NBool BAnd (x :: y :: ns)).
Proof. exact fold_and_list. Qed.
Print Assumptions C30_fold_and.

Theorem C30_fold_or : forall df x y ns,
  fold_query df (items_of x ++ list_items true (y :: ns)) = VOk (NBool BOr (x :: y :: ns)).
Proof. exact fold_or_list. Qed.
Print Assumptions C30_fold_or.

(* the round trip of whole trees (by induction over the tree: negations, AND / OR lists with their
   parentheses, and every kind of leaf).
   safe fok n: every attribute is printable raw (attr_ok), term / prefix values satisfy term_ok, wildcards
   satisfy wild_ok, string bounds are not re-read as numbers, quoted strings or `*`, range brackets agree, float
   bounds satisfy fok, lists have
   at least two items, no NOT NOT directly inside an AND, MatchNoDocs only as the whole query, no NOT *:* directly
   under a NOT.  fdisp / fok: the Display text of the floats in fok is assumed to read back (num_text_ok). *)
Theorem C30_node_roundtrip : forall (fdisp : spec_float -> bytes) (fok : spec_float -> bool),
  (forall f, fok f = true -> num_text_ok (fdisp f) (CFloat f)) ->
  forall n : node,
  safe fok n = true -> is_not_all n = false -> all_whitespace (to_lucene fdisp n) = false ->
  parse (to_lucene fdisp n) = PRNode n.
Proof. exact node_roundtrip. Qed.
Print Assumptions C30_node_roundtrip.

(* without any assumption on floats: trees whose bounds are strings, integers or `*` *)
Theorem C30_node_roundtrip_nofloat : forall (fdisp : spec_float -> bytes) (n : node),
  safe (fun _ => false) n = true -> is_not_all n = false -> all_whitespace (to_lucene fdisp n) = false ->
  parse (to_lucene fdisp n) = PRNode n.
Proof. intros fdisp n. apply node_roundtrip. intros f H. discriminate. Qed.
Print Assumptions C30_node_roundtrip_nofloat.

(* the property in its own words, for the accepted texts whose tree is safe *)
Theorem C30_text_roundtrip : forall (fdisp : spec_float -> bytes) (fok : spec_float -> bool),
  (forall f, fok f = true -> num_text_ok (fdisp f) (CFloat f)) ->
  forall (q : bytes) (n : node),
  parse q = PRNode n -> safe fok n = true -> all_whitespace (to_lucene fdisp n) = false ->
  parse (to_lucene fdisp n) = parse q.
Proof. intros fdisp fok Hf q n P S W. rewrite P. apply node_roundtrip with (fok := fok); auto. apply (parse_not_all q n P). Qed.
Print Assumptions C30_text_roundtrip.

(* a bare multi-word term as the whole query ("a b c": one multiterm, joined by single blanks) *)
Theorem C30_multiterm_roundtrip : forall (fdisp : spec_float -> bytes) (w : bytes) (ws : list bytes),
  forallb term_ok (w :: ws) = true ->
  all_whitespace (to_lucene fdisp (NTerm DEFAULT_FIELD (join_sp (w :: ws)))) = false ->
  parse (to_lucene fdisp (NTerm DEFAULT_FIELD (join_sp (w :: ws)))) = PRNode (NTerm DEFAULT_FIELD (join_sp (w :: ws))).
Proof. exact multiterm_roundtrip. Qed.
Print Assumptions C30_multiterm_roundtrip.

(* the full statement `forall q n, parse q = PRNode n -> parse (to_lucene n) = parse q` is false on the
   model and on the implementation: see the witnesses below, one per class of trees outside `safe`. *)

(* non-vacuity: a nested tree with every provable kind of leaf; float Display given for 1.5 only *)
Definition fd15 (f : spec_float) : bytes := bs "1.5".
Definition fok15 (f : spec_float) : bool := sf_eqb f (f64_of_bits 0x3ff8000000000000).

Lemma fd15_ok : forall f, fok15 f = true -> num_text_ok (fd15 f) (CFloat f).
Proof.
  intros f H. apply sf_eqb_eq in H. subst f. apply num_text_ok_one_point_five. reflexivity.
Qed.

Example C30_roundtrip_nonvacuous :
  let n := NBool BOr
             [NBool BAnd [NTerm (bs "service") (bs "a:b(c)"); NNot (NQuoted (bs "_default_") (bs "x ""y"" z"));
                          NNot (NBool BOr [NPrefix (bs "@http.url") (bs "/api/v1"); NExists (bs "@err")])];
              NRange (bs "@d") (CFloat (f64_of_bits 0x3ff8000000000000)) true (CInt 10) true;
              NNot (NNot (NCmp (bs "host") Gte (CStr (bs "web-1"))));
              NBool BAnd [NWild (bs "_default_") (bs "err*r?"); NWild (bs "@k") (bs "*"); NWild (bs "@k") (bs "a?c")];
              NRange (bs "_default_") CUnb false (CStr (bs "zz")) false] in
  safe fok15 n = true /\ is_not_all n = false /\ all_whitespace (to_lucene fd15 n) = false
  /\ parse (to_lucene fd15 n) = PRNode n.
Proof. vm_compute. repeat split. Qed.

(* the recorded findings: accepted texts whose rendering does not parse back to the same tree
   (each is replayed on the implementation by corpus/C30) *)
Definition rt (fd : spec_float -> bytes) (q : bytes) : parse_result * parse_result :=
  match parse q with
  | PRNode n => (PRNode n, parse (to_lucene fd n))
  | r => (r, r)
  end.

Definition fd_impl (f : spec_float) : bytes :=      (* the implementation's Display of the floats used below *)
  if sf_eqb f (f64_of_bits 0x3ff0000000000000) then bs "1" else bs "inf".

(* C30-whitespace: blanks inside a value are not escaped *)
Example C30_whitespace_refuted :
  rt fd_impl (bs "foo:a\ b") =
  (PRNode (NTerm (bs "foo") (bs "a b")),
   PRNode (NBool BAnd [NTerm (bs "foo") (bs "a"); NTerm (bs "_default_") (bs "b")])).
Proof. vm_compute. reflexivity. Qed.

(* C30-attr-raw: attribute names are printed without escaping *)
Example C30_attr_raw_refuted :
  rt fd_impl (bs "_exists_:a\:b") = (PRNode (NExists (bs "a:b")), PRError)
  /\ rt fd_impl (bs "\_exists_:a") = (PRNode (NTerm (bs "_exists_") (bs "a")), PRNode (NExists (bs "a"))).
Proof. vm_compute. split; reflexivity. Qed.

(* C30-float-text: a float bound whose Display text is an integer (or inf / NaN in a comparison) *)
Example C30_float_text_refuted :
  rt fd_impl (bs ">1.0") =
  (PRNode (NCmp (bs "_default_") Gt (CFloat (f64_of_bits 0x3ff0000000000000))),
   PRNode (NCmp (bs "_default_") Gt (CInt 1)))
  /\ snd (rt fd_impl (bs ">1E400")) = PRNode (NCmp (bs "_default_") Gt (CStr (bs "inf"))).
Proof. vm_compute. split; reflexivity. Qed.

(* C30-keyword: a value starting with AND / OR / NOT / && / ||, or containing the text UNICODE3000 *)
Example C30_keyword_refuted :
  rt fd_impl (bs "\NOTx") = (PRNode (NTerm (bs "_default_") (bs "NOTx")), PRNode (NNot (NTerm (bs "_default_") (bs "x"))))
  /\ rt fd_impl (bs "\UNICODE3000") = (PRNode (NTerm (bs "_default_") (bs "UNICODE3000")), PRError).
Proof. vm_compute. split; reflexivity. Qed.

(* C30-wildcard-raw: wildcards are printed unescaped although the parser unescaped them *)
Example C30_wildcard_raw_refuted :
  rt fd_impl (bs "a\:b*c") = (PRNode (NWild (bs "_default_") (bs "a:b*c")), PRNode (NWild (bs "a") (bs "b*c"))).
Proof. vm_compute. reflexivity. Qed.

(* C30-wildcard-multiterm: a field-less wildcard whose first wildcard character is `?`, printed first *)
Example C30_wildcard_multiterm_refuted :
  rt fd_impl (bs "+a?b") =
  (PRNode (NWild (bs "_default_") (bs "a?b")),
   PRNode (NBool BAnd [NTerm (bs "_default_") (bs "a"); NWild (bs "_default_") (bs "?b")])).
Proof. vm_compute. reflexivity. Qed.

(* C30-string-bound: a string bound that reads as a number, a doubly quoted one, or the empty string (from a
   lone backslash) *)
Example C30_string_bound_refuted :
  rt fd_impl (bs "@a:>\1") = (PRNode (NCmp (bs "@a") Gt (CStr (bs "1"))), PRNode (NCmp (bs "@a") Gt (CInt 1)))
  /\ snd (rt fd_impl (bs "@a:[""""a"""" TO 5]")) = PRNode (NRange (bs "@a") (CStr (bs "a")) true (CInt 5) true)
  /\ rt fd_impl (bs "x:{\ TO a}") = (PRNode (NRange (bs "x") (CStr []) false (CStr (bs "a")) false), PRError).
Proof. vm_compute. repeat split; reflexivity. Qed.

(* C30-not-not: NOT NOT inside an AND is printed without parentheses *)
Example C30_not_not_refuted :
  rt fd_impl (bs "a -(-x)") =
  (PRNode (NBool BAnd [NTerm (bs "_default_") (bs "a"); NNot (NNot (NTerm (bs "_default_") (bs "x")))]),
   PRNode (NBool BAnd [NTerm (bs "_default_") (bs "a"); NNot (NWild (bs "_default_") (bs "NOT"));
                       NTerm (bs "_default_") (bs "x")])).
Proof. vm_compute. reflexivity. Qed.

(* C30-nodocs-nested: MatchNoDocs from a parenthesised negated match-all inside a larger query *)
Example C30_nodocs_nested_refuted :
  rt fd_impl (bs "a (-*:*)") =
  (PRNode (NBool BAnd [NTerm (bs "_default_") (bs "a"); NNone]),
   PRNode (NBool BAnd [NTerm (bs "_default_") (bs "a"); NNot NAll]))
  /\ rt fd_impl (bs "NOT (-*:*)") = (PRNode (NNot NNone), PRError).
Proof. vm_compute. split; reflexivity. Qed.

(* C30-range-panic: brackets of different kinds are accepted by the grammar and panic in the visitor *)
Example C30_range_panic_refuted : parse (bs "[1 TO 2}") = PRPanic /\ parse (bs "f:{a TO b]") = PRPanic.
Proof. vm_compute. split; reflexivity. Qed.

(* C30-unicode-blank: a term made of Unicode white space only (here U+00A0) is printed bare and read as the
   empty query *)
Example C30_unicode_blank_refuted :
  rt fd_impl [92%N; 194%N; 160%N] = (PRNode (NTerm (bs "_default_") [194%N; 160%N]), PRNode NAll).
Proof. vm_compute. reflexivity. Qed.
