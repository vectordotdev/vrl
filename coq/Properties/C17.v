(* C17 — target faults are contained.
   The target's fault schedule (state field faults) rejects the n-th Target operation when its
   n-th element is true; Model/Eval.v mirrors how each caller treats the rejection
   (.ok().flatten(), drop(target_insert(..)), the root check of Runtime::resolve). *)
From Coq Require Import List ZArith String.
From VRL Require Import Base.Value Base.Lit Model.ValueCrud Model.Expr Model.Eval Model.EvalInst.
Import ListNotations.
Local Open Scope string_scope.
Local Open Scope list_scope.
Local Open Scope Z_scope.

(* a rejected read behaves as a missing field: the query yields null and exists yields false,
   exactly as an accepted read of an absent location does *)
Theorem C17_rejected_read_is_missing :
  forall F binop s pfx p fs, pop_fault s = (true, fs) ->
  eval F binop (EQExt pfx p) s = (inl VNull, mkState (vars s) (ev s) (md s) (TGet pfx p :: tlog s) fs)
  /\ eval F binop (EExistsExt pfx p) s =
     (inl (VBool false), mkState (vars s) (ev s) (md s) (TGet pfx p :: tlog s) fs).
Proof. intros F binop s pfx p fs H. cbn [eval]. unfold t_get. rewrite H. split; reflexivity. Qed.
Print Assumptions C17_rejected_read_is_missing.

Theorem C17_missing_read_reference :
  forall F binop s pfx p fs, pop_fault s = (false, fs) -> get (tval s pfx) p = None ->
  eval F binop (EQExt pfx p) s = (inl VNull, mkState (vars s) (ev s) (md s) (TGet pfx p :: tlog s) fs)
  /\ eval F binop (EExistsExt pfx p) s =
     (inl (VBool false), mkState (vars s) (ev s) (md s) (TGet pfx p :: tlog s) fs).
Proof. intros F binop s pfx p fs H G. cbn [eval]. unfold t_get. rewrite H, G. split; reflexivity. Qed.
Print Assumptions C17_missing_read_reference.

(* a rejected write leaves event, metadata and variables unchanged; the assignment still yields its value *)
Theorem C17_rejected_write_leaves_target :
  forall F binop s e t v s1 fs pfx p,
  eval F binop e s = (inl v, s1) -> t = TExt pfx p -> pop_fault s1 = (true, fs) ->
  exists s2, eval F binop (EAssign t e) s = (inl v, s2) /\ ev s2 = ev s1 /\ md s2 = md s1 /\ vars s2 = vars s1.
Proof.
  intros F binop s e t v s1 fs pfx p He -> Hf. cbn [eval]. rewrite He. cbn [target_insert]. unfold t_insert. rewrite Hf.
  eexists; split; [reflexivity|]. destruct pfx; cbn; auto.
Qed.
Print Assumptions C17_rejected_write_leaves_target.

(* a rejected deletion leaves the target unchanged and yields null *)
Theorem C17_rejected_delete_leaves_target :
  forall F binop s pfx p c fs, pop_fault s = (true, fs) ->
  exists s', eval F binop (EDelExt pfx p c) s = (inl VNull, s') /\ ev s' = ev s /\ md s' = md s /\ vars s' = vars s.
Proof.
  intros F binop s pfx p c fs H. cbn [eval]. unfold t_remove. rewrite H. eexists; split; [reflexivity|].
  destruct pfx; cbn; auto.
Qed.
Print Assumptions C17_rejected_delete_leaves_target.

(* a target whose root cannot be read makes the run end with an error, before any expression runs *)
Theorem C17_unreadable_root_fails :
  forall F binop es s fs, pop_fault s = (true, fs) ->
  run F binop es s = (Failed, mkState (vars s) (ev s) (md s) (tlog s) fs).
Proof. intros F binop es s fs H. unfold run. rewrite H. reflexivity. Qed.
Print Assumptions C17_unreadable_root_fails.

Example C17_example :
  let prog := [EAssign (TExt PEvent [SField (hx "61")]) (ELit (VInt 1));
               EAssign (TVar (hx "78") []) (EQExt PEvent [SField (hx "62")]);
               EDelExt PEvent [SField (hx "62")] false] in
  let e0 := VObj [(hx "62", VInt 7)] in
  run_core prog (mkState [] e0 (VObj []) [] [false; true; true; true]) =
    (Success VNull, [(hx "78", VNull)], e0, VObj [])
  /\ run_core prog (mkState [] e0 (VObj []) [] [true]) = (Failed, [], e0, VObj []).
Proof. vm_compute. split; reflexivity. Qed.
