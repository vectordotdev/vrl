(* C25 — Paired conversion functions are mutually inverse.
   Models: Model/{IntText,Ip,Entries,Flatten,UnixTs,TsText}.v.  Statements, each derived in a line or two from the theorems of the Proofs/ files imported below. *)
From Coq Require Import String.
From Coq Require Import List NArith ZArith Bool Lia.
From VRL Require Import Base.Bytes Base.Value Base.Lit Model.ConvRes Model.IntText Model.Ip Model.Entries
  Model.Flatten Model.UnixTs Model.TsText
  Proofs.IntTextProofs Proofs.IpProofs Proofs.Ip6Proofs Proofs.Ip4CanonProofs Proofs.EntriesProofs Proofs.UnixTsProofs Proofs.FlattenProofs Proofs.TsTextProofs.
(* no statement below uses it: required only so that building this file also rebuilds the correspondence
   glue against the same compiled models *)
From VRL Require Corr.C25.
Import ListNotations.
Local Open Scope list_scope.
Local Open Scope Z_scope.

(* every base 2..36, every i64 (i64::MIN included since 12bd79c): format_int succeeds (no panic, the digit
   loop ends within its 64 rounds) and parse_int with the same base returns the number *)
Theorem C25_int : forall base z,
  2 <= base <= 36 -> in_i64 z = true ->
  exists s, format_int (VInt z) (VInt base) = ROk (VBytes s)
            /\ parse_int (VBytes s) (Some (VInt base)) = ROk (VInt z).
Proof. exact int_roundtrip. Qed.
Print Assumptions C25_int.

(* both `base` arguments left out: printed in base 10, and the prefix rules of parse_int pick base 10
   (or base 8 for the text "0") *)
Theorem C25_int_default_base : forall z,
  in_i64 z = true ->
  exists s, format_int_opt (VInt z) None = ROk (VBytes s) /\ parse_int (VBytes s) None = ROk (VInt z).
Proof. exact int_roundtrip_default. Qed.
Print Assumptions C25_int_default_base.

(* the former refutation witness: i64::MIN, where `-x` used to overflow, now round-trips in every base *)
Theorem C25_int_min_roundtrips : forall base, 2 <= base <= 36 ->
  exists s, format_int (VInt i64_min) (VInt base) = ROk (VBytes s)
            /\ parse_int (VBytes s) (Some (VInt base)) = ROk (VInt i64_min).
Proof. intros base Hb. apply int_roundtrip; [exact Hb | reflexivity]. Qed.
Print Assumptions C25_int_min_roundtrips.

Theorem C25_ntoa_aton : forall n,
  0 <= n < 4294967296 ->
  exists s, ip_ntoa (VInt n) = ROk (VBytes s) /\ ip_aton (VBytes s) = ROk (VInt n).
Proof. exact ntoa_aton_roundtrip. Qed.
Print Assumptions C25_ntoa_aton.

Theorem C25_aton_ntoa : forall a b c d,
  octet a -> octet b -> octet c -> octet d ->
  exists n, ip_aton (VBytes (ipv4_to_string [a; b; c; d])) = ROk (VInt n)
            /\ ip_ntoa (VInt n) = ROk (VBytes (ipv4_to_string [a; b; c; d])).
Proof. intros a b c d Ha Hb Hc Hd. eexists. split; [apply ip_aton_text | apply ip_ntoa_octets]; assumption. Qed.
Print Assumptions C25_aton_ntoa.

(* ... and every text ip_aton accepts at all (Ipv4Addr::from_str takes no leading zeros, so an accepted text is
   the canonical one) comes back from ip_ntoa *)
Theorem C25_aton_ntoa_accepted : forall s n,
  ip_aton (VBytes s) = ROk (VInt n) -> ip_ntoa (VInt n) = ROk (VBytes s).
Proof. exact aton_ntoa_accepted. Qed.
Print Assumptions C25_aton_ntoa_accepted.

(* text -> bytes -> text on every IPv4 text ip_pton accepts (an IPv6 text need not be canonical: "0:0::1") *)
Theorem C25_pton_ntop_accepted_v4 : forall s b,
  ip_pton (VBytes s) = ROk (VBytes b) -> length b = 4%nat -> ip_ntop (VBytes b) = ROk (VBytes s).
Proof. exact pton_ntop_accepted_v4. Qed.
Print Assumptions C25_pton_ntop_accepted_v4.

Theorem C25_ntop_pton_v4 : forall b,
  length b = 4%nat -> wf_bytes b = true ->
  exists s, ip_ntop (VBytes b) = ROk (VBytes s) /\ ip_pton (VBytes s) = ROk (VBytes b).
Proof. exact ntop_pton_roundtrip_v4. Qed.
Print Assumptions C25_ntop_pton_v4.

(* every IPv6 address: the text std prints for it (RFC 5952: lower-case hex groups, the first longest run of
   two or more zero groups written "::", "::ffff:a.b.c.d" for IPv4-mapped addresses) is read back by
   IpAddr::from_str as the same eight segments *)
Theorem C25_ipv6_text : forall G,
  length G = 8%nat -> Forall u16 G -> parse_ip (ipv6_to_string G) = Some (V6 G).
Proof. exact ipv6_text_roundtrip. Qed.
Print Assumptions C25_ipv6_text.

Theorem C25_ntop_pton_v6 : forall b,
  length b = 16%nat -> wf_bytes b = true ->
  exists s, ip_ntop (VBytes b) = ROk (VBytes s) /\ ip_pton (VBytes s) = ROk (VBytes b).
Proof. exact ntop_pton_roundtrip_v6. Qed.
Print Assumptions C25_ntop_pton_v6.

(* a.b.c.d -> "::ffff:a.b.c.d" -> a.b.c.d; read from the right it is also
   "::ffff:a.b.c.d" -> a.b.c.d -> "::ffff:a.b.c.d" *)
Theorem C25_ipv4_mapped : forall a b c d,
  octet a -> octet b -> octet c -> octet d ->
  let s4 := ipv4_to_string [a; b; c; d] in
  ip_to_ipv6 (VBytes s4) = ROk (VBytes (mapped_text s4)) /\ ipv6_to_ipv4 (VBytes (mapped_text s4)) = ROk (VBytes s4).
Proof. exact mapped_roundtrip. Qed.
Print Assumptions C25_ipv4_mapped.

(* every text that parses as an IPv4 address *)
Theorem C25_to6_to4_accepted : forall s o,
  parse_ip s = Some (V4 o) ->
  exists t, ip_to_ipv6 (VBytes s) = ROk (VBytes t) /\ ipv6_to_ipv4 (VBytes t) = ROk (VBytes s).
Proof. exact to6_to4_accepted. Qed.
Print Assumptions C25_to6_to4_accepted.

(* every object (a BTreeMap: keys strictly increasing) *)
Theorem C25_entries : forall m,
  obj_sorted m = true ->
  to_entries (VObj m) = ROk (VArr (map entry_of m)) /\ from_entries (VArr (map entry_of m)) = ROk (VObj m).
Proof. exact entries_roundtrip. Qed.
Print Assumptions C25_entries.

(* Every object that is flat_ok (Proofs/FlattenProofs.v): keys strictly increasing at every object level,
   every key separator-safe (`no_early`: the separator occurs neither inside the key nor straddling the end
   of key ++ separator), every object nested under an object key non-empty.  Arrays and scalars are leaves:
   nothing is asked of them or of what they contain (empty arrays, objects inside arrays are fine).
   flatten with that separator and no `except`, then unflatten with it (recursive or not) restores it. *)
Theorem C25_flatten : forall sep m r,
  sep <> [] -> flat_ok sep m = true ->
  exists y, flatten (VObj m) (VBytes sep) [] = ROk y /\ unflatten y (VBytes sep) (VBool r) = ROk (VObj m).
Proof. exact flatten_unflatten. Qed.
Print Assumptions C25_flatten.

(* in the property's own words for a one-character separator (".", "_", ...): no key contains it and no
   nested object is empty *)
Theorem C25_flatten_single_char_separator : forall c m r,
  flat_plain [c] m = true ->
  exists y, flatten (VObj m) (VBytes [c]) [] = ROk y /\ unflatten y (VBytes [c]) (VBool r) = ROk (VObj m).
Proof. intros c m r H. apply flatten_unflatten; [discriminate | apply plain_single; exact H]. Qed.
Print Assumptions C25_flatten_single_char_separator.

(* with a separator that overlaps itself "no key contains the separator" is not enough:
   {"xa": {"c": 1}} with separator "aa" comes back as {"x": {"ac": 1}} *)
Theorem C25_flatten_bordered_separator_refuted : exists sep m,
  sep <> [] /\ flat_plain sep m = true /\
  exists y z, flatten (VObj m) (VBytes sep) [] = ROk y /\ unflatten y (VBytes sep) (VBool true) = ROk z /\ z <> VObj m.
Proof.
  exists (hx "6161"), [(hx "7861", VObj [(hx "63", VInt 1)])].
  split; [discriminate|]. split; [reflexivity|].
  eexists. eexists. split; [reflexivity|]. split; [vm_compute; reflexivity|]. vm_compute. discriminate.
Qed.
Print Assumptions C25_flatten_bordered_separator_refuted.

(* integer -> timestamp -> integer: exact for every unit whenever the integer is accepted *)
Theorem C25_unix_from_to : forall u v t,
  in_i64 v = true -> from_unix_timestamp (VInt v) u = ROk t -> to_unix_timestamp t u = ROk (VInt v).
Proof. exact from_to_unix. Qed.
Print Assumptions C25_unix_from_to.

(* timestamp -> integer -> timestamp, every timestamp chrono can hold (for nanoseconds: those within i64
   nanoseconds, the others are refused by to_unix_timestamp): the result is the timestamp truncated to the
   unit towards minus infinity ... *)
Theorem C25_unix_to_from : forall u ns,
  ts_in_range ns = true -> (u = Nanoseconds -> in_i64 ns = true) ->
  exists v, to_unix_timestamp (VTs ns) u = ROk (VInt v) /\ in_i64 v = true
            /\ from_unix_timestamp (VInt v) u = ROk (VTs (ns - ns mod unit_ns u)).
Proof. exact to_from_unix. Qed.
Print Assumptions C25_unix_to_from.

(* ... hence the timestamp itself when it is a whole number of units *)
Theorem C25_unix_to_from_exact : forall u ns,
  ts_in_range ns = true -> (u = Nanoseconds -> in_i64 ns = true) -> ns mod unit_ns u = 0 ->
  exists v, to_unix_timestamp (VTs ns) u = ROk (VInt v) /\ from_unix_timestamp (VInt v) u = ROk (VTs ns).
Proof.
  intros u ns A B C. destruct (to_from_unix u ns A B) as (v & H1 & _ & H2). exists v. split; [exact H1|].
  rewrite H2, C. do 2 f_equal. lia.
Qed.
Print Assumptions C25_unix_to_from_exact.

(* the calendar arithmetic both directions rest on: every day number is the day number of its own date *)
Theorem C25_calendar_inverse : forall z,
  let '(y, m, d) := civil_from_days z in days_from_civil y m d = z.
Proof. intros z. pose proof (civil_from_days_spec z) as H. destruct (civil_from_days z) as [[y m] d]. apply H. Qed.
Print Assumptions C25_calendar_inverse.

(* Full statement wanted: for every full-precision format f and every timestamp t chrono can hold,
     parse_timestamp (format_timestamp t f) f = t.
   It is false for the formats built on %s (negative epochs) and on %Z (see the known findings), and chrono's
   strftime interpreter is modelled only for the four layouts of Model/TsText.v (layout_of):
     %Y-%m-%dT%H:%M:%S%.9f%z    %Y-%m-%dT%H:%M:%S%.f%:z    %+    %Y-%m-%d %H:%M:%S.%f  (program timezone UTC).
   Proved: on each of these, for every timestamp in chrono's range (years -262143 ..= 262142, nanosecond
   resolution), the modelled parser reads the modelled formatter's text back as the same timestamp. *)
Theorem C25_timestamp_text_layouts_partial : forall fmt l ns,
  layout_of fmt = Some l -> ts_in_range ns = true ->
  exists s, format_timestamp (VTs ns) (VBytes fmt) = Some (ROk (VBytes s))
            /\ parse_timestamp (VBytes s) (VBytes fmt) = Some (ROk (VTs ns)).
Proof.
  intros fmt l ns Hl Hr. unfold format_timestamp, parse_timestamp. rewrite Hl. eexists. split; [reflexivity|].
  rewrite (layout_roundtrip l ns Hr). reflexivity.
Qed.
Print Assumptions C25_timestamp_text_layouts_partial.

Example C25_hypotheses_nonvacuous :
  (2 <= 36 <= 36 /\ in_i64 i64_min = true
   /\ format_int (VInt i64_min) (VInt 36) = ROk (VBytes (ascii_bytes "-1y2p0ij32e8e8"))
   /\ format_int (VInt i64_min) (VInt 10) = ROk (VBytes (ascii_bytes "-9223372036854775808")))
  /\ (octet 255 /\ octet 0 /\ ipv4_to_string [255; 0; 10; 199] = ascii_bytes "255.0.10.199")
  /\ obj_sorted [(hx "61", VInt 1); (hx "6162", VNull)] = true
  /\ (ts_in_range (-1500000000) = true
      /\ to_unix_timestamp (VTs (-1500000000)) Seconds = ROk (VInt (-2))
      /\ from_unix_timestamp (VInt (-2)) Seconds = ROk (VTs (-2000000000)))
  /\ ts_in_range (ts_min_secs * 1000000000) = true /\ ts_in_range (ts_max_secs * 1000000000 + 999999999) = true.
Proof. vm_compute. repeat split; congruence. Qed.

Example C25_timestamp_text_nonvacuous :
  layout_of (ascii_bytes "%+") = Some LRfc3339
  /\ layout_of (ascii_bytes "%Y-%m-%dT%H:%M:%S%.9f%z") = Some LIsoNano
  /\ layout_of (ascii_bytes "%Y-%m-%dT%H:%M:%S%.f%:z") = Some LIsoAuto
  /\ layout_of (ascii_bytes "%Y-%m-%d %H:%M:%S.%f") = Some LSpaceNum
  /\ format_layout LRfc3339 (-62167219200000000001) = ascii_bytes "-0001-12-31T23:59:59.999999999+00:00"
  /\ format_layout LIsoNano (ts_max_secs * 1000000000 + 5) = ascii_bytes "+262142-12-31T23:59:59.000000005+0000"
  /\ civil_from_days 11016 = (2000, 2, 29).
Proof. vm_compute. repeat split; reflexivity. Qed.

Example C25_ipv6_nonvacuous :
  Forall u16 [8193; 3512; 0; 0; 1; 0; 0; 1] /\ ipv6_to_string [8193; 3512; 0; 0; 1; 0; 0; 1] = ascii_bytes "2001:db8::1:0:0:1"
  /\ ipv6_to_string [0; 0; 0; 0; 0; 0; 0; 0] = ascii_bytes "::"
  /\ ipv6_to_string [0; 0; 0; 0; 0; 65535; 258; 772] = ascii_bytes "::ffff:1.2.3.4"
  /\ ipv6_to_string [1; 0; 2; 0; 3; 0; 4; 0] = ascii_bytes "1:0:2:0:3:0:4:0".
Proof. split; [unfold u16; repeat constructor; lia | vm_compute; repeat split; reflexivity]. Qed.

Example C25_flatten_nonvacuous :
  let m := [(hx "61", VObj [(hx "", VArr []); (hx "782e61", VObj [(hx "63", VArr [VObj []; VObj [(hx "702e71", VNull)]])])]);
            (hx "62", VInt 7)] in
  flat_ok (hx "2e2e") m = true                      (* separator ".." ; the key "x.a" holds half of it *)
  /\ flat_plain (hx "2e") [(hx "61", VObj [(hx "62", VInt 1)]); (hx "63", VArr [])] = true
  /\ flatten (VObj m) (VBytes (hx "2e2e")) [] =
     ROk (VObj [(hx "612e2e", VArr []); (hx "612e2e782e612e2e63", VArr [VObj []; VObj [(hx "702e71", VNull)]]); (hx "62", VInt 7)]).
Proof. vm_compute. repeat split; reflexivity. Qed.
