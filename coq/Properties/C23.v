(* C23 — Encryption round-trips for every algorithm.
   Models: Model/Padding.v (block-padding crate), Model/Modes.v (cbc / cfb-mode / ofb / ctr crates over an abstract
   block cipher), Model/CipherGlue.v (src/stdlib/{encrypt,decrypt,encrypt_ip,decrypt_ip}.rs).
   Statements; a proof that takes more than a line or two is in Proofs/.  The library primitives are universally quantified: the block cipher
   (E, D : key -> block -> block, only assumed to keep 16-byte blocks 16 bytes long and D k (E k b) = b), the AEAD
   seal/open pairs (open (seal p) = Some p), the two ipcrypt permutations. *)
From Coq Require Import String.
From Coq Require Import List NArith ZArith Bool Arith.
From VRL Require Import Base.Bytes Base.Lit Model.ConvRes Model.Padding Model.Modes Model.Ip Model.CipherGlue Model.IpPfx
     Proofs.PaddingProofs Proofs.ModesProofs Proofs.CipherProofs Proofs.IpCryptProofs Proofs.IpPfxProofs.
Import ListNotations.

(* ---- paddings: every scheme, every message length (exact multiples of the block get a whole padding block),
        every ISO 10126 filler; closed, no hypotheses ---- *)
Theorem C23_unpad_pad : forall (s : scheme) (filler m : bytes), unpad s (pad s filler m) = Some m.
Proof. exact unpad_pad. Qed.
Print Assumptions C23_unpad_pad.

Theorem C23_pad_length : forall (s : scheme) (filler m : bytes),
  length (pad s filler m) = (16 * (1 + length m / 16))%nat.
Proof. exact pad_length. Qed.
Print Assumptions C23_pad_length.

(* ---- modes of operation over any block cipher, every data length ---- *)
Theorem C23_cbc : forall E D : cipher,
  (forall k b, length b = 16%nat -> length (E k b) = 16%nat) ->
  (forall k b, length b = 16%nat -> D k (E k b) = b) ->
  forall k iv d : bytes, length iv = 16%nat -> (length d mod 16 = 0)%nat ->
  cbc_decrypt D k iv (cbc_encrypt E k iv d) = d.
Proof. exact cbc_roundtrip. Qed.
Print Assumptions C23_cbc.

Theorem C23_cfb : forall E : cipher,
  (forall k b, length b = 16%nat -> length (E k b) = 16%nat) ->
  forall k iv d : bytes, length iv = 16%nat -> cfb_decrypt E k iv (cfb_encrypt E k iv d) = d.
Proof. intros E H. exact (cfb_roundtrip E H). Qed.
Print Assumptions C23_cfb.

Theorem C23_ofb : forall E : cipher,
  (forall k b, length b = 16%nat -> length (E k b) = 16%nat) ->
  forall k iv d : bytes, length iv = 16%nat -> ofb_apply E k iv (ofb_apply E k iv d) = d.
Proof. intros E H. exact (ofb_roundtrip E H). Qed.
Print Assumptions C23_ofb.

(* both counter flavours (CTR = CTR-LE: 64-bit little-endian counter in the first 8 IV bytes; CTR-BE: big-endian
   in the last 8), wrapping at 2^64 *)
Theorem C23_ctr : forall E : cipher,
  (forall k b, length b = 16%nat -> length (E k b) = 16%nat) ->
  forall (fl : ctr_flavor) (k iv d : bytes), length iv = 16%nat ->
  ctr_apply E fl k iv (ctr_apply E fl k iv d) = d.
Proof. intros E H. exact (ctr_roundtrip E H). Qed.
Print Assumptions C23_ctr.

(* ---- encrypt / decrypt: every accepted spelling of every algorithm, any plaintext, any key and IV of the sizes
        the name requires ---- *)
Theorem C23_roundtrip : forall P : prims,
  (forall k b, length b = 16%nat -> length (pE P k b) = 16%nat) ->
  (forall k b, length b = 16%nat -> pD P k (pE P k b) = b) ->
  (forall a k n p, pOpen P a k n (pSeal P a k n p) = Some p) ->
  forall (name : bytes) (pr : prim) (filler p k iv : bytes),
  lookup enc_table (upper_name name) = Some pr ->
  length k = key_len pr -> length iv = iv_len pr ->
  exists c, encrypt P filler name p k iv = COk c /\ decrypt P name c k iv = COk p.
Proof. exact roundtrip. Qed.
Print Assumptions C23_roundtrip.

(* the three tables of the model (match of encrypt, match of decrypt, is_valid_algorithm) agree on every name.
   `enc_table` and `dec_table` are two transcriptions with the same rows in the same order, so their agreement
   says that the transcriptions agree; that `dec_table` is the match of decrypt.rs is what the
   correspondence run (Corr/C23.v) tests, comparing the model's decrypt with the implementation's name by name. *)
Theorem C23_names_paired : forall name : bytes,
  lookup enc_table name = lookup dec_table name
  /\ (is_valid_algorithm name = true <-> lookup enc_table name <> None).
Proof. exact names_paired. Qed.
Print Assumptions C23_names_paired.

Theorem C23_accepted_alike : forall (P : prims) (filler name p c k iv : bytes),
  (encrypt P filler name p k iv = CErrAlg <-> decrypt P name c k iv = CErrAlg)
  /\ (encrypt P filler name p k iv = CErrAlg <-> compiles_with_constant name = false).
Proof. exact accepted_alike. Qed.
Print Assumptions C23_accepted_alike.

Theorem C23_cipher_length : forall P : prims,
  (forall k b, length b = 16%nat -> length (pE P k b) = 16%nat) ->
  (forall a k n p, length (pSeal P a k n p) = (length p + 16)%nat) ->
  forall (name : bytes) (pr : prim) (filler p k iv c : bytes),
  lookup enc_table (upper_name name) = Some pr ->
  encrypt P filler name p k iv = COk c -> length c = cipher_len pr (length p).
Proof. exact cipher_length. Qed.
Print Assumptions C23_cipher_length.

(* the hypotheses are satisfiable by a cipher that is not the identity, and the theorem covers spellings beyond the
   32 literal names *)
Example C23_hypotheses_satisfiable :
  (forall k b, length b = 16%nat -> length (pE toy_prims k b) = 16%nat)
  /\ (forall k b, length b = 16%nat -> pD toy_prims k (pE toy_prims k b) = b)
  /\ (forall a k n p, pOpen toy_prims a k n (pSeal toy_prims a k n p) = Some p)
  /\ pE toy_prims [5%N] [1%N; 2%N; 3%N] = [7%N; 6%N; 4%N]
  /\ lookup enc_table (upper_name (ascii_bytes "aes-128-cbc-pkcs7")) = Some (PCbc K128 Pkcs7)
  /\ lookup enc_table (upper_name (hx "6165732d3132382d73c4b176")) = Some (PAead Siv128).
Proof.
  split; [exact toy_E_len|]. split; [exact toy_block_inv|]. split; [exact toy_open_seal|].
  split; [reflexivity|]. split; reflexivity.
Qed.

(* ---- encrypt_ip / decrypt_ip.  Full statement intended (the property's second sentence):
        forall a s key mode, wf_addr a -> parse_ip s = Some a -> key of the size the mode requires ->
          exists c, encrypt_ip s key mode = IpOk c /\ decrypt_ip c key mode = IpOk (ip_text a)
      It is false on the pinned tree in two ways (witnesses below, both replayed on the implementation):
      IPv4-mapped IPv6 addresses and IPv6 addresses whose pfx encryption is IPv4-mapped.  (A third one, pfx keys with
      two equal halves panicking, was repaired by fb618e6: they are refused with an error now.)
      Proved: everything outside those classes. ---- *)
Theorem C23_ip_roundtrip : forall Q : ipprims,
  (forall k b, ip_wf b -> ip_wf (detE Q k b)) ->
  (forall k b, ip_wf b -> detD Q k (detE Q k b) = b) ->
  (forall k v b, ip_wf b -> ip_wf (pfxE Q k v b)) ->
  (forall k b, ip_wf b -> pfxD Q k false (pfxE Q k false b) = b) ->
  (forall k b, ip_wf b -> is_mapped b = true -> is_mapped (pfxE Q k true b) = true) ->
  (forall k b, ip_wf b -> is_mapped b = true -> pfxD Q k true (pfxE Q k true b) = b) ->
  forall (a : ipaddr) (s key mode : bytes),
  wf_addr a -> parse_ip s = Some a -> key_ok key mode -> known_ip_class Q a key mode = false ->
  exists c, encrypt_ip Q s key mode = IpOk c /\ decrypt_ip Q c key mode = IpOk (ip_text a).
Proof. exact ip_roundtrip. Qed.
Print Assumptions C23_ip_roundtrip.

(* ---- the `pfx` permutation need not be assumed: ipcrypt-pfx (Model/IpPfx.v, the bit loop of ipcrypt_rs over two
        AES-128 keys) is invertible over ANY block cipher, keeps 16 bytes 16 bytes and, in IPv4 mode, the mapped prefix ---- *)
Theorem C23_pfx_invertible : forall (E : cipher) (k b : bytes), ip_wf b ->
  (forall v, ip_wf (pfx_encrypt_bytes E k v b))
  /\ pfx_decrypt_bytes E k false (pfx_encrypt_bytes E k false b) = b
  /\ (is_mapped b = true -> is_mapped (pfx_encrypt_bytes E k true b) = true
                            /\ pfx_decrypt_bytes E k true (pfx_encrypt_bytes E k true b) = b).
Proof.
  intros E k b H. split; [intros v; apply pfx_keeps_wf; exact H|]. split; [apply pfx_inverse6; exact H|].
  intros Hm. split; [apply pfx_keeps_mapped; assumption | apply pfx_inverse4; assumption].
Qed.
Print Assumptions C23_pfx_invertible.

(* so for mode "pfx" the round trip rests on no hypothesis about the cipher at all, and for "aes128" on the block
   cipher's inverse only *)
Theorem C23_ip_roundtrip_pfx : forall (E : cipher) (dE dD : bytes -> bytes -> bytes),
  (forall k b, ip_wf b -> ip_wf (dE k b)) -> (forall k b, ip_wf b -> dD k (dE k b) = b) ->
  forall (a : ipaddr) (s key mode : bytes),
  wf_addr a -> parse_ip s = Some a -> key_ok key mode -> known_ip_class (pfx_ipprims E dE dD) a key mode = false ->
  exists c, encrypt_ip (pfx_ipprims E dE dD) s key mode = IpOk c
            /\ decrypt_ip (pfx_ipprims E dE dD) c key mode = IpOk (ip_text a).
Proof. exact ip_roundtrip_pfx. Qed.
Print Assumptions C23_ip_roundtrip_pfx.

(* every well-formed address has a text that parses to it (so the premise parse_ip s = Some a is not vacuous) *)
Theorem C23_ip_text_parses : forall a : ipaddr, wf_addr a -> parse_ip (ip_text a) = Some a.
Proof. exact parse_ip_text. Qed.
Print Assumptions C23_ip_text_parses.

(* ::ffff:1.2.3.4 comes back as 1.2.3.4 (any permutation: bytes_to_ip folds the decrypted bytes to IPv4) *)
Theorem C23_ip_mapped_refuted :
  exists a c d, wf_addr a
    /\ encrypt_ip id_ipprims (ip_text a) key16 mode_aes128 = IpOk c
    /\ decrypt_ip id_ipprims c key16 mode_aes128 = IpOk d /\ d <> ip_text a.
Proof.
  exists (V6 [0; 0; 0; 0; 0; 65535; 258; 772]%Z), (ascii_bytes "1.2.3.4"), (ascii_bytes "1.2.3.4").
  split; [split; [reflexivity | repeat constructor; discriminate]|].
  split; [vm_compute; reflexivity|]. split; [vm_compute; reflexivity|]. vm_compute. discriminate.
Qed.
Print Assumptions C23_ip_mapped_refuted.

(* an ordinary IPv6 address whose pfx encryption is IPv4-mapped is returned as IPv4 and then decrypted in
   32-bit mode: with a permutation that sends c2e8:..:dba4 to ::ffff:1.2.3.4 the result is 1.2.3.4.
   (On the implementation: key "thirty-two bytes key for pfx use" does exactly this, see notes/C23.md.) *)
Theorem C23_ip_pfx_collision_refuted :
  exists a c d, wf_addr a /\ is_mapped (ip_to_bytes a) = false
    /\ encrypt_ip swap_ipprims (ip_text a) key32 mode_pfx = IpOk c
    /\ decrypt_ip swap_ipprims c key32 mode_pfx = IpOk d /\ d <> ip_text a.
Proof.
  exists (V6 [49896; 49171; 36096; 50282; 44107; 27141; 22725; 56228]%Z), (ascii_bytes "1.2.3.4"), (ascii_bytes "1.2.3.4").
  split; [split; [reflexivity | repeat constructor; discriminate]|].
  split; [vm_compute; reflexivity|].
  split; [vm_compute; reflexivity|]. split; [vm_compute; reflexivity|]. vm_compute. discriminate.
Qed.
Print Assumptions C23_ip_pfx_collision_refuted.

(* a pfx key whose two 16-byte halves are equal is refused with a key error (repaired by fb618e6; it used to panic),
   so `key_ok` keeps its "halves differ" clause: such a key is not of a form the mode accepts *)
Theorem C23_ip_pfx_equal_halves_rejected : forall (Q : ipprims) (enc : bool) (ip key : bytes),
  parse_ip ip <> None -> length key = 32%nat -> firstn 16 key = skipn 16 key ->
  ip_crypt enc Q ip key mode_pfx = IpErrKey.
Proof.
  intros Q enc ip key Hp Hl Hh. unfold ip_crypt. destruct (parse_ip ip) as [a|]; [|congruence].
  rewrite Hl, Hh, !bytes_eqb_refl. reflexivity.
Qed.
Print Assumptions C23_ip_pfx_equal_halves_rejected.

(* Two of the six hypotheses of C23_ip_roundtrip (pfx keeps addresses well-formed; pfx decryption inverts
   encryption on IPv6) are shown for `swap_ipprims`, the permutation of the witnesses; the other four (for the
   deterministic mode, and for pfx on IPv4) are not exhibited here.  Under `id_ipprims` ordinary addresses are
   outside the known classes, and the two sample keys are accepted by their modes. *)
Example C23_ip_hypotheses_satisfiable :
  (forall k v b, ip_wf b -> ip_wf (pfxE swap_ipprims k v b))
  /\ (forall k b, pfxD swap_ipprims k false (pfxE swap_ipprims k false b) = b)
  /\ known_ip_class id_ipprims (V4 [192; 168; 1; 1]%Z) key16 mode_aes128 = false
  /\ known_ip_class id_ipprims (V6 [8193; 3512; 0; 0; 0; 0; 0; 1]%Z) key32 mode_pfx = false
  /\ key_ok key16 mode_aes128 /\ key_ok key32 mode_pfx.
Proof.
  split; [exact swap_pfx_wf|]. split; [exact swap_pfx_inv|]. exact ip_roundtrip_applies.
Qed.
