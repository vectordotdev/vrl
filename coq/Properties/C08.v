(* C08 — error coalescing and infallible assignment follow their definitions.
   C08_coalesce and C08_assign_infallible repeat the clause of Model/Eval.eval for `??` and for `ok, err =`:
   they hold by computation, and say something about vrl only through the correspondence check that runs
   the model against the implementation.  The corollaries below them are the statements of the property. *)
From Coq Require Import List ZArith String.
From VRL Require Import Base.Value Base.Lit Model.Expr Model.Eval Model.EvalInst Proofs.EvalProofs.
Import ListNotations.
Local Open Scope string_scope.
Local Open Scope list_scope.
Local Open Scope Z_scope.

(* a ?? b: a's value when a succeeds — b is not evaluated (the state is exactly a's final state);
   b's evaluation (from a's final state) when a fails; return/abort are not failures to recover *)
Theorem C08_coalesce :
  forall F binop a b s,
  eval F binop (EOp OErr a b) s =
  match eval F binop a s with
  | (inl v, s') => (inl v, s')
  | (inr Error, s') => eval F binop b s'
  | (inr ctl, s') => (inr ctl, s')
  end.
Proof. exact eval_err. Qed.
Print Assumptions C08_coalesce.

Theorem C08_coalesce_success :
  forall F binop a b s v s', eval F binop a s = (inl v, s') -> eval F binop (EOp OErr a b) s = (inl v, s').
Proof. intros F binop a b s v s' H. rewrite eval_err, H. reflexivity. Qed.
Print Assumptions C08_coalesce_success.

Theorem C08_coalesce_failure :
  forall F binop a b s s', eval F binop a s = (inr Error, s') -> eval F binop (EOp OErr a b) s = eval F binop b s'.
Proof. intros F binop a b s s' H. rewrite eval_err, H. reflexivity. Qed.
Print Assumptions C08_coalesce_failure.

(* ok, err = e: (ok := value, err := null) resp. (ok := default, err := message); the expression
   itself evaluates to the value resp. the message *)
Theorem C08_assign_infallible :
  forall F binop ok er e d s,
  eval F binop (EAssignInf ok er e d) s =
  match eval F binop e s with
  | (inl v, s') => (inl v, target_insert (target_insert s' ok v) er VNull)
  | (inr Error, s') => (inl ERRMSG, target_insert (target_insert s' ok d) er ERRMSG)
  | (inr ctl, s') => (inr ctl, s')
  end.
Proof. exact eval_assign_inf. Qed.
Print Assumptions C08_assign_infallible.

Example C08_example :
  let s := st0 [] (VObj [(hx "61", VBytes (hx "78"))]) (VObj []) in
  run_core
    [EAssignInf (TVar (hx "6f") []) (TVar (hx "65") []) (ECall (nm "int") [EQExt PEvent [SField (hx "61")]]) (VInt 0);
     EAssign (TVar (hx "72") [])
       (EOp OErr (ECall (nm "string") [EQExt PEvent [SField (hx "61")]])
                 (EAssign (TExt PEvent [SField (hx "62")]) (ELit (VInt 1))))] s
  = (Success (VBytes (hx "78")),
     [(hx "72", VBytes (hx "78")); (hx "65", ERRMSG); (hx "6f", VInt 0)], VObj [(hx "61", VBytes (hx "78"))], VObj []).
Proof. vm_compute. reflexivity. Qed.
