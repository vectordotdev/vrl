(* C06 — `return` always ends the program (or the closure iteration) with its value.
   Model: Model/Eval.v (Expression::resolve of every expression kind, closure Runner, Runtime::resolve).
   All statements hold for every function semantics F and operator semantics binop. *)
From Coq Require Import List ZArith String.
From VRL Require Import Base.Value Base.Lit Model.Expr Model.Eval Model.EvalInst Proofs.EvalProofs.
Import ListNotations.
Local Open Scope string_scope.
Local Open Scope list_scope.
Local Open Scope Z_scope.

(* A `return e` at the hole of ANY evaluation context (error coalescing on either side, infallible
   assignment, function arguments, arrays, objects, conditions, blocks, operators, queries, closure
   arguments — ctx in Proofs/EvalProofs.v) whose evaluation reaches the hole in state s1, in a program
   whose earlier root expressions succeeded, ends the program successfully with e's value; the final
   state is exactly the state after evaluating e: no later expression runs. *)
Theorem C06_return_ends_program :
  forall F binop (pre : list expr) (C : ctx) (post : list expr) (e : expr) (s s0 s1 : state) (v : value) (s2 : state),
  root_ok s -> seq F binop pre (rooted s) = Some s0 -> reach F binop C s0 = Some s1 -> eval F binop e s1 = (inl v, s2) ->
  run F binop (pre ++ plug C (EReturn e) :: post) s = (Success v, s2).
Proof.
  intros F binop pre C post e s s0 s1 v s2 Hroot Hp Hr He.
  exact (run_ctl F binop pre C post (EReturn e) s s0 s1 (Return v) s2 Hroot Hp Hr (eval_return F binop e s1 v s2 He) eq_refl).
Qed.
Print Assumptions C06_return_ends_program.

(* the expression-level fact behind it: the Return outcome crosses every context unchanged *)
Theorem C06_return_crosses_every_context :
  forall F binop (C : ctx) (e : expr) (s s1 : state) (v : value) (s2 : state),
  reach F binop C s = Some s1 -> eval F binop e s1 = (inl v, s2) ->
  eval F binop (plug C (EReturn e)) s = (inr (Return v), s2).
Proof.
  intros F binop C e s s1 v s2 Hr He.
  exact (ctl_propagates F binop C (EReturn e) s s1 (Return v) s2 Hr (eval_return F binop e s1 v s2 He) eq_refl).
Qed.
Print Assumptions C06_return_crosses_every_context.

(* inside a closure body it ends only the current iteration, e's value being the iteration's value;
   run1 is the runner of map_keys/map_values, run2 the runner of for_each/filter — the same two
   runners serve objects and arrays, so the behaviour is identical for every closure-taking function
   and both collection kinds *)
Theorem C06_return_ends_iteration_one_param :
  forall F binop pre C post e p a s old s1 s1' s2 v s3,
  bind_param s p a = (old, s1) ->
  seq F binop pre s1 = Some s1' -> reach F binop C s1' = Some s2 -> eval F binop e s2 = (inl v, s3) ->
  run1 (blk F binop (pre ++ plug C (EReturn e) :: post)) p a s = (inl v, cleanup_param s3 p old).
Proof.
  intros F binop pre C post e p a s old s1 s1' s2 v s3 Hb Hp Hr He.
  unfold run1. rewrite Hb, (body_return F binop pre C post e s1 s1' s2 v s3 Hp Hr He). reflexivity.
Qed.
Print Assumptions C06_return_ends_iteration_one_param.

Theorem C06_return_ends_iteration_two_params :
  forall F binop pre C post e p0 p1 a b s old0 sa old1 s1 s1' s2 v s3,
  bind_param s p0 a = (old0, sa) -> bind_param sa p1 b = (old1, s1) ->
  seq F binop pre s1 = Some s1' -> reach F binop C s1' = Some s2 -> eval F binop e s2 = (inl v, s3) ->
  run2 (blk F binop (pre ++ plug C (EReturn e) :: post)) p0 p1 a b s =
  (inl v, cleanup_param (cleanup_param s3 p0 old0) p1 old1).
Proof.
  intros F binop pre C post e p0 p1 a b s old0 sa old1 s1 s1' s2 v s3 Hb0 Hb1 Hp Hr He.
  unfold run2. rewrite Hb0, Hb1, (body_return F binop pre C post e s1 s1' s2 v s3 Hp Hr He). reflexivity.
Qed.
Print Assumptions C06_return_ends_iteration_two_params.

(* …and a return raised in a closure body never leaves the closure-taking call *)
Theorem C06_return_never_escapes_closure_call :
  forall (body : state -> res * state) ps cf v s w,
  fst (run_closure body ps cf v s) <> inr (Return w).
Proof.
  intros body ps cf v s w H. pose proof (closure_call_no_return body ps cf v s) as N.
  rewrite H in N. exact N.
Qed.
Print Assumptions C06_return_never_escapes_closure_call.

(* non-vacuity: a depth-4 context with side effects before and after the hole *)
Example C06_example :
  let C := CBlock [EAssign (TExt PEvent [SField (hx "70")]) (ELit (VInt 1))]
             (CErrL (CCall (nm "int") [] (CArr [ELit (VInt 0)] (CAssignInf (TVar (hx "78") []) TNoop CHole (VInt 0))
                       [EAssign (TExt PEvent [SField (hx "71")]) (ELit (VInt 2))]) []) (ELit (VInt 3)))
             [EAssign (TExt PEvent [SField (hx "72")]) (ELit (VInt 4))] in
  let s := st0 [] (VObj []) (VObj []) in
  reach F_inst binop_inst C s <> None /\
  run_core [plug C (EReturn (ELit (VInt 9)))] s =
    (Success (VInt 9), [], VObj [(hx "70", VInt 1)], VObj []).
Proof. vm_compute. split; [discriminate|reflexivity]. Qed.
