(* C14 — evaluation is deterministic and thread-safe.
   Gallina functions are deterministic, so "the model gives equal results on equal inputs" is not a
   theorem worth stating.  What is stated: a run is a function of the program, the initial state
   (event, metadata, variables, fault schedule) and the semantics of the functions the program actually
   calls - so the only source of nondeterminism is a called function that is itself
   nondeterministic (now, random_*, uuid_*, get_hostname, get_env_var, network functions).
   Whether the Rust shares mutable state across threads cannot be exhibited by a Gallina model; that
   half is judged on the implementation by the check (compile twice; sequential vs cleared runtime vs
   N threads sharing one Program). *)
From Coq Require Import List ZArith String.
From VRL Require Import Base.Value Base.Lit Model.Expr Model.Eval Model.EvalInst Model.Info Proofs.ExtProofs.
Import ListNotations.
Local Open Scope string_scope.
Local Open Scope list_scope.
Local Open Scope Z_scope.

Theorem C14_run_determined_by_called_functions :
  forall F1 F2 binop (es : list expr),
  (forall f, In f (fnames_l es) -> forall args, F1 f args = F2 f args) ->
  forall s, run F1 binop es s = run F2 binop es s.
Proof. intros F1 F2 binop es H s. apply run_ext. exact H. Qed.
Print Assumptions C14_run_determined_by_called_functions.

(* Runtime::clear resets the variable store, which is everything a Runtime keeps between runs:
   a run on a cleared runtime is a run on a fresh one, whatever ran before. *)
Definition runtime_clear (s : state) (e m : value) (fs : list bool) : state := mkState [] e m [] fs.

Theorem C14_cleared_runtime_is_fresh :
  forall F binop es (history : state) e m fs,
  run F binop es (runtime_clear history e m fs) = run F binop es (mkState [] e m [] fs).
Proof. reflexivity. Qed.
Print Assumptions C14_cleared_runtime_is_fresh.

Example C14_example :
  let prog := [EAssign (TVar (hx "78") []) (EQExt PEvent [SField (hx "61")]); EVar (hx "78")] in
  run_core prog (st0 [] (VObj [(hx "61", VInt 3)]) (VObj [])) =
    (Success (VInt 3), [(hx "78", VInt 3)], VObj [(hx "61", VInt 3)], VObj []).
Proof. vm_compute. reflexivity. Qed.
