(* C29 — Numeric functions return mathematically correct results.

   "For finite inputs, round/ceil/floor with any precision return a finite value within 10^-precision of the input
    (ceil never below, floor never above); abs returns the magnitude (integers wrap only at the minimum integer); mod
    follows truncated-remainder sign rules; to_int/to_float/to_string/parse_int/parse_float convert consistently with
    each other on their common domain."

   The theorems are about the model Model/NumFns.v (+ Model/Arith.v, Model/IntText.v), tied to the Rust by the
   correspondence run of every check.  The rounding clause is FALSE on the pinned code outside precision 0, in four
   regimes (C29_round_*_refuted, each replayed on the implementation and recorded in known_findings/C29.json); what is
   proved about it is the exact behaviour at precision 0 and the exact (sign, mantissa, exponent) semantics of
   f64::round / ceil / floor.  abs wraps at i64::MIN (C29_abs_min_wraps; a panic before /repo b0e107f).

   Full statement of the rounding clause, NOT provable (refuted below):
     forall pow10 k x p, pow10_faithful p (pow10 p) = true -> f_is_finite x = true ->
       exists y, round_fn pow10 k (VFloat x) (Some (VInt p)) = ROk (VFloat y) /\ round_law k x y p = true. *)
From Coq Require Import List NArith ZArith Bool String Lia.
From Coq Require Import Floats.SpecFloat.
From VRL Require Import Base.Bytes Base.Value Base.Lit Model.ConvRes Model.Arith Model.IntText Model.NumFns.
From Coq Require Import Reals.
From Flocq Require Import Core.Core IEEE754.BinarySingleNaN.
From VRL Require Import Proofs.ArithProofs Proofs.NumFnsProofs Proofs.NumFnsFloatProofs Proofs.NumFnsRealProofs Proofs.NumFnsTextProofs.
Import ListNotations.
Local Open Scope Z_scope.

(* EVERY i64: abs returns wrap64 |z|, an i64; that is |z| itself except at the minimum integer, which wraps to itself
   ("integers wrap only at the minimum integer") *)
Theorem C29_abs : forall z : Z, ConvRes.in_i64 z = true ->
  abs_fn (VInt z) = ROk (VInt (wrap64 (Z.abs z)))
  /\ ConvRes.in_i64 (wrap64 (Z.abs z)) = true
  /\ (z <> i64_min -> wrap64 (Z.abs z) = Z.abs z /\ 0 <= Z.abs z)
  /\ (z = i64_min -> wrap64 (Z.abs z) = i64_min).
Proof.
  intros z Hz. apply in_i64_arith in Hz. split; [exact (abs_int z)|]. split; [apply in_i64_arith, wrap64_range|]. split.
  - intros Hne. split; [apply wrap64_id; unfold Arith.in_i64, two63, i64_min in *|]; lia.
  - intros ->. reflexivity.
Qed.
Print Assumptions C29_abs.

(* floats: the sign is cleared and nothing else changes (zeros and infinities included) *)
Theorem C29_abs_float : forall f : spec_float, f_is_nan f = false ->
  abs_fn (VFloat f) = ROk (VFloat (SFabs f))
  /\ match f, SFabs f with
     | S754_finite _ m e, S754_finite s' m' e' => s' = false /\ m' = m /\ e' = e
     | S754_zero _, S754_zero s' => s' = false
     | S754_infinity _, S754_infinity s' => s' = false
     | _, _ => False
     end.
Proof. destruct f; cbn; intros H; try discriminate; auto. Qed.
Print Assumptions C29_abs_float.

(* FIXED finding C29-abs-min (/repo b0e107f, i.wrapping_abs()): the former witness -- abs(i64::MIN) panicked with
   "attempt to negate with overflow" -- now wraps to the minimum integer, as the property asks *)
Theorem C29_abs_min_wraps : abs_fn (VInt i64_min) = ROk (VInt i64_min) /\ wrapping_abs i64_min = i64_min.
Proof. split; [exact abs_int_min | reflexivity]. Qed.
Print Assumptions C29_abs_min_wraps.

(* integers: r = mod(a, b) satisfies a = b * trunc(a / b) + r, |r| < |b|, r is zero or has the sign of a; it never
   leaves the i64 range (MIN mod -1 = 0 included); a zero divisor is an error *)
Theorem C29_mod_sign : forall a b : Z, b <> 0 ->
  mod_fn (VInt a) (VInt b) = ROk (VInt (Z.rem a b))
  /\ a = b * Z.quot a b + Z.rem a b /\ Z.abs (Z.rem a b) < Z.abs b /\ 0 <= Z.rem a b * a
  /\ (Arith.in_i64 a -> Arith.in_i64 (Z.rem a b)).
Proof.
  intros a b Hb. split; [|apply rem_truncated, Hb]. unfold mod_fn. rewrite try_rem_int by exact Hb. reflexivity.
Qed.
Print Assumptions C29_mod_sign.

Theorem C29_mod_zero : forall x y : value, divisor_is_zero y = true -> mod_fn x y = RErr.
Proof. intros x y H. unfold mod_fn. rewrite (proj2 (rem_zero_iff x y) H). reflexivity. Qed.
Print Assumptions C29_mod_zero.

(* x = M / D with M = +-m, D = 2^(-e), e < 0 (a finite binary64 that is not trivially an integer).  The result is a
   canonical binary64 whose exact value is the integer n with
     floor: n <= x < n + 1      ceil: n - 1 < x <= n      round: |x - n| <= 1/2, ties away from zero,
   every inequality multiplied by D.  Closed, integer arithmetic only. *)
Theorem C29_rint_exact : forall (k : rkind) (s : bool) (m : positive) (e : Z), e < 0 -> Zpos m < 2 ^ 53 ->
  exists n, f_int_value (f_rint k (S754_finite s m e)) = Some n
    /\ valid_binary 53 1024 (f_rint k (S754_finite s m e)) = true
    /\ let M := cond_Zopp s (Zpos m) in
       let D := 2 ^ (- e) in
       match k with
       | KFloor => n * D <= M < (n + 1) * D
       | KCeil => (n - 1) * D < M <= n * D
       | KRound => 2 * Z.abs (M - n * D) <= D /\ (2 * Z.abs (M - n * D) = D -> Z.abs M < Z.abs (n * D))
       end.
Proof. exact f_rint_spec. Qed.
Print Assumptions C29_rint_exact.

(* ... a finite value with a non-negative exponent (|x| >= 2^52), a zero or an infinity is returned unchanged, and
   the sign of the argument is always kept (ceil(-0.5) = -0.0) *)
Theorem C29_rint_fixed : forall (k : rkind) (x : spec_float),
  (match x with S754_finite _ _ e => 0 <= e | _ => True end) -> f_rint k x = x.
Proof.
  intros k x H. destruct x as [s|s| |s m e]; try reflexivity. apply f_rint_integer. exact H.
Qed.
Print Assumptions C29_rint_fixed.

Theorem C29_rint_sign : forall (k : rkind) (s : bool) (m : positive) (e : Z), Zpos m < 2 ^ 53 ->
  match f_rint k (S754_finite s m e) with
  | S754_zero s' | S754_finite s' _ _ => s' = s
  | _ => False
  end.
Proof. exact f_rint_sign. Qed.
Print Assumptions C29_rint_sign.

(* For every libm whose powf(10, 0) is 1.0 and every finite binary64 x: the call succeeds with the float f_rint k x
   (no rounding error in x * 1.0 and _ / 1.0), which is finite, and by C29_rint_exact is within 1 = 10^-0 of x
   (strictly for ceil/floor, within 1/2 for round), never below x for ceil, never above x for floor.
   Depends on Flocq's axioms of the classical reals (x * 1.0 = x goes through Bmult_correct). *)
Theorem C29_round_precision0 : forall (pow10 : Z -> spec_float) (k : rkind) (x : spec_float),
  pow10 0 = f_one -> valid_binary 53 1024 x = true -> f_is_finite x = true ->
  round_fn pow10 k (VFloat x) None = ROk (VFloat (f_rint k x))
  /\ round_fn pow10 k (VFloat x) (Some (VInt 0)) = ROk (VFloat (f_rint k x))
  /\ f_is_finite (f_rint k x) = true
  /\ valid_binary 53 1024 (f_rint k x) = true
  /\ match x with
     | S754_finite s m e =>
         if 0 <=? e then f_rint k x = x
         else exists n, f_int_value (f_rint k x) = Some n
                /\ let M := cond_Zopp s (Zpos m) in
                   let D := 2 ^ (- e) in
                   match k with
                   | KFloor => n * D <= M < (n + 1) * D
                   | KCeil => (n - 1) * D < M <= n * D
                   | KRound => 2 * Z.abs (M - n * D) <= D /\ (2 * Z.abs (M - n * D) = D -> Z.abs M < Z.abs (n * D))
                   end
     | _ => f_rint k x = x
     end.
Proof.
  intros pow10 k x H0 Hv Hf.
  assert (Hn : f_is_nan x = false) by (destruct x; try discriminate; reflexivity).
  destruct (round_fn_0 pow10 H0 k x Hv Hn) as [R1 R2].
  split; [exact R1|]. split; [exact R2|]. split; [apply f_rint_finite; assumption|]. split; [apply f_rint_valid, Hv|].
  destruct x as [s|s| |s m e]; try reflexivity. destruct (Z.leb_spec 0 e) as [He|He]; [apply f_rint_integer, He|].
  destruct (f_rint_spec k s m e He (valid_mantissa_bound s m e Hv)) as (n & Hval & _ & Hlaw). exists n. split; assumption.
Qed.
Print Assumptions C29_round_precision0.

(* the hypothesis is satisfiable, and the theorem says something: floor(-2.5) = -3.0, round(2.5) = 3.0, ceil(-0.5) = -0.0 *)
Example C29_round_precision0_inhabited :
  let pow10 := fun p : Z => if p =? 0 then f_one else f64_of_bits 0x4024000000000000 in
  pow10 0 = f_one
  /\ round_fn pow10 KFloor (VFloat (f64_of_bits 0xc004000000000000)) None = ROk (VFloat (f64_of_bits 0xc008000000000000))
  /\ round_fn pow10 KRound (VFloat (f64_of_bits 0x4004000000000000)) None = ROk (VFloat (f64_of_bits 0x4008000000000000))
  /\ round_fn pow10 KCeil (VFloat (f64_of_bits 0xbfe0000000000000)) None = ROk (VFloat (f64_of_bits 0x8000000000000000)).
Proof. vm_compute. repeat split. Qed.

(* round_class (Model/NumFns.v) is the decidable regime of one call given w = 10f64.powf(p):
     RcRange (an intermediate is 0/inf), RcBig (|x w| >= 2^52), RcInexactMult (p < 0 or p > 22), RcProductRounds (x * w rounds),
     RcGood otherwise.
   In RcGood, for every libm whose 10^p is exact there (10^p is a binary64 number for 0 <= p <= 22; the correspondence checks
   the implementation's powf against it), the call returns a finite y with
       |y - x| <= 10^-p + ulp(y)/2,     ceil: x <= y,     floor: y <= x      (real numbers; SF2R = the exact value).
   The half ulp is the representation error of y: floor(-1e-76, precision: 2) = -0.01 and the binary64 nearest to -0.01 is
   2e-19 beyond it.  Partial: the clause is false in the other four regimes (refuted below), so this is the whole truth
   about the model.  Depends on Flocq's axioms of the classical reals. *)
Theorem C29_round_bound_partial : forall (pow10 : Z -> spec_float) (k : rkind) (x : spec_float) (p : Z),
  valid_binary 53 1024 x = true -> f_is_finite x = true ->
  valid_binary 53 1024 (pow10 p) = true -> SF2R radix2 (pow10 p) = IZR (10 ^ p) ->
  round_class k x p (pow10 p) = RcGood ->
  exists y, round_fn pow10 k (VFloat x) (Some (VInt p)) = ROk (VFloat y)
    /\ f_is_finite y = true
    /\ (Rabs (SF2R radix2 y - SF2R radix2 x) <= / IZR (10 ^ p) + / 2 * ulp radix2 (SpecFloat.fexp 53 1024) (SF2R radix2 y))%R
    /\ (k = KCeil -> (SF2R radix2 x <= SF2R radix2 y)%R)
    /\ (k = KFloor -> (SF2R radix2 y <= SF2R radix2 x)%R).
Proof.
  intros pow10 k x p Hvx _ Hvw HRw Hc. rewrite <- HRw. apply round_fn_good_R; try assumption.
  rewrite HRw. apply IZR_lt, Z.pow_pos_nonneg; [lia | apply (round_class_good k x p _ Hc)].
Qed.
Print Assumptions C29_round_bound_partial.

(* hypotheses satisfiable: 10.0 = 10^1 and round(2.5, precision: 1) is in the good regime *)
Example C29_round_bound_partial_inhabited :
  let pow10 := fun _ : Z => S754_finite false 5629499534213120 (-49) in
  let x := S754_finite false 5629499534213120 (-51) in
  valid_binary 53 1024 x = true /\ f_is_finite x = true /\ valid_binary 53 1024 (pow10 1) = true
  /\ SF2R radix2 (pow10 1) = IZR (10 ^ 1) /\ round_class KRound x 1 (pow10 1) = RcGood.
Proof. cbv zeta. repeat split; try reflexivity. apply ten_R. Qed.

(* KNOWN FINDINGS: the rounding clause fails for precision <> 0, in four regimes *)

(* C29-round-range: round(1.5e300, precision: 400) = 0.0 (10^400 = inf, inf / inf = NaN, from_f64_or_zero) *)
Theorem C29_round_range_refuted : forall pow10 : Z -> spec_float, pow10 400 = S754_infinity false ->
  exists x y, valid_binary 53 1024 x = true /\ f_is_finite x = true
    /\ round_fn pow10 KRound (VFloat x) (Some (VInt 400)) = ROk (VFloat y)
    /\ round_class KRound x 400 (pow10 400) = RcRange
    /\ round_law KRound x y 400 = false.
Proof.
  intros pow10 H. exists (f64_of_bits 0x7e41eb2d66005835), (S754_zero false).
  unfold round_fn, round_to_precision. rewrite H. vm_compute. repeat split.
Qed.
Print Assumptions C29_round_range_refuted.

(* C29-round-big-product: floor(9007199254740990.0, precision: 8) = 9007199254740991.0 > x  (10^8 is exact; the product
   9.00719925474099e23 is rounded, floor is the identity there, the quotient is rounded again) *)
Theorem C29_round_big_refuted : forall pow10 : Z -> spec_float, pow10 8 = f64_of_bits 0x4197d78400000000 ->
  exists x y, valid_binary 53 1024 x = true /\ f_is_finite x = true
    /\ round_fn pow10 KFloor (VFloat x) (Some (VInt 8)) = ROk (VFloat y)
    /\ round_class KFloor x 8 (pow10 8) = RcBig
    /\ f_leq y x = false /\ round_law KFloor x y 8 = false.
Proof.
  intros pow10 H. exists (f64_of_bits 0x433ffffffffffffe), (f64_of_bits 0x433fffffffffffff).
  unfold round_fn, round_to_precision. rewrite H. vm_compute. repeat split.
Qed.
Print Assumptions C29_round_big_refuted.

(* C29-round-inexact-multiplier: floor(9007199254740989.0, precision: -1) = 9007199254740990.0 > x  (0.1 is not a binary64
   number; its rounding error times 9e15 is 0.05) *)
Theorem C29_round_inexact_mult_refuted : forall pow10 : Z -> spec_float, pow10 (-1) = f64_of_bits 0x3fb999999999999a ->
  exists x y, valid_binary 53 1024 x = true /\ f_is_finite x = true
    /\ round_fn pow10 KFloor (VFloat x) (Some (VInt (-1))) = ROk (VFloat y)
    /\ round_class KFloor x (-1) (pow10 (-1)) = RcInexactMult
    /\ f_leq y x = false /\ round_law KFloor x y (-1) = false.
Proof.
  intros pow10 H. exists (f64_of_bits 0x433ffffffffffffd), (f64_of_bits 0x433ffffffffffffe).
  unfold round_fn, round_to_precision. rewrite H. vm_compute. repeat split.
Qed.
Print Assumptions C29_round_inexact_mult_refuted.

(* C29-round-product-rounding: floor(0.8999999999999999, precision: 1) = 0.9 > x and
   ceil(1.7000000000000002, precision: 1) = 1.7 < x  (10 is exact; x * 10 rounds to the integer 9 resp. 17) *)
Theorem C29_round_product_refuted : forall pow10 : Z -> spec_float, pow10 1 = f64_of_bits 0x4024000000000000 ->
  (exists x y, valid_binary 53 1024 x = true /\ f_is_finite x = true
     /\ round_fn pow10 KFloor (VFloat x) (Some (VInt 1)) = ROk (VFloat y)
     /\ round_class KFloor x 1 (pow10 1) = RcProductRounds
     /\ f_leq y x = false /\ round_law KFloor x y 1 = false)
  /\ (exists x y, valid_binary 53 1024 x = true /\ f_is_finite x = true
     /\ round_fn pow10 KCeil (VFloat x) (Some (VInt 1)) = ROk (VFloat y)
     /\ round_class KCeil x 1 (pow10 1) = RcProductRounds
     /\ f_leq x y = false /\ round_law KCeil x y 1 = false).
Proof.
  intros pow10 H. split.
  - exists (f64_of_bits 0x3feccccccccccccc), (f64_of_bits 0x3feccccccccccccd).
    unfold round_fn, round_to_precision. rewrite H. vm_compute. repeat split.
  - exists (f64_of_bits 0x3ffb333333333334), (f64_of_bits 0x3ffb333333333333).
    unfold round_fn, round_to_precision. rewrite H. vm_compute. repeat split.
Qed.
Print Assumptions C29_round_product_refuted.

(* integers are returned unchanged by round / ceil / floor, whatever the (integer) precision *)
Theorem C29_round_int : forall (pow10 : Z -> spec_float) (k : rkind) (z p : Z),
  round_fn pow10 k (VInt z) (Some (VInt p)) = ROk (VInt z) /\ round_fn pow10 k (VInt z) None = ROk (VInt z).
Proof. intros. split; reflexivity. Qed.
Print Assumptions C29_round_int.

(* `f as i64` (to_int on a float): always an i64; inside the range it truncates towards zero: with x = M / D,
   |n| <= |x| < |n| + 1 and n has the sign of x *)
Theorem C29_to_int_trunc : forall (s : bool) (m : positive) (e : Z),
  let M := cond_Zopp s (Zpos m * (if 0 <=? e then 2 ^ e else 1)) in
  let D := if 0 <=? e then 1 else 2 ^ (- e) in
  let n := f_to_i64 (S754_finite s m e) in
  to_int (VFloat (S754_finite s m e)) = ROk (VInt n) /\ ConvRes.in_i64 n = true
  /\ (Z.abs M < 2 ^ 63 * D -> Z.abs n * D <= Z.abs M < (Z.abs n + 1) * D /\ 0 <= n * M).
Proof.
  intros s m e. cbv zeta. split; [reflexivity|]. split; [apply f_to_i64_range|]. apply f_to_i64_trunc.
Qed.
Print Assumptions C29_to_int_trunc.

(* integer <-> text and integer <-> float: for EVERY i64 z (i64::MIN included) to_string succeeds and both integer
   parsers read the text back; up to 2^53 the float conversion is exact *)
Theorem C29_conv_consistent : forall (fmt_f64 : spec_float -> bytes) (fmt_ts : Z -> bytes) (z : Z),
  ConvRes.in_i64 z = true ->
  (exists s, to_string fmt_f64 fmt_ts (VInt z) = ROk (VBytes s)
             /\ parse_int (VBytes s) None = ROk (VInt z)
             /\ to_int (VBytes s) = ROk (VInt z))
  /\ (Z.abs z <= 2 ^ 53 -> exists f, to_float (VInt z) = ROk (VFloat f) /\ to_int (VFloat f) = ROk (VInt z)).
Proof.
  intros fmt_f64 fmt_ts z Hz. split; [apply int_text_roundtrip; exact Hz | apply to_int_to_float].
Qed.
Print Assumptions C29_conv_consistent.

(* integer -> text -> float: the (correctly rounded) decimal parser reads the digits of any i64 back as `z as f64`, so
   to_float and parse_float on to_string z agree with to_float z, for EVERY i64 (beyond 2^53 both round to nearest even) *)
Theorem C29_conv_int_text_float : forall (fmt_f64 : spec_float -> bytes) (fmt_ts : Z -> bytes) (z : Z),
  ConvRes.in_i64 z = true ->
  exists s, to_string fmt_f64 fmt_ts (VInt z) = ROk (VBytes s)
            /\ to_float (VBytes s) = to_float (VInt z)
            /\ parse_float (VBytes s) = to_float (VInt z).
Proof. exact to_float_int_text. Qed.
Print Assumptions C29_conv_int_text_float.

(* float <-> text: f64's Display is library code (a parameter of to_string).  Whenever the text it produced for f is read
   back as f by the correctly rounded decimal parser of the model (checked on the implementation for every generated
   float by the oracle), parse_float and to_float invert to_string on f. *)
Theorem C29_float_text : forall (fmt_f64 : spec_float -> bytes) (fmt_ts : Z -> bytes) (f : spec_float),
  f_is_nan f = false -> parse_f64 (fmt_f64 f) = Some f ->
  exists s, to_string fmt_f64 fmt_ts (VFloat f) = ROk (VBytes s)
            /\ parse_float (VBytes s) = ROk (VFloat f) /\ to_float (VBytes s) = ROk (VFloat f).
Proof.
  intros fmt_f64 fmt_ts f Hn Hp. exists (fmt_f64 f). split; [reflexivity|].
  unfold parse_float, to_float, bytes_to_float. rewrite Hp, Hn. split; reflexivity.
Qed.
Print Assumptions C29_float_text.

Example C29_float_text_inhabited :
  let f := f64_of_bits 0x4005666666666666 in
  let fmt := fun _ : spec_float => hx "322e363735"%string in     (* "2.675" *)
  f_is_nan f = false /\ parse_f64 (fmt f) = Some f.
Proof. vm_compute. split; reflexivity. Qed.
