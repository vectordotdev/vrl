(* C16 — reported target queries and assignments are complete.
   queries / assigns (Model/Info.v) model Compiler::compile_query / compile_assignment
   (= Program::info().target_queries / target_assignments, compared as sets with the
   implementation on every run); tlog is the log of Target operations the run performs. *)
From Coq Require Import List ZArith String.
From VRL Require Import Base.Value Base.Lit Model.Expr Model.Eval Model.EvalInst Model.Info Proofs.InfoProofs.
Import ListNotations.
Local Open Scope string_scope.
Local Open Scope list_scope.
Local Open Scope Z_scope.

(* Every Target read or removal the run of a program performs is at a reported query path, every
   Target write at a reported assignment path (equal paths, hence covered) - for every function and
   operator semantics, state, and fault schedule.  Removal through del is classed with reads: its
   argument is compiled as a query and ProgramInfo has no separate record of deletions. *)
Theorem C16_operations_reported :
  forall F binop (es : list expr) (s : state),
  exists new, tlog (snd (run F binop es s)) = new ++ tlog s /\
              Forall (logged_ok (queries_l es) (assigns_l es)) new.
Proof. exact run_within. Qed.
Print Assumptions C16_operations_reported.

Theorem C16_expression_operations_reported :
  forall F binop (e : expr) (s : state),
  exists new, tlog (snd (eval F binop e s)) = new ++ tlog s /\
              Forall (logged_ok (queries e) (assigns e)) new.
Proof. exact eval_within. Qed.
Print Assumptions C16_expression_operations_reported.

Example C16_example :
  let prog := [EAssign (TExt PEvent [SField (hx "61")]) (EQExt PEvent [SField (hx "62"); SIndex 0]);
               EIf [EExistsExt PMeta [SField (hx "6d")]] [EDelExt PEvent [SField (hx "63")] true] None] in
  query_paths prog = [(PEvent, [SField (hx "62"); SIndex 0]); (PMeta, [SField (hx "6d")]); (PEvent, [SField (hx "63")])]
  /\ assigns_l prog = [(PEvent, [SField (hx "61")])]
  /\ rev (tlog (snd (run_inst prog (st0 [] (VObj []) (VObj [(hx "6d", VInt 1)]))))) =
      [TGet PEvent [SField (hx "62"); SIndex 0]; TIns PEvent [SField (hx "61")]; TGet PMeta [SField (hx "6d")];
       TRem PEvent [SField (hx "63")] true].
Proof. vm_compute. repeat split; reflexivity. Qed.
