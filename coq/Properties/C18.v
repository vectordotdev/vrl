(* C18 — Value path operations obey get/insert/remove laws.
   Model: Model/ValueCrud.v (src/value/value/crud/*.rs); proofs in Proofs/ValueCrudProofs.v. *)
From Coq Require Import List NArith ZArith Bool String.
From VRL Require Import Base.Bytes Base.Value Base.Lit Model.ValueCrud Proofs.ValueCrudProofs Proofs.ReadOnlyProofs.
Import ListNotations.
Local Open Scope string_scope.
Local Open Scope list_scope.
Local Open Scope Z_scope.

(* after inserting x at the path, reading the path returns x — every value, every path (negative
   indices before the front and coercions included), every x *)
Theorem C18_get_insert : forall (v : value) (p : path) (x : value), get (insert v p x) p = Some x.
Proof. intros v p x. apply get_ins. Qed.
Print Assumptions C18_get_insert.

(* Value::insert returns the previous occupant, which is exactly what get returned *)
Theorem C18_insert_returns_get : forall (v : value) (p : path), insert_prev v p = get v p.
Proof. intros v p. apply ins_prev_get_opt. Qed.
Print Assumptions C18_insert_returns_get.

(* the insertion leaves every stably named disjoint location unchanged (see disjoint_stable in
   Model/ValueCrud.v for the exact side conditions on index segments and container coercion) *)
Theorem C18_insert_frame : forall (v : value) (p q : path) (x : value),
  disjoint_stable (Some v) p q = true -> get (insert v p x) q = get v q.
Proof. exact insert_frame. Qed.
Print Assumptions C18_insert_frame.

(* …in particular unconditionally for field-only paths neither of which is a prefix of the other *)
Theorem C18_insert_frame_fields : forall (v : value) (p q : path) (x : value),
  all_fields p = true -> all_fields q = true ->
  is_prefix p q = false -> is_prefix q p = false ->
  get (insert v p x) q = get v q.
Proof. exact insert_frame_fields. Qed.
Print Assumptions C18_insert_frame_fields.

(* removing at a path returns exactly what reading the path returned before, with and without prune *)
Theorem C18_remove_returns_get : forall (v : value) (p : path) (prune : bool),
  fst (remove v p prune) = get v p.
Proof. exact remove_returns_get. Qed.
Print Assumptions C18_remove_returns_get.

(* reading or removing through a non-container finds nothing and changes nothing *)
Theorem C18_through_scalar : forall (v : value) (p1 : path) (w : value) (s : seg) (p2 : path) (prune : bool),
  get v p1 = Some w -> is_scalar w = true ->
  get v (p1 ++ s :: p2) = None /\ remove v (p1 ++ s :: p2) prune = (None, v).
Proof. exact through_scalar. Qed.
Print Assumptions C18_through_scalar.

(* the frame law for removal (without pruning): field-only locations that neither contain nor are
   contained in the removed path keep their value *)
Theorem C18_remove_frame_fields : forall (v : value) (q P : path),
  sep q P -> get (snd (remove v q false)) P = get v P.
Proof. exact remove_frame. Qed.
Print Assumptions C18_remove_frame_fields.

(* a failed removal (nothing found at the path) leaves the value untouched, with and without pruning *)
Theorem C18_remove_nothing_unchanged : forall (v : value) (p : path) (prune : bool),
  get v p = None -> remove v p prune = (None, v).
Proof. exact remove_none_unchanged. Qed.
Print Assumptions C18_remove_nothing_unchanged.

(* non-vacuity: the hypotheses are met by concrete non-trivial states *)
Example C18_frame_nonvacuous :
  let v := VObj [(hx "61", VArr [VInt 1; VInt 2; VInt 3]); (hx "62", VInt 7)] in
  disjoint_stable (Some v) [SField (hx "61"); SIndex (-5)] [SField (hx "61"); SIndex (-1)] = true
  /\ disjoint_stable (Some v) [SField (hx "61"); SIndex (-5)] [SField (hx "61"); SIndex 0] = false
  /\ get (insert v [SField (hx "61"); SIndex (-5)] VNull) [SField (hx "61"); SIndex 0] <> get v [SField (hx "61"); SIndex 0]
  /\ get v [SField (hx "62")] = Some (VInt 7) /\ is_scalar (VInt 7) = true.
Proof. vm_compute. repeat split; congruence. Qed.
