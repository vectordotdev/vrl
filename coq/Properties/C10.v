(* C10 - Comparisons are consistent; integer equality is exact.
   Model: Model/Arith.v (src/compiler/value/arithmetic.rs eq_lossy, try_gt/ge/lt/le; src/compiler/expression/op.rs
   Op::resolve).  Statements; what is not read off the model directly is proved in Proofs/ArithProofs.v and
   Proofs/ArithFloatProofs.v (the statements about int-to-float conversion).
   `cmp_consistent x y` (Model/Arith.v) says: all six operators answer
   with a boolean, exactly one of <, ==, > is true, != is the negation of ==, <= is (< or ==), >= is (> or ==). *)
From Coq Require Import List NArith ZArith Bool String Lia.
From Coq Require Import Floats.SpecFloat.
From VRL Require Import Base.Bytes Base.Value Base.Lit Model.Arith Proofs.ArithProofs Proofs.ArithFloatProofs.
Import ListNotations.
Local Open Scope string_scope.
Local Open Scope list_scope.
Local Open Scope Z_scope.

(* `!=` is the negation of `==` for every pair of values of any kinds *)
Theorem C10_ne_is_not_eq : forall x y : value,
  exists b : bool, binop OEq x y = Ok (VBool b) /\ binop ONe x y = Ok (VBool (negb b)).
Proof. intros x y. exists (eq_lossy x y). split; reflexivity. Qed.
Print Assumptions C10_ne_is_not_eq.

(* integers: <, >, <=, >= are the exact comparisons of the two 64-bit integers, for ALL pairs (they do not go
   through f64) *)
Theorem C10_int_order : forall a b : Z,
  binop OLt (VInt a) (VInt b) = Ok (VBool (a <? b)) /\ binop OGt (VInt a) (VInt b) = Ok (VBool (b <? a))
  /\ binop OLe (VInt a) (VInt b) = Ok (VBool (a <=? b)) /\ binop OGe (VInt a) (VInt b) = Ok (VBool (b <=? a)).
Proof.
  intros a b. cbn. unfold try_lt, try_gt, try_le, try_ge, try_cmp, z_cmp.
  rewrite Z.gtb_ltb, Z.geb_leb. repeat split; reflexivity.
Qed.
Print Assumptions C10_int_order.

(* equality of two integers is exact 64-bit equality, for ALL pairs (repaired in /repo by 7355ec6; before that
   eq_lossy converted both integers to f64 and this statement was false, finding C10-int-eq-lossy) *)
Theorem C10_int_eq_exact : forall a b : Z, eq_lossy (VInt a) (VInt b) = (a =? b).
Proof. reflexivity. Qed.
Print Assumptions C10_int_eq_exact.

(* ... and the six operators are consistent, for ALL pairs *)
Theorem C10_int_trichotomy : forall a b : Z, cmp_consistent (VInt a) (VInt b).
Proof. intros a b. apply orderable_consistent; reflexivity. Qed.
Print Assumptions C10_int_trichotomy.

(* the witness of the former finding: 2^53 + 1 and 2^53 have the same conversion to f64 (known_int_eq), yet compare
   unequal, `>` and nothing else; the integer still `==` the float 2^53 (mixed equality converts) *)
Theorem C10_int_eq_former_witness :
  let a := 9007199254740993 in let b := 9007199254740992 in
  in_i64 a /\ in_i64 b /\ known_int_eq a b = true
  /\ binop OEq (VInt a) (VInt b) = Ok (VBool false) /\ binop ONe (VInt a) (VInt b) = Ok (VBool true)
  /\ binop OGt (VInt a) (VInt b) = Ok (VBool true) /\ binop OLt (VInt a) (VInt b) = Ok (VBool false)
  /\ binop OEq (VInt a) (VFloat (of_i64 b)) = Ok (VBool true).
Proof. cbv zeta. do 2 (split; [unfold in_i64, two63; lia|]). vm_compute. repeat split; reflexivity. Qed.
Print Assumptions C10_int_eq_former_witness.

(* for integers of magnitude at most 2^53 `as f64` is exact: no two of them have the same conversion, and integer ==
   coincides with == of the converted floats (so integer and mixed equality agree there).  Uses the real-number
   semantics of binary64 (Flocq) and therefore depends on the axioms of Coq's classical reals; see
   Proofs/ArithFloatProofs.v *)
Theorem C10_int_eq_exact_small : forall a b : Z,
  Z.abs a <= 2 ^ 53 -> Z.abs b <= 2 ^ 53 ->
  known_int_eq a b = false /\ eq_lossy (VInt a) (VInt b) = eq_lossy (VFloat (of_i64 a)) (VFloat (of_i64 b)).
Proof.
  intros a b Ha Hb. pose proof (f_eq_small a b Ha Hb) as E. split; [|cbn; symmetry; exact E].
  unfold known_int_eq. rewrite E. destruct (a =? b); reflexivity.
Qed.
Print Assumptions C10_int_eq_exact_small.

(* floats: all pairs of non-NaN floats (a Value never holds NaN), infinities and both zeros included *)
Theorem C10_float_trichotomy : forall f g : spec_float,
  f_is_nan f = false -> f_is_nan g = false -> cmp_consistent (VFloat f) (VFloat g).
Proof. intros f g Hf Hg. apply orderable_consistent; cbn; rewrite ?Hf, ?Hg; reflexivity. Qed.
Print Assumptions C10_float_trichotomy.

(* float `==` holds exactly for identical floats and for the two zeros (so +0 == -0, and then neither < nor >) *)
Theorem C10_float_eq_iff : forall f g : spec_float,
  f_is_nan f = false -> f_is_nan g = false ->
  (eq_lossy (VFloat f) (VFloat g) = true <-> f = g \/ (f_is_zero f = true /\ f_is_zero g = true)).
Proof. intros f g Hf _. apply f_eq_iff, Hf. Qed.
Print Assumptions C10_float_eq_iff.

(* strings: bytewise lexicographic order; == is identity of the byte strings *)
Theorem C10_bytes_trichotomy : forall s t : bytes,
  cmp_consistent (VBytes s) (VBytes t)
  /\ binop OEq (VBytes s) (VBytes t) = Ok (VBool (bytes_eqb s t))
  /\ binop OLt (VBytes s) (VBytes t) = Ok (VBool (bytes_ltb s t))
  /\ binop OGt (VBytes s) (VBytes t) = Ok (VBool (bytes_ltb t s)).
Proof.
  intros s t. split; [apply orderable_consistent; reflexivity|].
  cbn. unfold try_lt, try_gt, try_cmp, b_cmp, bytes_ltb. rewrite (bytes_cmp_antisym s t).
  destruct (bytes_cmp s t); repeat split; reflexivity.
Qed.
Print Assumptions C10_bytes_trichotomy.

(* timestamps: order of the instants *)
Theorem C10_ts_trichotomy : forall s t : Z,
  cmp_consistent (VTs s) (VTs t)
  /\ binop OEq (VTs s) (VTs t) = Ok (VBool (s =? t))
  /\ binop OLt (VTs s) (VTs t) = Ok (VBool (s <? t))
  /\ binop OGt (VTs s) (VTs t) = Ok (VBool (t <? s)).
Proof.
  intros s t. split; [apply orderable_consistent; reflexivity|].
  cbn. unfold try_lt, try_gt, try_cmp, z_cmp. rewrite Z.gtb_ltb. repeat split; reflexivity.
Qed.
Print Assumptions C10_ts_trichotomy.

(* mixed integer/float, both orders: consistent, and == is the float equality on the converted integer *)
Theorem C10_mixed_trichotomy : forall (a : Z) (f : spec_float),
  f_is_nan f = false -> cmp_consistent (VInt a) (VFloat f) /\ cmp_consistent (VFloat f) (VInt a).
Proof.
  intros a f H. split; apply orderable_consistent; cbn; rewrite ?H; reflexivity.
Qed.
Print Assumptions C10_mixed_trichotomy.

Theorem C10_mixed_eq : forall (a : Z) (f : spec_float),
  eq_lossy (VInt a) (VFloat f) = f_eq (of_i64 a) f /\ eq_lossy (VFloat f) (VInt a) = f_eq f (of_i64 a)
  /\ eq_lossy (VInt a) (VFloat f) = eq_lossy (VFloat (of_i64 a)) (VFloat f)
  /\ eq_lossy (VFloat f) (VInt a) = eq_lossy (VFloat f) (VFloat (of_i64 a)).
Proof. repeat split; reflexivity. Qed.
Print Assumptions C10_mixed_eq.

(* equality of anything that is not a number (strings, booleans, null, timestamps, regexes, arrays, objects at any
   depth) is structural equality, the two float zeros being identified; integers nested inside are compared exactly *)
Theorem C10_struct_eq : forall v w : value,
  is_number v = false -> no_nan v = true -> eq_lossy v w = value_eqb (norm_zero v) (norm_zero w).
Proof.
  intros v w Hnum Hn. destruct v; try discriminate; cbn [eq_lossy]; apply value_eq_structural; assumption.
Qed.
Print Assumptions C10_struct_eq.

Theorem C10_struct_eq_plain : forall v w : value,
  is_number v = false -> no_nan v = true -> no_float_zero v = true -> no_float_zero w = true ->
  eq_lossy v w = value_eqb v w.
Proof.
  intros v w H1 H2 H3 H4. rewrite (C10_struct_eq v w H1 H2), (norm_zero_id v H3), (norm_zero_id w H4). reflexivity.
Qed.
Print Assumptions C10_struct_eq_plain.

(* a number is never equal to a non-number; no order exists outside one comparable kind *)
Theorem C10_kinds_apart : forall v w : value,
  (is_number v = true -> is_number w = false -> eq_lossy v w = false /\ eq_lossy w v = false)
  /\ (orderable v w = false -> forall o, try_cmp o v w = Err EType).
Proof. intros v w. split; [apply number_ne_other | intros H o; apply not_orderable; exact H]. Qed.
Print Assumptions C10_kinds_apart.

(* non-vacuity: the hypotheses are met by concrete non-trivial operands, and the known class is not everything *)
Example C10_nonvacuous :
  known_int_eq 9007199254740992 9007199254740991 = false
  /\ known_int_eq 9223372036854775807 (-9223372036854775808) = false
  /\ known_int_eq 9007199254740993 9007199254740992 = true
  /\ known_int_eq 5 5 = false
  /\ f_is_nan (f64_of_bits 0x7ff0000000000000) = false /\ f_is_nan (f64_of_bits 0x8000000000000000) = false
  /\ eq_lossy (VFloat (f64_of_bits 0)) (VFloat (f64_of_bits 0x8000000000000000)) = true
  /\ (let v := VArr [VFloat (f64_of_bits 0); VObj [(hx "61", VInt 9007199254740993)]] in
      let w := VArr [VFloat (f64_of_bits 0x8000000000000000); VObj [(hx "61", VInt 9007199254740993)]] in
      let u := VArr [VFloat (f64_of_bits 0); VObj [(hx "61", VInt 9007199254740992)]] in
      is_number v = false /\ no_nan v = true /\ eq_lossy v w = true /\ value_eqb v w = false /\ eq_lossy v u = false)
  /\ orderable (VBytes (hx "61")) (VInt 1) = false.
Proof. vm_compute. repeat split; reflexivity. Qed.
