(* C12 — compile-time constant knowledge matches runtime values.
   Model: Model/TypeInfo.v (`resolve_constant`, `type_info`, Details.value of every variable) against the
   evaluator Model/Eval.v.  The proofs are in Proofs/TypeConstProofs.v and Proofs/TypeSoundProofs.v. *)
From Coq Require Import List ZArith String.
From VRL Require Import Base.Value Base.Lit Model.Kind Model.Expr Model.Eval Model.EvalInst Model.TypeInfo
  Model.TypeInfoInst Model.TypeWitnesses Proofs.TypeConstProofs Model.KindDomains Model.TypeFragment
  Proofs.TypeSoundProofs.
Import ListNotations.
Local Open Scope string_scope.
Local Open Scope list_scope.
Local Open Scope Z_scope.

(* an expression the compiler resolves to a constant c evaluates to c and changes nothing — every
   expression, every type state, every run-time state whose variables hold the constants the type state
   records for them (consts_ok), every stdlib semantics F and operator semantics binop *)
Theorem C12_const_sound :
  forall (F : fname -> list value -> option value) (binop : opcode -> value -> value -> option value)
         (e : expr) (G : tstate) (s : state) (c : value),
  consts_ok G s -> resolve_constant binop e G = Some c -> eval F binop e s = (inl c, s).
Proof. intros F binop e. exact (const_sound F binop e). Qed.
Print Assumptions C12_const_sound.

(* such an expression has no effect on the type state either *)
Theorem C12_const_expr_no_type_effect :
  forall (binop : opcode -> value -> value -> option value) (T : fname -> list tdef -> list tdef -> tdef)
         (e : expr) (G : tstate) (c : value),
  resolve_constant binop e G = Some c -> forall G', fst (type_info binop T e G') = G'.
Proof. intros binop T e G c Hrc G'. rewrite (const_no_type_effect binop T e G c Hrc G'). reflexivity. Qed.
Print Assumptions C12_const_expr_no_type_effect.

(* the invariant is established where constants enter: after `x = e` with e a constant c, x holds c, the
   type state records exactly c for x, and every other recorded constant still holds *)
Theorem C12_assign_constant_sound :
  forall (F : fname -> list value -> option value) (binop : opcode -> value -> value -> option value)
         (T : fname -> list tdef -> list tdef -> tdef) (x : ident) (e : expr) (G : tstate) (s : state) (c : value),
  consts_ok G s -> resolve_constant binop e G = Some c ->
  eval F binop (EAssign (TVar x []) e) s = (inl c, set_vars s (var_set (vars s) x c))
  /\ (exists t, lvar (locals (fst (type_info binop T (EAssign (TVar x []) e) G))) x = Some (t, Some c))
  /\ consts_ok (fst (type_info binop T (EAssign (TVar x []) e) G)) (set_vars s (var_set (vars s) x c)).
Proof. exact assign_constant_sound. Qed.
Print Assumptions C12_assign_constant_sound.

(* FULL STATEMENT NOT PROVED (C12_invariant_preserved): for every program outside the known classes
   (program_reason = 0), consts_ok is preserved by every evaluation step along type_info.  It is false
   without the exclusion: each theorem below is a program the compiler types as infallible on the
   strength of a recorded constant, and that fails at run time. *)

(* x = {"a": 2}; del(x.a); 10 / x.a — del on a variable path updates neither kind nor constant (DESIGN D7) *)
Theorem C12_del_local_refuted :
  w_fallible w_del_local = false /\ w_reason w_del_local = 125%N /\ fst (w_run w_del_local (VObj [])) = Failed.
Proof. vm_compute. auto. Qed.

(* x = {}; x.b = 5; 10 / x — a path assignment records the assigned constant as the value of the whole variable *)
Theorem C12_path_assign_refuted :
  w_fallible w_path_assign = false /\ w_reason w_path_assign = 126%N /\ fst (w_run w_path_assign (VObj [])) = Failed.
Proof. vm_compute. auto. Qed.

(* x = 5; for_each([1]) -> |k, v| { x = 0; null }; 10 / x — a closure body's effects are dropped *)
Theorem C12_closure_assign_refuted :
  w_fallible w_closure_assign = false /\ w_reason w_closure_assign = 122%N
  /\ fst (w_run w_closure_assign (VObj [])) = Failed.
Proof. vm_compute. auto. Qed.

(* x = 5; y = (1 / { x = 0; 2 }) ?? 0; 10 / x — the divisor's effects on the type state are dropped *)
Theorem C12_div_effect_refuted :
  w_fallible w_div_effect = false /\ w_reason w_div_effect = 124%N /\ fst (w_run w_div_effect (VObj [])) = Failed.
Proof. vm_compute. auto. Qed.

(* (.a || (x = 5)); 10 / x — a variable first assigned in a right operand that may not run is recorded as assigned *)
Theorem C12_maybe_rhs_var_refuted :
  w_fallible w_maybe_rhs_var = false /\ w_reason w_maybe_rhs_var = 128%N
  /\ fst (w_run w_maybe_rhs_var ev_a_true) = Failed.
Proof. vm_compute. auto. Qed.

(* y = ([int(.a), (x = 5)] ?? 0); 10 / x — ?? types its right side as if the failed left side had run to its end *)
Theorem C12_err_partial_refuted :
  w_fallible w_err_partial = false /\ w_reason w_err_partial = 129%N
  /\ fst (w_run w_err_partial ev_a_true) = Failed.
Proof. vm_compute. auto. Qed.

(* non-vacuity: a state in which a recorded constant is used *)
Example C12_nonvacuous :
  let G := mkTs [(hx "78", (td_of k_integer, Some (VInt 5)))] k_any_object k_any_object in
  let s := st0 [(hx "78", VInt 5)] (VObj []) (VObj []) in
  resolve_constant binop_inst (EOp ODiv (ELit (VInt 10)) (EVar (hx "78"))) G = Some (VFloat (f64_of_bits 0x4000000000000000))
  /\ var_get (vars s) (hx "78") = Some (VInt 5)
  /\ w_reason [EAssign (TVar (hx "78") []) (ELit (VInt 5)); EOp ODiv (ELit (VInt 10)) (EVar (hx "78"))] = 0%N.
Proof. vm_compute. auto. Qed.

(* What is proved of the invariant: it is preserved on the straight-line fragment (Model/TypeFragment.v). *)

(* The invariant C12_const_sound relies on (consts_ok: every constant the type state holds for a
   variable is that variable's run-time value) holds at the end of every straight-line program of the
   fragment of Properties/C01.v — effect-free expressions and their assignments to variables, to paths
   below known variables and to event / metadata paths — provided no assignment below a variable has a
   constant right-hand side (const_stmts_ok; that case is the refuted C12_path_assign_refuted).
   Together with C12_const_sound: any expression the compiler folds after such a program evaluates to
   the folded value. *)
Theorem C12_straightline_consts_partial :
  forall (es : list expr) (ek mk : kind) (event meta : value),
  es <> [] -> stmts_ok binop_inst T_inst es (ts0 ek mk) = true ->
  const_stmts_ok binop_inst T_inst es (ts0 ek mk) = true ->
  member event ek = true -> wf_value event = true -> member meta mk = true -> wf_value meta = true ->
  consts_ok (fst (program_type_info_inst es (ts0 ek mk))) (snd (run_typed es (st0 [] event meta))).
Proof.
  intros es ek mk event meta Hne Hok Hcs He Hwe Hm Hwm.
  destruct (run_sound F_typed binop_inst T_inst binop_inst_cmp es _ _ Hne Hok (conf_init ek mk event meta He Hwe Hm Hwm))
    as (v & s' & Hr & _ & _ & Hk).
  unfold run_typed. rewrite Hr. apply Hk; [exact Hcs|]. intros x t c Hx. discriminate.
Qed.
Print Assumptions C12_straightline_consts_partial.

(* the same for one statement from any conforming state, for every function table *)
Theorem C12_statement_consts_partial :
  forall (F : fname -> list value -> option value) (T : fname -> list tdef -> list tdef -> tdef)
         (e : expr) (G : tstate) (s : state),
  stmt_ok binop_inst T e G = true -> const_stmt_ok binop_inst e G = true -> conf G s -> consts_ok G s ->
  consts_ok (fst (type_info binop_inst T e G)) (snd (eval F binop_inst e s)).
Proof.
  intros F T e G s Hok Hcs Hc Hk.
  destruct (stmt_sound F binop_inst T binop_inst_cmp e G s Hok Hc) as (v & s' & Hev & _ & _ & _ & H).
  rewrite Hev. auto.
Qed.
Print Assumptions C12_statement_consts_partial.
