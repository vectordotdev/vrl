(* C19 — Type abstraction (Kind) is sound for path operations and merging.
   Model: Model/Kind.v (the type, `member` = what a kind means), Model/KindCrud.v (the src/value/kind directory),
   Model/KindDomains.v (the decidable side conditions = complements of the known-finding classes). *)
From Coq Require Import List ZArith Bool String.
From VRL Require Import Base.Value Base.Lit Model.ValueCrud Model.Kind Model.KindCrud Model.KindDomains
  Proofs.KindBasics Proofs.KindMergeProofs Proofs.KindGetProofs Proofs.KindSupersetProofs Proofs.KindInsertProofs
  Proofs.KindRemoveProofs Proofs.KindFuelProofs.
Import ListNotations.
Local Open Scope string_scope.
Local Open Scope list_scope.
Local Open Scope Z_scope.

(* every member of either operand is a member of the union — all values, all kinds for which no step
   of the merge drops an exact unknown in favour of a non-`any` infinite one (union_compat) *)
Theorem C19_union_sound : forall (a b : kind) (v : value),
  union_compat a b = true -> member v a = true \/ member v b = true -> member v (union a b) = true.
Proof. exact union_sound. Qed.
Print Assumptions C19_union_sound.

(* ...for any amount of fuel given to the recursion over the two kinds (so not for lack of fuel) *)
Theorem C19_union_sound_any_fuel : forall (n : nat) (a b : kind) (v : value),
  compat_f n a b = true -> member v a = true \/ member v b = true -> member v (merge_f n false a b) = true.
Proof. exact merge_f_union_sound. Qed.
Print Assumptions C19_union_sound_any_fuel.

(* the fuel `depth a + depth b` that union / merge_keep / is_superset run with always suffices: any larger
   amount gives the same result, so the out-of-fuel answers (`any`, `false`) are never what they return *)
Theorem C19_fuel_adequate : forall (a b : kind) (ow : bool) (n : nat),
  (depth a + depth b <= n)%nat ->
  merge_f n ow a b = merge_keep a b ow /\ superset_f n a b = is_superset a b.
Proof. intros a b ow n H. split; [apply merge_keep_fuel_adequate | apply is_superset_fuel_adequate]; exact H. Qed.
Print Assumptions C19_fuel_adequate.

(* outside union_compat the statement is false of the code: array<timestamp> | array<json> = array<json> *)
Theorem C19_union_exact_vs_json_refuted : exists (a b : kind) (v : value),
  union_compat a b = false /\ member v a = true /\ member v (union a b) = false.
Proof.
  exists (k_array (mkC [] (UExact (Kind (mkP false false false false true false false false) None None)))),
         (k_array coll_json), (VArr [VTs 0]).
  vm_compute. auto.
Qed.

(* reading a path of a member yields a member of the kind's view of that path; nothing is found only
   where that view admits undefined.  get_ok: negative indices only into arrays whose known elements
   are all required (and whose unions are union_compat). *)
Theorem C19_get_sound : forall (v : value) (k : kind) (p : path),
  get_ok k p = true -> member v k = true -> member_opt (get v p) (at_path k p) = true.
Proof. exact get_sound. Qed.
Print Assumptions C19_get_sound.

(* no side condition at all for paths of fields and non-negative indices *)
Theorem C19_get_sound_nonneg : forall (v : value) (k : kind) (p : path),
  nonneg_path p = true -> member v k = true -> member_opt (get v p) (at_path k p) = true.
Proof. intros v k p Hp. apply get_sound, nonneg_get_ok, Hp. Qed.
Print Assumptions C19_get_sound_nonneg.

(* Kind::get (undefined upgraded to null): a missing value reads as null *)
Theorem C19_kget_sound : forall (v : value) (k : kind) (p : path),
  get_ok k p = true -> member v k = true ->
  match get v p with
  | Some w => member w (kget k p)
  | None => p_null (prims_of (kget k p)) || is_never (at_path k p)
  end = true.
Proof. intros v k p Hok Hm. exact (upgrade_sound (get v p) (at_path k p) (get_sound v k p Hok Hm)). Qed.
Print Assumptions C19_kget_sound.

Theorem C19_get_negidx_optional_refuted : exists (v : value) (k : kind) (p : path),
  get_ok k p = false /\ member v k = true /\ member_opt (get v p) (at_path k p) = false.
Proof.
  exists (VArr [VInt 5]),
         (k_array (mkC [(0%nat, Kind (mkP false true false false false false false false) None None);
                        (1%nat, Kind (mkP false false false true false false false true) None None)]
                       (UExact k_undefined))),
         [SIndex (-1)].
  vm_compute. auto.
Qed.

(* a kind that passes the subtype test contains every member of the other — for all `a` without an
   exact unknown whose kind has all ten states *)
Theorem C19_superset_sound : forall (a b : kind) (v : value),
  no_exact_any a = true -> is_superset a b = true -> member v b = true -> member v a = true.
Proof. intros a b v. apply superset_f_sound. Qed.
Print Assumptions C19_superset_sound.

Theorem C19_superset_exact_any_refuted : exists (a b : kind) (v : value),
  no_exact_any a = false /\ is_superset a b = true /\ member v b = true /\ member v a = false.
Proof.
  exists (union (k_array (mkC [] (UExact (Kind p_all (Some (mkC [] (UExact k_undefined))) None))))
                (k_array (mkC [] (UExact (k_object (mkC [] (UExact k_undefined))))))),
         (k_array coll_any), (VArr [VArr [VInt 1]]).
  vm_compute. auto.
Qed.

(* inserting a member of kx at p into a member of k yields a member of the type-level insertion — all
   well-formed values (objects are sorted maps), all kinds and paths in ins_ok (see Model/KindDomains.v) *)
Theorem C19_insert_sound : forall (v : value) (k : kind) (p : path) (x : value) (kx : kind),
  wf_value v = true -> ins_ok false k p = true -> member v k = true -> member x kx = true ->
  member (insert v p x) (kinsert k p kx) = true.
Proof. intros v k p x kx Hwf Hok Hm Hx. apply kinsert_sound; auto using member_upgrade. Qed.
Print Assumptions C19_insert_sound.

(* x = [1]; x[-3] = "a" : the kind puts the holes at the tail and shifts nothing *)
Theorem C19_negidx_insert_refuted : exists (v : value) (k : kind) (p : path) (x : value) (kx : kind),
  ins_ok false k p = false /\ wf_value v = true /\ member v k = true /\ member x kx = true
  /\ insert v p x = VArr [x; VNull; VInt 1]
  /\ member (insert v p x) (kinsert k p kx) = false.
Proof.
  exists (VArr [VInt 1]),
         (k_array (mkC [(0%nat, Kind (mkP false true false false false false false false) None None)] (UExact k_undefined))),
         [SIndex (-3)], (VBytes (hx "61")), (Kind (mkP true false false false false false false false) None None).
  vm_compute. auto 10.
Qed.

(* x = true (typed boolean or {a: integer}); x.b = 2 : the kind keeps `a` required *)
Theorem C19_insert_coerce_required_refuted : exists (v : value) (k : kind) (p : path) (x : value) (kx : kind),
  ins_ok false k p = false /\ wf_value v = true /\ member v k = true /\ member x kx = true
  /\ member (insert v p x) (kinsert k p kx) = false.
Proof.
  exists (VBool true),
         (Kind (mkP false false false true false false false false) None
               (Some (mkC [(hx "61", Kind (mkP false true false false false false false false) None None)] (UExact k_undefined)))),
         [SField (hx "62")], (VInt 2), (Kind (mkP false true false false false false false false) None None).
  vm_compute. auto 10.
Qed.

(* [5] typed [integer, integer-or-undefined]; x[3] = 2 pads index 1 with null, the kind does not *)
Theorem C19_insert_optional_hole_refuted : exists (v : value) (k : kind) (p : path) (x : value) (kx : kind),
  ins_ok false k p = false /\ wf_value v = true /\ member v k = true /\ member x kx = true
  /\ member (insert v p x) (kinsert k p kx) = false.
Proof.
  exists (VArr [VInt 5]),
         (k_array (mkC [(0%nat, Kind (mkP false true false false false false false false) None None);
                        (1%nat, Kind (mkP false true false false false false false true) None None)] (UExact k_undefined))),
         [SIndex 3], (VInt 2), (Kind (mkP false true false false false false false false) None None).
  vm_compute. auto 10.
Qed.

(* removing a path from a member yields a member of the type-level removal, and the type-level removal
   does not reach the `unreachable!` of CompactOptions::new (the one panic the model has: its subtractions are
   on nat and saturate, so no arithmetic overflow is modelled) — all well-formed values, all kinds and paths in remove_ok:
   compaction off or a single segment; an element removal has at most one known element behind it
   (shift_ok); segments before the last one are known (or cannot exist); negative indices only into
   arrays of exactly known length *)
Theorem C19_remove_sound : forall (v : value) (k : kind) (p : path) (compact : bool),
  wf_value v = true -> remove_ok k p compact = true -> member v k = true ->
  snd (kremove k p compact) = false
  /\ member (snd (remove v p compact)) (fst (fst (kremove k p compact))) = true.
Proof. exact remove_sound. Qed.
Print Assumptions C19_remove_sound.

(* del(x[0]) on [1, "a", true]: remove_shift moves only one element *)
Theorem C19_remove_shift_refuted : exists (v : value) (k : kind) (p : path),
  remove_ok k p false = false /\ wf_value v = true /\ member v k = true
  /\ snd (remove v p false) = VArr [VBytes (hx "61"); VBool true]
  /\ member (snd (remove v p false)) (fst (fst (kremove k p false))) = false.
Proof.
  exists (VArr [VInt 1; VBytes (hx "61"); VBool true]),
         (k_array (mkC [(0%nat, Kind (mkP false true false false false false false false) None None);
                        (1%nat, Kind (mkP true false false false false false false false) None None);
                        (2%nat, Kind (mkP false false false true false false false false) None None)] (UExact k_undefined))),
         [SIndex 0].
  vm_compute. auto 10.
Qed.

(* removal inside an element that is not known is computed on a temporary and thrown away *)
Theorem C19_remove_inside_unknown_refuted : exists (v : value) (k : kind) (p : path),
  remove_ok k p false = false /\ wf_value v = true /\ member v k = true
  /\ member (snd (remove v p false)) (fst (fst (kremove k p false))) = false.
Proof.
  exists (VObj [(hx "7a", VObj [(hx "61", VInt 1)])]),
         (k_object (mkC [] (UExact (k_object (mkC [(hx "61", Kind (mkP false true false false false false false false) None None)]
                                                  (UExact k_undefined)))))),
         [SField (hx "7a"); SField (hx "61")].
  vm_compute. auto 10.
Qed.

(* a single-segment removal never reaches the `unreachable!` of CompactOptions::new, whatever the kind, the
   segment and the compaction flag; the model follows /repo 3fccdc6 (`saturating_sub` in the negative-index
   branch), and an overflow of usize arithmetic is not something it can express. That the result is also a sound
   kind is not claimed here: negative indices into arrays of unknown length stay outside remove_ok
   (known finding 10, the elements behind the removed one are not shifted). *)
Theorem C19_remove_single_segment_no_panic : forall (k : kind) (s : seg) (compact : bool),
  snd (kremove k [s] compact) = false.
Proof.
  intros k s compact. unfold kremove. pose proof (remove_inner_single_no_panic k s compact) as H.
  destruct (remove_inner k [s] compact) as [k' co]. cbn [snd] in *. destruct co; congruence.
Qed.
Print Assumptions C19_remove_single_segment_no_panic.

(* `Kind::array({0: boolean} + unknown any).remove([-2])`, the index below the known elements: no panic, and
   every removal from a member is covered *)
Theorem C19_remove_negidx_below_known_fixed :
  let k := k_array (mkC [(0%nat, Kind (mkP false false false true false false false false) None None)] (UInf inf_any)) in
  snd (kremove k [SIndex (-2)] false) = false
  /\ member (snd (remove (VArr [VBool true; VInt 5]) [SIndex (-2)] false)) (fst (fst (kremove k [SIndex (-2)] false))) = true
  /\ member (snd (remove (VArr [VBool true]) [SIndex (-2)] false)) (fst (fst (kremove k [SIndex (-2)] false))) = true.
Proof. vm_compute. auto. Qed.

(* CollisionStrategy::Union is union *)
Theorem C19_merge_union_sound : forall (a b : kind) (v : value),
  union_compat a b = true -> member v a = true \/ member v b = true -> member v (merge a b Union) = true.
Proof. exact union_sound. Qed.
Print Assumptions C19_merge_union_sound.

(* CollisionStrategy::Overwrite against the shallow right-biased merge of two objects: not proved, and
   false in general — the unknown kinds are merged with overwrite although unknown fields' values are
   not merged at all *)
Theorem C19_merge_overwrite_refuted : exists (a b : kind) (va vb : value),
  member va a = true /\ member vb b = true /\ vb = VObj [(hx "78", VObj [])] /\ va = VObj []
  /\ member vb (merge a b Overwrite) = false.
Proof.
  exists (k_object (mkC [] (UExact (k_object (mkC [(hx "61", Kind (mkP false true false false false false false false) None None)]
                                                  (UExact k_undefined)))))),
         (k_object (mkC [] (UExact (k_object (mkC [] (UExact k_undefined)))))),
         (VObj []), (VObj [(hx "78", VObj [])]).
  vm_compute. auto 10.
Qed.

Example C19_domains_nonvacuous :
  let int := Kind (mkP false true false false false false false false) None None in
  let str := Kind (mkP true false false false false false false false) None None in
  let arr := k_array (mkC [(0%nat, int); (1%nat, str)] (UExact k_undefined)) in
  let obj := k_object (mkC [(hx "61", arr)] (UInf inf_json)) in
  let v := VObj [(hx "61", VArr [VInt 1; VBytes (hx "78")]); (hx "7a", VNull)] in
  member v obj = true /\ wf_value v = true
  /\ get_ok obj [SField (hx "61"); SIndex (-1)] = true
  /\ ins_ok false obj [SField (hx "61"); SIndex (-2); SField (hx "62")] = true
  /\ ins_ok false obj [SField (hx "61"); SIndex 4] = true
  /\ ins_ok false obj [SField (hx "7a"); SIndex 2] = true
  /\ union_compat obj (k_object (mkC [(hx "62", int)] (UExact k_undefined))) = true
  /\ union_compat k_json (k_array (mkC [(0%nat, int)] (UExact k_undefined))) = true
  /\ no_exact_any obj = true /\ is_superset (k_object coll_any) obj = true
  /\ remove_ok obj [SField (hx "61"); SIndex (-1)] false = true
  /\ remove_ok obj [SField (hx "7a")] true = true
  /\ remove_ok arr [SIndex 0] true = true.
Proof. vm_compute. repeat split; reflexivity. Qed.
