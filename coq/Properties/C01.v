(* C01 — compiled programs are type-sound (result, event, metadata).
   Model: Model/TypeInfo.v (`type_info` over the kinds of Model/Kind.v) against the evaluator Model/Eval.v. *)
From Coq Require Import List ZArith String.
From VRL Require Import Base.Value Base.Lit Model.Kind Model.Expr Model.Eval Model.EvalInst Model.TypeInfo
  Model.TypeInfoInst Model.TypeWitnesses Model.KindDomains Model.TypeFragment Proofs.TypeSoundProofs.
Import ListNotations.
Local Open Scope string_scope.
Local Open Scope list_scope.
Local Open Scope Z_scope.

(* FULL STATEMENT NOT PROVED (C01_sound): for every program outside the known classes (program_reason = 0)
   and every conforming initial state, a successful run yields a member of the reported result kind and
   leaves event and metadata members of the reported final kinds.
   It is false without the exclusion; each theorem below is a program on which the implementation's
   own final_type_info is contradicted by its run (model and implementation agree on all of them). *)

(* .a = 1; if .c == true { return 0 }; .a = "s" — a run that ends by return leaves the event in a
   mid-program state; final_type_info describes the end of the program text *)
Theorem C01_early_return_refuted :
  w_reason w_early_return = 121%N
  /\ fst (w_run w_early_return ev_c_true) = Success (VInt 0)
  /\ member (Expr.ev (snd (w_run w_early_return ev_c_true))) (w_final_target w_early_return) = false.
Proof. vm_compute. auto. Qed.

(* .a = 1; for_each([1]) -> |k, v| { .a = "s"; null }; ... — the event kind ignores what closure bodies do *)
Theorem C01_closure_effect_refuted :
  w_reason w_closure_event = 122%N
  /\ member (Expr.ev (snd (w_run w_closure_event (VObj [])))) (w_final_target w_closure_event) = false.
Proof. vm_compute. auto. Qed.

(* { z = {"p": 2}; null }; z.q = "b"; z — a variable out of scope keeps its run-time value; a later path
   assignment is typed as if it were fresh *)
Theorem C01_scope_leak_refuted :
  w_reason w_scope_leak = 127%N
  /\ exists v, fst (w_run w_scope_leak (VObj [])) = Success v /\ member v (w_result_kind w_scope_leak) = false.
Proof. vm_compute. eauto. Qed.

(* x = [1]; x[-3] = .zz; x — DESIGN D9 (C19-negidx-insert-beyond-front) reached from a program *)
Theorem C01_negidx_insert_refuted :
  w_reason w_negidx_insert = 102%N
  /\ exists v, fst (w_run w_negidx_insert (VObj [])) = Success v /\ member v (w_result_kind w_negidx_insert) = false.
Proof. vm_compute. eauto. Qed.

(* .x = [1, "a", true, 7]; del(.x[0]); ... — remove_shift: the final event is not a member of its kind *)
Theorem C01_remove_shift_refuted :
  w_reason w_remove_shift = 107%N
  /\ member (Expr.ev (snd (w_run w_remove_shift (VObj [])))) (w_final_target w_remove_shift) = false.
Proof. vm_compute. auto. Qed.

(* What is proved: soundness on the straight-line fragment (Model/TypeFragment.v). *)

(* effect-free expressions (literals, variables, queries on event / metadata / variables / expressions
   inside C19's get_ok, arrays, objects, groups, == and !=, ! on a boolean-typed operand, exists), typed in
   a type state G the run-time state conforms to (conf: every variable G knows holds a well-formed member of
   its kind, event and metadata are well-formed members of the external kinds, no injected fault):
   type_info leaves G alone; evaluation ends with a value, changes neither variables nor event nor metadata,
   and the value is a well-formed member of the expression's kind (undefined read as null).
   For EVERY function table F / T (the fragment contains no calls). *)
Theorem C01_pure_sound_partial :
  forall (F : fname -> list value -> option value) (T : fname -> list tdef -> list tdef -> tdef)
         (e : expr) (G : tstate) (s : state),
  pure_ok binop_inst T e G = true -> conf G s ->
  fst (type_info binop_inst T e G) = G
  /\ exists v s', eval F binop_inst e s = (inl v, s') /\ same_data s s'
       /\ member v (upgrade_undefined (td_kind (snd (type_info binop_inst T e G)))) = true
       /\ wf_value v = true.
Proof.
  intros F T e G s Hok Hc.
  destruct (pure_sound F binop_inst T binop_inst_cmp e G s Hok Hc) as (r & v & s' & Ht & H).
  rewrite Ht. eauto.
Qed.
Print Assumptions C01_pure_sound_partial.

(* a statement of the fragment — such an expression, or its assignment to a variable, to a path below a
   variable the type state knows, or to an event / metadata path, the path inside C19's ins_ok:
   the state after it conforms to the type state after it, and its value is in its kind *)
Theorem C01_statement_sound_partial :
  forall (F : fname -> list value -> option value) (T : fname -> list tdef -> list tdef -> tdef)
         (e : expr) (G : tstate) (s : state),
  stmt_ok binop_inst T e G = true -> conf G s ->
  exists v s', eval F binop_inst e s = (inl v, s')
       /\ conf (fst (type_info binop_inst T e G)) s'
       /\ member v (upgrade_undefined (td_kind (snd (type_info binop_inst T e G)))) = true
       /\ wf_value v = true.
Proof.
  intros F T e G s Hok Hc.
  destruct (stmt_sound F binop_inst T binop_inst_cmp e G s Hok Hc) as (v & s' & Hev & Hc' & Hm & Hw & _). eauto 6.
Qed.
Print Assumptions C01_statement_sound_partial.

(* C01 for straight-line programs of the fragment, from the initial state of a run, against the final type
   information of the program (Program::final_type_info): the run succeeds, its value is in the program's
   kind, and the event and the metadata it leaves are in the final target kinds.  Every statement is
   judged (stmts_ok) in the type state the compiler has before it. *)
Theorem C01_straightline_sound_partial :
  forall (es : list expr) (ek mk : kind) (event meta : value),
  es <> [] -> stmts_ok binop_inst T_inst es (ts0 ek mk) = true ->
  member event ek = true -> wf_value event = true -> member meta mk = true -> wf_value meta = true ->
  exists v s', run_typed es (st0 [] event meta) = (Success v, s')
       /\ member v (upgrade_undefined (td_kind (snd (program_type_info_inst es (ts0 ek mk))))) = true
       /\ member (Expr.ev s') (tgt (fst (program_type_info_inst es (ts0 ek mk)))) = true
       /\ member (Expr.md s') (mdk (fst (program_type_info_inst es (ts0 ek mk)))) = true.
Proof.
  intros es ek mk event meta Hne Hok He Hwe Hm Hwm.
  destruct (run_sound F_typed binop_inst T_inst binop_inst_cmp es _ _ Hne Hok (conf_init ek mk event meta He Hwe Hm Hwm))
    as (v & s' & Hr & Hc & Hv & _).
  exists v, s'. split; [exact Hr|]. split; [exact Hv|].
  split; [apply (conf_ext _ s' PEvent Hc) | apply (conf_ext _ s' PMeta Hc)].
Qed.
Print Assumptions C01_straightline_sound_partial.

(* the fragment is inhabited by programs that assign to the event, to variables and below them, and read
   them back:  .a = 1; x = [.a, {"k": .b}]; x[1].k = "s"; y = (x[0] == 1); .r = !y; exists(.zz)  *)
Definition frag_prog : list expr :=
  [ EAssign (TExt PEvent [SField (hx "61")]) (ELit (VInt 1));
    EAssign (TVar (hx "78") []) (EArr [EQExt PEvent [SField (hx "61")];
                                       EObj [(hx "6b", EQExt PEvent [SField (hx "62")])]]);
    EAssign (TVar (hx "78") [SIndex 1; SField (hx "6b")]) (ELit (VBytes (hx "73")));
    EAssign (TVar (hx "79") []) (EGroup (EOp OEq (EQVar (hx "78") [SIndex 0]) (ELit (VInt 1))));
    EAssign (TExt PEvent [SField (hx "72")]) (ENot (EVar (hx "79")));
    EExistsExt PEvent [SField (hx "7a"); SField (hx "7a")] ].

Theorem C01_fragment_nonvacuous :
  stmts_ok binop_inst T_inst frag_prog ts_default = true
  /\ fst (w_run frag_prog (VObj [])) = Success (VBool false)
  /\ Expr.ev (snd (w_run frag_prog (VObj []))) = VObj [(hx "61", VInt 1); (hx "72", VBool false)].
Proof. vm_compute. auto. Qed.
