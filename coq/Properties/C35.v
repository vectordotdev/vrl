(* C35 — Embedder type conversions round-trip canonical text.
   Model: Model/Conversion.v (src/compiler/conversion/mod.rs, src/compiler/datetime.rs); chrono's parsers are the
   universally quantified functions cl (zone-less format under a default timezone), cz (zoned format), c3 (RFC 3339),
   c2 (RFC 2822).  Statements; the proofs are in Proofs/Conversion*.v, except those that exhibit a witness. *)
From Coq Require Import String.
From Coq Require Import List NArith ZArith Bool Lia.
From Coq Require Import Floats.SpecFloat.
From VRL Require Import Base.Bytes Base.Value Base.Lit Model.ConvRes Model.Arith Model.IntText Model.NumFns Model.UnixTs
  Model.Casing Model.TsText.
From VRL Require Import Proofs.TsTextProofs.
From VRL Require Import Model.Conversion Proofs.ConversionProofs Proofs.ConversionTsProofs.
(* no statement below uses it: required only so that building this file also rebuilds the correspondence glue *)
From VRL Require Corr.C35.
Import ListNotations.
Local Open Scope list_scope.
Local Open Scope Z_scope.

Notation chrono_local tzT := (tzT -> bytes -> bytes -> option dt).
Notation chrono_zoned := (bytes -> bytes -> option dt).
Notation chrono_text := (bytes -> option dt).

(* every i64 (i64::MIN included): i64's Display never fails and the integer conversion reads the text back *)
Theorem C35_int : forall tzT (cl : chrono_local tzT) (cz : chrono_zoned) (c3 c2 : chrono_text) z,
  ConvRes.in_i64 z = true ->
  exists s, int_to_string z = ROk s /\ convert tzT cl cz c3 c2 CInteger s = COk (VInt z).
Proof. exact convert_int_roundtrip. Qed.
Print Assumptions C35_int.

(* and it accepts nothing but an i64 in decimal ([+-]digits, no white space, no overflow) *)
Theorem C35_int_only_decimal : forall tzT (cl : chrono_local tzT) (cz : chrono_zoned) (c3 c2 : chrono_text) s v,
  convert tzT cl cz c3 c2 CInteger s = COk v ->
  exists z, v = VInt z /\ ConvRes.in_i64 z = true /\ from_str_radix s 10 = Some z.
Proof. exact convert_int_only_decimal. Qed.
Print Assumptions C35_int_only_decimal.

(* spellings true = true, t, yes, y; spellings false = false, f, no, n: every way of capitalising them *)
Theorem C35_bool : forall tzT (cl : chrono_local tzT) (cz : chrono_zoned) (c3 c2 : chrono_text) b l s,
  In l (spellings b) -> map to_lower s = l -> convert tzT cl cz c3 c2 CBoolean s = COk (VBool b).
Proof. exact bool_spellings. Qed.
Print Assumptions C35_bool.

Theorem C35_bool_numeric : forall tzT (cl : chrono_local tzT) (cz : chrono_zoned) (c3 c2 : chrono_text) s n,
  parse_i64 s = Some n -> convert tzT cl cz c3 c2 CBoolean s = COk (VBool (negb (n =? 0))).
Proof. exact bool_numeric. Qed.
Print Assumptions C35_bool_numeric.

Theorem C35_bool_exact : forall tzT (cl : chrono_local tzT) (cz : chrono_zoned) (c3 c2 : chrono_text) s v,
  convert tzT cl cz c3 c2 CBoolean s = COk v ->
  exists b, v = VBool b /\
    (In (map to_lower s) (spellings b) \/ exists n, parse_i64 s = Some n /\ b = negb (n =? 0)).
Proof. exact bool_exact. Qed.
Print Assumptions C35_bool_exact.

Example C35_bool_examples :
  parse_bool (ascii_bytes "YeS") = Some true /\ parse_bool (ascii_bytes "fALSE") = Some false
  /\ parse_bool (ascii_bytes "-7") = Some true /\ parse_bool (ascii_bytes "+00") = Some false
  /\ parse_bool (ascii_bytes "on") = None /\ parse_bool (ascii_bytes " true") = None.
Proof. vm_compute. repeat split. Qed.

(* Conversion::parse accepts exactly the documented names: `documented` is the table asis|bytes|string, integer|int,
   float, bool|boolean, timestamp; `trim` is str::trim; 124 is '|' *)
Theorem C35_names : forall tzT name (tz : tzT) c,
  parse_conv tzT name tz = Some c <->
    ((no_bar name /\ documented tzT tz (trim name) c)
     \/ (exists a fmt, name = a ++ 124%N :: fmt /\ no_bar a /\ trim a = name_timestamp
                       /\ c = conv_timestamp tzT (trim fmt) tz)).
Proof. exact names_exact. Qed.
Print Assumptions C35_names.

Theorem C35_names_sound : forall tzT p1 p2 w (tz : tzT),
  ascii_ws_pad p1 -> ascii_ws_pad p2 -> In w all_names ->
  exists c, parse_conv tzT (p1 ++ w ++ p2) tz = Some c /\ documented tzT tz w c.
Proof. exact names_sound. Qed.
Print Assumptions C35_names_sound.

Example C35_names_examples :
  parse_conv unit (ascii_bytes " int ") tt = Some CInteger
  /\ parse_conv unit (ascii_bytes "Int") tt = None
  /\ parse_conv unit (ascii_bytes "int|") tt = None
  /\ parse_conv unit (ascii_bytes "timestamp | %F %T %z ") tt = Some (CTimestampTzFmt (ascii_bytes "%F %T %z"))
  /\ parse_conv unit (ascii_bytes "timestamp|%F %T") tt = Some (CTimestampFmt (ascii_bytes "%F %T") tt)
  /\ parse_conv unit (ascii_bytes "timestamp|") tt = Some (CTimestampFmt [] tt)
  /\ parse_conv unit (hx "e38080626f6f6cc2a0") tt = Some CBoolean          (* U+3000 bool U+00A0 *)
  /\ parse_conv unit (hx "e2808b626f6f6c") tt = None.                      (* U+200B is not white space *)
Proof. vm_compute. repeat split. Qed.

(* a format in which format_has_zone finds a zone: the conversion does not depend on the default timezone, nor on
   anything chrono does with a default timezone (cl and cl' are arbitrary) *)
Theorem C35_tz_indep : forall tzT (cz : chrono_zoned) (c3 c2 : chrono_text) (cl cl' : chrono_local tzT) fmt tz1 tz2 s,
  format_has_zone fmt = true ->
  convert tzT cl cz c3 c2 (conv_timestamp tzT fmt tz1) s = convert tzT cl' cz c3 c2 (conv_timestamp tzT fmt tz2) s.
Proof. exact tz_indep_fmt. Qed.
Print Assumptions C35_tz_indep.

(* by name: every accepted name except `timestamp` and `timestamp|<format without a zone>` *)
Theorem C35_tz_indep_names : forall tzT (cz : chrono_zoned) (c3 c2 : chrono_text) (cl cl' : chrono_local tzT)
                                    name tz1 tz2 c1 s,
  parse_conv tzT name tz1 = Some c1 -> tz_free tzT c1 = true ->
  exists c2', parse_conv tzT name tz2 = Some c2' /\
              convert tzT cl cz c3 c2 c1 s = convert tzT cl' cz c3 c2 c2' s.
Proof. exact tz_indep_names. Qed.
Print Assumptions C35_tz_indep_names.

(* the auto-detecting conversion: same answer under two default timezones for every text that none of the eight
   zone-less formats tried first accepts under either *)
Theorem C35_tz_indep_auto : forall tzT (cz : chrono_zoned) (c3 c2 : chrono_text) (cl : chrono_local tzT) tz1 tz2 s,
  (forall f, In f local_formats -> cl tz1 s f = None /\ cl tz2 s f = None) ->
  convert tzT cl cz c3 c2 (CTimestamp tz1) s = convert tzT cl cz c3 c2 (CTimestamp tz2) s.
Proof. exact tz_indep_auto. Qed.
Print Assumptions C35_tz_indep_auto.

(* that hypothesis is satisfiable with a successful conversion, and cannot be dropped *)
Theorem C35_tz_indep_auto_inhabited :
  (exists (cl : bool -> bytes -> bytes -> option dt) (c3 : bytes -> option dt) (s : bytes),
      (forall f, In f local_formats -> cl true s f = None /\ cl false s f = None)
      /\ convert bool cl (fun _ _ => None) c3 (fun _ => None) (CTimestamp true) s = COk (VTs 1572139800000000005))
  /\ (exists (cl : bool -> bytes -> bytes -> option dt) (s : bytes),
      convert bool cl (fun _ _ => None) (fun _ => None) (fun _ => None) (CTimestamp true) s
      <> convert bool cl (fun _ _ => None) (fun _ => None) (fun _ => None) (CTimestamp false) s).
Proof.
  split.
  - exists (fun _ _ _ => None), (fun _ => Some (1572139800, 5)), (ascii_bytes "2019-10-27T01:30:00.000000005+00:00").
    split; [intros; split; reflexivity | vm_compute; reflexivity].
  - exists (fun (tz : bool) _ _ => if tz then Some (1500007200, 0) else Some (1500000000, 0)), (ascii_bytes "2017-07-14 04:40:00").
    vm_compute. discriminate.
Qed.
Print Assumptions C35_tz_indep_auto_inhabited.

(* Full statement: for every finite f, convert Float (Display f) = f.  f64's Display (shortest digits that read back,
   core::fmt::float) is not modelled; proved: whenever the printed text reads back under the (exact, correctly
   rounded) parser model, the conversion returns f.  The oracle checks the premise on the implementation for every
   generated bit pattern. *)
Theorem C35_float_partial : forall tzT (cl : chrono_local tzT) (cz : chrono_zoned) (c3 c2 : chrono_text)
                                   (fmt_f64 : spec_float -> bytes) f,
  parse_f64 (fmt_f64 f) = Some f -> f_is_nan f = false ->
  convert tzT cl cz c3 c2 CFloat (fmt_f64 f) = COk (VFloat f).
Proof. exact convert_float_partial. Qed.
Print Assumptions C35_float_partial.

Theorem C35_float_partial_inhabited :
  exists (fmt_f64 : spec_float -> bytes) f, parse_f64 (fmt_f64 f) = Some f /\ f_is_nan f = false
    /\ f = f64_of_bits 0x3fb999999999999a.
Proof. exists (fun _ => ascii_bytes "0.1"), (f64_of_bits 0x3fb999999999999a). vm_compute. repeat split. Qed.
Print Assumptions C35_float_partial_inhabited.

(* closed for the integer-valued texts: the decimal text of any i64 converts to `z as f64` *)
Theorem C35_float_int_text : forall tzT (cl : chrono_local tzT) (cz : chrono_zoned) (c3 c2 : chrono_text) z,
  ConvRes.in_i64 z = true ->
  exists s, int_to_string z = ROk s /\ convert tzT cl cz c3 c2 CFloat s = COk (VFloat (of_i64 z)).
Proof. exact convert_float_int_text. Qed.
Print Assumptions C35_float_int_text.

(* the float conversion never produces NaN ("nan" is an error) *)
Theorem C35_float_nan : forall tzT (cl : chrono_local tzT) (cz : chrono_zoned) (c3 c2 : chrono_text) s v,
  convert tzT cl cz c3 c2 CFloat s = COk v -> exists f, v = VFloat f /\ f_is_nan f = false.
Proof. exact convert_float_nan. Qed.
Print Assumptions C35_float_nan.

(* Full statement: for every timestamp t and default timezone, convert Timestamp (t.to_rfc3339()) = t.
   format_layout LRfc3339 is the model of that text (Model/TsText.v; the correspondence compares it with to_rfc3339()
   on every generated timestamp).  Proved under two hypotheses about chrono: no zone-less format of the list accepts
   such a text, and parse_from_rfc3339 reads it back.  That the unix-seconds branch does not take it is proved. *)
Theorem C35_rfc3339_partial : forall tzT (cl : chrono_local tzT) (cz : chrono_zoned) (c3 c2 : chrono_text),
  (forall tz ns f, In f local_formats -> cl tz (format_layout LRfc3339 ns) f = None) ->
  (forall ns, ts_in_range ns = true -> c3 (format_layout LRfc3339 ns) = Some (dt_of_ns ns)) ->
  forall ns tz, ts_in_range ns = true ->
    convert tzT cl cz c3 c2 (CTimestamp tz) (format_layout LRfc3339 ns) = COk (VTs ns).
Proof. exact rfc3339_roundtrip. Qed.
Print Assumptions C35_rfc3339_partial.

Theorem C35_rfc3339_partial_inhabited :
  exists (cl : chrono_local unit) (c3 : chrono_text),
    (forall tz ns f, In f local_formats -> cl tz (format_layout LRfc3339 ns) f = None)
    /\ (forall ns, ts_in_range ns = true -> c3 (format_layout LRfc3339 ns) = Some (dt_of_ns ns))
    /\ c3 (ascii_bytes "2019-10-27T01:30:00.000000005+00:00") = Some (1572139800, 5).
Proof.
  exists (fun _ _ _ => None),
         (fun s => match parse_layout LRfc3339 s with Some (ROk ns) => Some (dt_of_ns ns) | _ => None end).
  split; [reflexivity|]. split; [|vm_compute; reflexivity].
  intros ns Hr. rewrite (layout_roundtrip LRfc3339 ns Hr). reflexivity.
Qed.
Print Assumptions C35_rfc3339_partial_inhabited.

(* `timestamp|FORMAT` for the full-precision layouts of Model/TsText.v (%+, %Y-%m-%dT%H:%M:%S%.9f%z,
   %Y-%m-%dT%H:%M:%S%.f%:z): if chrono's parse_from_str agrees with that parser model wherever the model answers
   (`agrees`: what C25's correspondence checks), every timestamp chrono can hold, printed in the layout, converts back
   to itself under every default timezone; the zone-less layout %Y-%m-%d %H:%M:%S.%f likewise under UTC *)
Theorem C35_layout_fmt_partial : forall tzT (cl : chrono_local tzT) (cz : chrono_zoned) (c3 c2 : chrono_text) (utc : tzT),
  (forall l ns tz, zoned_layout l = true -> agrees cz l -> ts_in_range ns = true ->
     convert tzT cl cz c3 c2 (conv_timestamp tzT (layout_fmt l) tz) (format_layout l ns) = COk (VTs ns))
  /\ (forall ns, agrees (cl utc) LSpaceNum -> ts_in_range ns = true ->
     convert tzT cl cz c3 c2 (conv_timestamp tzT (layout_fmt LSpaceNum) utc) (format_layout LSpaceNum ns) = COk (VTs ns)).
Proof.
  intros. split; [intros; apply layout_roundtrip_zoned; assumption | intros; apply layout_roundtrip_local; assumption].
Qed.
Print Assumptions C35_layout_fmt_partial.

Theorem C35_layout_fmt_partial_inhabited : forall l, agrees model_chrono l.
Proof.
  intros l s ns H. unfold model_chrono. rewrite layout_fmt_ok, H. eexists. split; [reflexivity|].
  apply datetime_to_utc_of_ns.
Qed.
Print Assumptions C35_layout_fmt_partial_inhabited.

(* "formats with an explicit zone give the same instant under every default timezone": %::z and %:::z print (and, for
   the former, parse) an explicit numeric offset, but format_has_zone does not look for them; such a format is converted
   through the default timezone, and chrono then rejects a text whose offset is not the default timezone's
   (Parsed::to_datetime_with_timezone: IMPOSSIBLE) *)
Theorem C35_zone_spec_refuted :
  format_has_zone (ascii_bytes "%F %T %::z") = false /\ format_has_zone (ascii_bytes "%F %T %:::z") = false
  /\ exists (cl : bool -> bytes -> bytes -> option dt) (s : bytes),
       convert bool cl (fun _ _ => None) (fun _ => None) (fun _ => None)
               (conv_timestamp bool (ascii_bytes "%F %T %::z") true) s
       <> convert bool cl (fun _ _ => None) (fun _ => None) (fun _ => None)
               (conv_timestamp bool (ascii_bytes "%F %T %::z") false) s.
Proof.
  split; [reflexivity|]. split; [reflexivity|].
  exists (fun (tz : bool) _ _ => if tz then Some (1500000000, 0) else None), (ascii_bytes "2017-07-14 04:40:00 +02:00").
  vm_compute. discriminate.
Qed.
Print Assumptions C35_zone_spec_refuted.

(* the converse slip: "%%z" is a literal '%' followed by the letter z, yet format_has_zone takes it for a zone: the format
   is handed to DateTime::parse_from_str, which can never produce an offset from it *)
Theorem C35_literal_percent_refuted :
  format_has_zone (ascii_bytes "%F %T %%z") = true
  /\ forall tz : unit, conv_timestamp unit (ascii_bytes "%F %T %%z") tz = CTimestampTzFmt (ascii_bytes "%F %T %%z").
Proof. split; [reflexivity | intros; reflexivity]. Qed.
Print Assumptions C35_literal_percent_refuted.

(* datetime_to_utc's expect() panics on a leap second (nanos >= 10^9) whose UTC second-of-minute is not 59, which chrono
   produces for second 60 under a timezone whose offset is not a whole number of minutes *)
Theorem C35_leap_panic_refuted :
  exists (d : dt) (cl : unit -> bytes -> bytes -> option dt) (fmt s : bytes),
    datetime_to_utc d = RPanic
    /\ convert unit cl (fun _ _ => None) (fun _ => None) (fun _ => None) (CTimestampFmt fmt tt) s = CPanic
    /\ convert unit cl (fun _ _ => None) (fun _ => None) (fun _ => None) (CTimestamp tt) s = CPanic.
Proof.
  exists (-2840143949, 1000000000), (fun _ _ _ => Some (-2840143949, 1000000000)),
         (ascii_bytes "%F %T"), (ascii_bytes "1880-01-01 00:00:60").
  repeat split; vm_compute; reflexivity.
Qed.
Print Assumptions C35_leap_panic_refuted.
