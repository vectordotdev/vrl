(* C24 — Key-value, logfmt and CSV encoders round-trip; proofs in Proofs/KeyValue*.v, CsvProofs.v.
   Text = list of Unicode scalar values (Model/KeyValue.v), CSV = bytes (Model/Csv.v). *)
From Coq Require Import List NArith Bool.
From VRL Require Import Base.Bytes Model.KeyValue Model.Csv
     Proofs.KeyValueProofs Proofs.KeyValueRT Proofs.KeyValueFuel Proofs.CsvProofs.
Import ListNotations.
Local Open Scope N_scope.

(* For every pair of delimiters of the supported shape, both whitespace modes and both accept_standalone_key
   values, every non-empty key-sorted (= BTreeMap) flat object of non-empty strings outside the four known
   classes (kv_safe) is restored exactly. *)
Theorem C24_kv_roundtrip :
  forall (kvd fd : str) (ws : wsmode) (sk : bool) (o : list (str * str)),
    good_delims kvd fd = true -> o <> [] -> sorted_keys o = true -> nonempty_strings o = true ->
    kv_safe kvd fd o = true ->
    parse_key_value kvd fd ws sk (to_string kvd fd o) = POk (as_parsed o).
Proof. exact kv_roundtrip. Qed.
Print Assumptions C24_kv_roundtrip.

(* a -> x y ; k -> a, backslash, b, space, c, double quote, d (quoted, with backslash and quote); z -> two
   non-ASCII characters; delimiters => and | *)
Example C24_kv_roundtrip_inhabited :
  let o := [([97], [120; 32; 121]); ([107], [97; 92; 98; 32; 99; 34; 100]); ([122], [233; 26085])] in
  good_delims [61; 62] [124] = true /\ sorted_keys o = true /\ nonempty_strings o = true
  /\ kv_safe [61; 62] [124] o = true
  /\ to_string [61; 62] [124] o
     = [97; 61; 62; 34; 120; 32; 121; 34; 124; 107; 61; 62; 34; 97; 92; 92; 98; 32; 99; 92; 34; 100; 34; 124;
        122; 61; 62; 233; 26085].
Proof. vm_compute. repeat split; reflexivity. Qed.

Theorem C24_logfmt_roundtrip :
  forall o : list (str * str),
    o <> [] -> sorted_keys o = true -> nonempty_strings o = true -> logfmt_safe o = true ->
    parse_logfmt (encode_logfmt o) = POk (as_parsed o).
Proof.
  intros o Hne Hs Hn Hsafe. unfold parse_logfmt, encode_logfmt. apply kv_roundtrip; auto.
  unfold kv_safe. rewrite logfmt_no_delim_class. unfold logfmt_safe in Hsafe. rewrite Hsafe. reflexivity.
Qed.
Print Assumptions C24_logfmt_roundtrip.

Example C24_logfmt_roundtrip_inhabited :
  let o := [([107], [97; 92; 98; 32; 61; 9; 13]); ([109; 115; 103], [39; 104; 105; 39; 32])] in
  sorted_keys o = true /\ nonempty_strings o = true /\ logfmt_safe o = true.
Proof. vm_compute. repeat split; reflexivity. Qed.

(* ---- the four classes are genuine: one witness each, inside exactly one class *)
(* {"k": "a\b"} : encode_string doubles the backslash of an unquoted value, the parser does not unescape it *)
Theorem C24_kv_backslash_refuted :
  exists o, sorted_keys o = true /\ nonempty_strings o = true
    /\ known_backslash o = true /\ known_newline o = false /\ known_squote o = false
    /\ known_delim [c_eq] [c_sp] o = false
    /\ to_string [c_eq] [c_sp] o = [107; 61; 97; 92; 92; 98]
    /\ parse_key_value [c_eq] [c_sp] Lenient true (to_string [c_eq] [c_sp] o) = POk [([107], PStr [97; 92; 92; 98])]
    /\ parse_key_value [c_eq] [c_sp] Lenient true (to_string [c_eq] [c_sp] o) <> POk (as_parsed o).
Proof. exists [([107], [97; 92; 98])]. vm_compute. repeat split; try reflexivity. discriminate. Qed.
Print Assumptions C24_kv_backslash_refuted.

(* {"k": "a<LF>b"} : written as backslash backslash n inside quotes, read back as backslash n (two characters) *)
Theorem C24_kv_newline_refuted :
  exists o, sorted_keys o = true /\ nonempty_strings o = true
    /\ known_backslash o = false /\ known_newline o = true /\ known_squote o = false
    /\ known_delim [c_eq] [c_sp] o = false
    /\ to_string [c_eq] [c_sp] o = [107; 61; 34; 97; 92; 92; 110; 98; 34]
    /\ parse_key_value [c_eq] [c_sp] Lenient true (to_string [c_eq] [c_sp] o) = POk [([107], PStr [97; 92; 110; 98])]
    /\ parse_key_value [c_eq] [c_sp] Lenient true (to_string [c_eq] [c_sp] o) <> POk (as_parsed o).
Proof. exists [([107], [97; 10; 98])]. vm_compute. repeat split; try reflexivity. discriminate. Qed.
Print Assumptions C24_kv_newline_refuted.

(* {"k": "'a'"} : left unquoted, and the parser takes the single quotes as delimiters *)
Theorem C24_kv_squote_refuted :
  exists o, sorted_keys o = true /\ nonempty_strings o = true
    /\ known_backslash o = false /\ known_newline o = false /\ known_squote o = true
    /\ known_delim [c_eq] [c_sp] o = false
    /\ parse_key_value [c_eq] [c_sp] Lenient true (to_string [c_eq] [c_sp] o) = POk [([107], PStr [97])]
    /\ parse_key_value [c_eq] [c_sp] Lenient true (to_string [c_eq] [c_sp] o) <> POk (as_parsed o).
Proof. exists [([107], [39; 97; 39])]. vm_compute. repeat split; try reflexivity. discriminate. Qed.
Print Assumptions C24_kv_squote_refuted.

(* {"k": "a,b"} with ":" and "," : the quoting rule only knows whitespace, quote and '=' *)
Theorem C24_kv_delim_refuted :
  exists o, sorted_keys o = true /\ nonempty_strings o = true /\ good_delims [58] [44] = true
    /\ known_backslash o = false /\ known_newline o = false /\ known_squote o = false
    /\ known_delim [58] [44] o = true
    /\ parse_key_value [58] [44] Lenient true (to_string [58] [44] o) = POk [([98], PTrue); ([107], PStr [97])]
    /\ parse_key_value [58] [44] Lenient true (to_string [58] [44] o) <> POk (as_parsed o).
Proof. exists [([107], [97; 44; 98])]. vm_compute. repeat split; try reflexivity. discriminate. Qed.
Print Assumptions C24_kv_delim_refuted.

(* {} : encoded as the empty text, which parse_key_value rejects *)
Theorem C24_kv_empty_object_refuted :
  forall ws sk, to_string [c_eq] [c_sp] [] = [] /\ parse_key_value [c_eq] [c_sp] ws sk (to_string [c_eq] [c_sp] []) = PErr.
Proof. intros [] []; vm_compute; split; reflexivity. Qed.
Print Assumptions C24_kv_empty_object_refuted.

(* ---- the two paths of encode_string separately (they hold for any terminator / delimiter) *)
(* quoted path: any non-empty string without newline that gets quoted is read back by parse_delimited *)
Theorem C24_kv_quoted_string :
  forall (term s rest : str),
    s <> [] -> has c_nl s = false -> needs_quoting s = true ->
    (parse_field_delimiter term rest <> None \/ space0 rest = []) ->
    parse_delimited c_dq term (encode_string s ++ rest) = Some (s, rest).
Proof.
  intros term s rest Hs Hn Hq Ht. unfold encode_string. rewrite Hq.
  cbn [app]. rewrite <- app_assoc. apply parse_delimited_quoted; auto.
Qed.
Print Assumptions C24_kv_quoted_string.

(* unquoted path: a non-empty string without whitespace, quote, '=', backslash, leading single quote and
   without the first character of the field delimiter is read back by parse_value *)
Theorem C24_kv_unquoted_string :
  forall (fc : N) (fd' v more : str),
    (fc :: fd' = [c_sp] \/ (str_eqb (fc :: fd') [c_sp] = false /\ fc <> c_sp)) ->
    v <> [] -> unq v = true -> has c_bs v = false -> head_is c_sq v = false -> has fc v = false ->
    encode_string v = v
    /\ parse_value (fc :: fd') (encode_string v ++ (fc :: fd') ++ more) = (v, (fc :: fd') ++ more)
    /\ parse_value (fc :: fd') (encode_string v) = (v, []).
Proof.
  intros fc fd' v more Hfd Hne Hu Hb Hs Hf. pose proof (unq_str_ok fc v Hne Hu Hb Hs Hf) as Hok.
  split; [apply encode_string_unq; assumption|]. split.
  - apply (parse_value_enc fc fd' Hfd _ _ Hok). right. eexists; reflexivity.
  - rewrite <- (app_nil_r (encode_string v)). apply (parse_value_enc fc fd' Hfd _ _ Hok). left. reflexivity.
Qed.
Print Assumptions C24_kv_unquoted_string.

(* the fuel of the model's separated_list1 loop (input length + 1) is never exhausted *)
Theorem C24_kv_fuel_sufficient :
  forall (kvd fd : str) (ws : wsmode) (sk : bool) (s : str), parse_key_value kvd fd ws sk s <> PFuel.
Proof. exact kv_fuel_sufficient. Qed.
Print Assumptions C24_kv_fuel_sufficient.

(* every list of byte strings (also the empty list, empty fields, a single empty field) and every one-byte
   delimiter other than the quote, CR, LF — unless the encoded text begins with EF BB BF *)
Theorem C24_csv_roundtrip :
  forall (d : N) (fields : list bstr),
    good_delim d = true -> known_bom d fields = false -> parse_csv d (encode_csv d fields) = fields.
Proof. exact csv_roundtrip. Qed.
Print Assumptions C24_csv_roundtrip.

Example C24_csv_roundtrip_inhabited :
  good_delim 44 = true
  /\ known_bom 44 [[97; 44; 98]; []; [34; 10]; [239; 187; 191]] = false
  /\ encode_csv 44 [[97; 44; 98]; []; [34; 10]; [239; 187; 191]]
     = [34; 97; 44; 98; 34; 44; 44; 34; 34; 34; 10; 34; 44; 239; 187; 191]
  /\ encode_csv 59 [[]] = [34; 34] /\ known_bom 59 [[]] = false.
Proof. vm_compute. repeat split; reflexivity. Qed.

(* ["<BOM>a", "b"] comes back as ["a", "b"]: csv-core strips a leading UTF-8 BOM *)
Theorem C24_csv_bom_refuted :
  exists d fields, good_delim d = true /\ known_bom d fields = true
    /\ parse_csv d (encode_csv d fields) = [[97]; [98]] /\ parse_csv d (encode_csv d fields) <> fields.
Proof. exists 44, [[239; 187; 191; 97]; [98]]. vm_compute. repeat split; try reflexivity. discriminate. Qed.
Print Assumptions C24_csv_bom_refuted.

(* the hypotheses of the two main theorems leave the interesting inputs in: quoting, escapes, every delimiter pair *)
Theorem C24_nonvacuous :
  (exists o, o <> [] /\ sorted_keys o = true /\ nonempty_strings o = true
     /\ kv_safe [c_eq] [c_sp] o = true /\ kv_safe [58] [44] o = true /\ kv_safe [61; 62] [124] o = true
     /\ kv_safe [58] [9] o = true
     /\ existsb (fun kv => needs_quoting (snd kv) && has c_bs (snd kv) && has c_dq (snd kv)) o = true
     /\ existsb (fun kv => needs_quoting (fst kv)) o = true
     /\ existsb (fun kv => unq (snd kv)) o = true)
  /\ (exists d fs, good_delim d = true /\ known_bom d fs = false /\ existsb (needs_quotes d) fs = true
        /\ existsb (fun f => negb (needs_quotes d f)) fs = true /\ In [] fs).
Proof.
  split.
  - exists [([97; 32; 98], [120]); ([107], [97; 92; 32; 34; 61; 9]); ([122], [233; 26085; 39])].
    vm_compute. repeat split; try reflexivity. discriminate.
  - exists 9, [[97; 9]; []; [98]]. vm_compute. repeat split; auto.
Qed.
Print Assumptions C24_nonvacuous.
