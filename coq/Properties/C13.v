(* C13 — closure parameters are scoped to the closure. *)
From Coq Require Import List ZArith String.
From VRL Require Import Base.Value Base.Lit Model.Expr Model.Eval Model.EvalInst Proofs.EvalProofs.
Import ListNotations.
Local Open Scope string_scope.
Local Open Scope list_scope.
Local Open Scope Z_scope.

(* After the iterations of any closure-taking function — however the body behaves (it may assign the
   parameters, fail, return, abort) and however the call ends — every variable named like a parameter
   the function binds holds what it held before (Some value, or None = unset). *)
Theorem C13_closure_params_restored :
  forall (body : state -> res * state) (ps : list ident) (cf : cfn) (v : value) (s : state) (x : ident),
  In (Some x) (cparams cf ps) -> (param ps 0 <> param ps 1 \/ param ps 0 = None) ->
  var_get (vars (snd (run_closure body ps cf v s))) x = var_get (vars s) x.
Proof. exact closure_params_restored. Qed.
Print Assumptions C13_closure_params_restored.

(* the same for the whole call expression, relative to the state in which the iterations start *)
Theorem C13_closure_call_params_restored :
  forall F binop cf arg ps body s v s' x,
  eval F binop arg s = (inl v, s') ->
  In (Some x) (cparams cf ps) -> (param ps 0 <> param ps 1 \/ param ps 0 = None) ->
  var_get (vars (snd (eval F binop (EClosure cf arg ps body) s))) x = var_get (vars s') x.
Proof. exact closure_call_params_restored. Qed.
Print Assumptions C13_closure_call_params_restored.

(* a failing closure whose error is handled: the outer variable keeps its value (the D4 scenario) *)
Example C13_example :
  let s := st0 [(hx "76", VBytes (hx "6f75746572"))] (VObj [(hx "6d", VBytes (hx "616263"))]) (VObj []) in
  run_core
    [EAssign (TVar (hx "72") [])
       (EOp OErr (EClosure CMapValues (ELit (VObj [(hx "6b", VInt 1)])) [hx "76"]
                    [ECall (nm "int") [EQExt PEvent [SField (hx "6d")]]])
                 (ELit VNull));
     EVar (hx "76")] s
  = (Success (VBytes (hx "6f75746572")),
     [(hx "72", VNull); (hx "76", VBytes (hx "6f75746572"))], VObj [(hx "6d", VBytes (hx "616263"))], VObj []).
Proof. vm_compute. reflexivity. Qed.
