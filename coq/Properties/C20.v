(* C20 — Paths round-trip through text and all path parsers agree.
   Models: Model/PathText.v (src/path/owned.rs rendering, src/path/jit.rs + mod.rs parsing),
           Model/VrlPathLex.v (path fragment of src/parser/lex.rs + parser.lalrpop).  Statements only. *)
From Coq Require Import List NArith ZArith Bool String.
From VRL Require Import Base.Value Base.Lit Model.PathText Model.VrlPathLex
                        Proofs.PathTextProofs Proofs.VrlPathProofs Proofs.VrlAgreeProofs.
Import ListNotations.
Local Open Scope string_scope.
Local Open Scope list_scope.

(* Rendering any non-root value path (arbitrary field strings, any isize indices) and parsing the text
   gives the same path. *)
Theorem C20_roundtrip : forall p : path,
  p <> [] -> indices_in_isize p = true -> parse_value_path (render p) = POk p.
Proof. intros [|s p]; [congruence|]. intros _. apply jit_from_start. reflexivity. Qed.
Print Assumptions C20_roundtrip.

(* The same for target paths: every event path (the event root included) and every non-root metadata path. *)
Theorem C20_target_roundtrip : forall tp : tpath,
  is_root_exception tp = false -> indices_in_isize (snd tp) = true ->
  parse_target_path (render_target tp) = POk tp.
Proof. exact roundtrip_target. Qed.
Print Assumptions C20_target_roundtrip.

(* KNOWN FINDING (C20-root-not-reparsed).  The full statement `forall p, parse (render p) = Ok p` is false of
   the faithful model: the value root renders as the empty text and the metadata root as the percent sign, and neither parses. *)
Theorem C20_root_refuted :
  (exists p : path, render p = [] /\ parse_value_path (render p) = PErr)
  /\ (exists tp : tpath, is_root_exception tp = true /\ render_target tp = hx "25"
                         /\ parse_target_path (render_target tp) = PErr).
Proof.
  split; [exists [] | exists (Metadata, [])]; repeat split.
Qed.
Print Assumptions C20_root_refuted.

(* ... and the two roots are the only paths that do not round-trip. *)
Theorem C20_root_only_exception :
  (forall p : path, indices_in_isize p = true -> (parse_value_path (render p) = POk p <-> p <> []))
  /\ (forall tp : tpath, indices_in_isize (snd tp) = true ->
        (parse_target_path (render_target tp) = POk tp <-> is_root_exception tp = false)).
Proof.
  split.
  - intros p Hi. split.
    + intros H ->. cbn in H. discriminate.
    + intros Hp. apply C20_roundtrip; auto.
  - intros tp Hi. split.
    + intros H. destruct tp as [[|] [|s p]]; try reflexivity. cbn in H. discriminate.
    + intros Hr. apply roundtrip_target; auto.
Qed.
Print Assumptions C20_root_only_exception.

(* The model's `PUnreachable` outcome (the branch the Rust cannot take) never occurs. *)
Theorem C20_parse_never_unreachable : forall t : text,
  parse_value_path t <> PUnreachable /\ parse_target_path t <> PUnreachable.
Proof. intros t. destruct (parse_settles t) as [[-> | [p ->]] [-> | [tp ->]]]; split; discriminate. Qed.
Print Assumptions C20_parse_never_unreachable.

(* An index that does not fit isize is invalid syntax (since /repo 8dcbd4e; before, the accumulation overflowed:
   finding C20-index-overflow-panic, fixed): the decimal text of ANY integer outside the isize range, written as the
   first index of a value path and followed by anything, is rejected with InvalidPathSyntax. *)
Theorem C20_overflow_invalid : forall (i : Z) (rest : text),
  in_isize i = false -> parse_value_path (91%N :: render_int i ++ rest) = PErr.
Proof. intros i rest. apply index_out_of_range_invalid. Qed.
Print Assumptions C20_overflow_invalid.

(* The model's `PPanic` outcome never occurs either: no branch of the machine in Model/PathText.v constructs it
   (the constructor is the outcome the harness reports when the Rust panics); like the theorem on `PUnreachable`
   above, this follows from `parse_settles`: on every text each parser returns a path or a syntax error. *)
Theorem C20_never_panics : forall t : text,
  parse_value_path t <> PPanic /\ parse_target_path t <> PPanic.
Proof. intros t. destruct (parse_settles t) as [[-> | [p ->]] [-> | [tp ->]]]; split; discriminate. Qed.
Print Assumptions C20_never_panics.

(* Both readers agree on every rendered path that VRL source can spell: the text the renderer writes for a
   path whose unquoted fields are VRL identifiers (not a lone `_`, not all digits/underscores) and whose
   quoted fields contain no brace is read as that same path by the VRL source reading and by the
   path-string parser. *)
Theorem C20_render_agree : forall tp : tpath,
  spellable (snd tp) = true -> indices_in_isize (snd tp) = true -> is_root_exception tp = false ->
  vrl_path (render_target tp) = Some tp /\ parse_target_path (render_target tp) = POk tp.
Proof.
  intros tp Hs Hi Hr. split; [apply vrl_reads_rendering; auto | apply roundtrip_target; auto].
Qed.
Print Assumptions C20_render_agree.

(* Every text of at most 6 symbols over the path alphabet { . % a 0 - @ _ dquote backslash [ ] space e-acute }
   (5 229 043 texts) that both readers accept denotes the same target path for both.  (The alphabet has no brace,
   so this is C20_agree on these texts; the bound on the length plays no part in the proof.) *)
Theorem C20_agree_short : forall w : list text,
  (List.length w <= 6)%nat -> Forall (fun a => In a alphabet) w ->
  forall a b : tpath, vrl_path (List.concat w) = Some a -> parse_target_path (List.concat w) = POk b -> a = b.
Proof. intros w _. exact (agree_short w). Qed.
Print Assumptions C20_agree_short.

(* All path parsers agree: on EVERY text free of template syntax (no `{{`, no backslash directly before `}}`),
   if the VRL source reading and the path-string parser both accept the text, they denote the same target path.
   (Texts accepted by only one of the two grammars - leading whitespace, `%.a`, `.a-b`, `[ 0 ]`, ... - are
   outside the statement by construction; notes/C20.md lists them.) *)
Theorem C20_agree : forall (s : text) (a b : tpath),
  template_syntax s = false -> vrl_path s = Some a -> parse_target_path s = POk b -> a = b.
Proof. exact agree_general. Qed.
Print Assumptions C20_agree.

(* KNOWN FINDING (C20-template-in-quoted-field).  `template_syntax` is the known class; inside it the agreement is false: a quoted field
   is a VRL string literal and goes through template processing, which rewrites `{{x}}` to `{{ x }}` and eats the
   backslash of `\}}`; the path-string parser keeps the text.  Witnesses: dot dquote {{x}} dquote, and
   dot dquote backslash backslash }} dquote (the latter is what the renderer writes for the field `\}}`). *)
Theorem C20_template_refuted :
  (exists (s : text) (a b : tpath), s = hx "2e227b7b787d7d22" /\ vrl_modelled s = true /\ has_template_open s = true
      /\ vrl_path s = Some a /\ parse_target_path s = POk b /\ a <> b)
  /\ (exists (s : text) (a b : tpath), s = hx "2e225c5c7d7d22" /\ vrl_modelled s = true /\ has_bsl_close s = true
      /\ vrl_path s = Some a /\ parse_target_path s = POk b /\ a <> b
      /\ (exists p, b = (Event, p) /\ render_target (Event, p) = s)).
Proof.
  split.
  - exists (hx "2e227b7b787d7d22"), (Event, [SField (hx "7b7b2078207d7d")]), (Event, [SField (hx "7b7b787d7d")]).
    repeat apply conj; try (vm_compute; reflexivity). vm_compute; discriminate.
  - exists (hx "2e225c5c7d7d22"), (Event, [SField (hx "7d7d")]), (Event, [SField (hx "5c7d7d")]).
    repeat apply conj; try (vm_compute; reflexivity); [vm_compute; discriminate|].
    exists [SField [92%N; 125%N; 125%N]]. split; reflexivity.
Qed.
Print Assumptions C20_template_refuted.

(* non-vacuity: the hypotheses are met by non-trivial paths: a metadata path with a plain field, a field with a
   space, a field with a double quote and a backslash, a negative index and an empty field *)
Example C20_roundtrip_nonvacuous :
  let p := [SField (hx "61"); SField (hx "622063"); SField (hx "7822795c"); SIndex (-1)%Z; SField []] in
  p <> [] /\ indices_in_isize p = true /\ is_root_exception (Metadata, p) = false
  /\ spellable p = true
  /\ render_target (Metadata, p) = hx "25612e22622063222e22785c22795c5c225b2d315d2e2222"
  /\ parse_value_path (hx "5b3132333435363738393031323334353637385d") = POk [SIndex 123456789012345678%Z]
  /\ in_isize 9223372036854775808 = false /\ in_isize (-9223372036854775809) = false
  /\ (91%N :: render_int 9223372036854775808 ++ hx "5d") = hx "5b393232333337323033363835343737353830385d"
  /\ parse_value_path (hx "5b393232333337323033363835343737353830385d") = PErr
  /\ parse_value_path (hx "5b2d393232333337323033363835343737353830385d") = POk [SIndex (-9223372036854775808)%Z].
Proof. vm_compute. repeat split; congruence. Qed.
