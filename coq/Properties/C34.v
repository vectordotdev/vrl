(* C34 — Unused-expression warnings only flag removable code.
   Models: Model/Unused.v (the AstVisitor of src/compiler/unused_expression_checker.rs over a
   parser-level AST, its elaboration into Core VRL, statement deletion), Model/Eval.v (the runtime).

   The property as written is FALSE for the pinned checker (C34_*_refuted below, known_findings/C34.json):
   the visitor never looks for effects in the children of what it flags, flags `f!(..)` calls that sit
   under an error-catching `??`, forgets that a value is expected after it has visited a closure, and treats
   the left operand of `||` / `&&` / `??` as unused although its value decides whether the right operand runs.
   What holds, and is proved for every program, state and stdlib semantics F:
     - a flagged expression is a literal, an object, or a closure-free call of a function outside
       SIDE_EFFECT_FUNCTIONS (C34_flagged_shape);
     - syntactically effect-free expressions leave variables, event and metadata alone
       (C34_effect_free_pure);
     - a flagged root statement whose children are effect-free and cannot fail is removable
       (C34_removable_root_partial; fallible children: C34_removable_fallible_root_partial);
     - the same at every flagged position, blocks at any depth included (C34_removable_partial);
     - any set of effect-free infallible non-last statements, in blocks at any depth, can be deleted
       together (C34_removable_nested_partial).
   `faults s = []`: the Target rejects no operation (fault injection is C17's subject). *)
From Coq Require Import List NArith ZArith Bool String.
From VRL Require Import Base.Bytes Base.Value Base.Lit Model.ValueCrud Model.Expr Model.Eval Model.EvalInst Model.Unused
     Proofs.UnusedEvalProofs Proofs.UnusedProofs.
Import ListNotations.
Local Open Scope list_scope.

(* every expression warning points at a literal / object / plain call sitting at the reported position *)
Theorem C34_flagged_shape : forall (p : list pexpr) (q : pos) (c : wcls),
  In (q, c) (check_program p) -> exists x, psub p q = Some x /\ shape_ok c x = true.
Proof. exact flagged_shape. Qed.
Print Assumptions C34_flagged_shape.

(* purity: an effect-free expression changes nothing but the Target log and yields a value or a plain
   error; if it is moreover `total` (only functions that cannot fail on that many arguments) it yields a value *)
Theorem C34_effect_free_pure :
  forall (F : fname -> list value -> option value) (binop : opcode -> value -> value -> option value)
         (tf : fname -> nat -> bool),
    (forall f args, tf f (List.length args) = true -> F f args <> None) ->
    forall (e : pexpr) (s : state), faults s = [] ->
      (eff_free e = true ->
         core (snd (eval F binop (elab e) s)) = core s
         /\ match fst (eval F binop (elab e) s) with inl _ | inr Error => True | inr _ => False end)
      /\ (total tf e = true ->
         core (snd (eval F binop (elab e) s)) = core s
         /\ exists v, fst (eval F binop (elab e) s) = inl v).
Proof.
  intros F binop tf Htf e s Hs. split; intros H.
  - destruct (pure_eval F binop tf Htf e false H s Hs) as [[Hc _] Hok]. split; [symmetry; exact Hc|].
    destruct (fst (eval F binop (elab e) s)) as [v|[ | | | ]]; cbn in *; auto.
  - destruct (total_pure F binop tf Htf e H s Hs) as [v [s1 [E [Hc _]]]]. rewrite E. split; [symmetry; exact Hc|].
    exists v; reflexivity.
Qed.
Print Assumptions C34_effect_free_pure.

(* Full statement (false, see the refutations):
     forall p q c x, In (q, c) (check_program p) -> psub p q = Some x -> x cannot fail ->
       forall s, run (elab_prog (delete_at q p)) s and run (elab_prog p) s agree on success, event and metadata.
   Proved part: q is a non-last root statement and the flagged expression's children are `total`. *)
Theorem C34_removable_root_partial :
  forall (F : fname -> list value -> option value) (binop : opcode -> value -> value -> option value)
         (tf : fname -> nat -> bool),
    (forall f args, tf f (List.length args) = true -> F f args <> None) ->
    forall (pre : list pexpr) (x : pexpr) (post : list pexpr) (c : wcls),
      post <> [] ->
      In ([List.length pre], c) (check_program (pre ++ x :: post)) ->
      kids_total tf x = true ->
      forall s, faults s = [] ->
        fst (run F binop (elab_prog (pre ++ x :: post)) s) = fst (run F binop (elab_prog (pre ++ post)) s)
        /\ core (snd (run F binop (elab_prog (pre ++ x :: post)) s))
           = core (snd (run F binop (elab_prog (pre ++ post)) s)).
Proof.
  intros F binop tf Htf pre x post c Hne Hin Hk s Hs.
  destruct (removable_root_gen F binop tf Htf true pre x post c Hne Hin Hk s Hs) as [[Ht _]|H]; [discriminate Ht|exact H].
Qed.
Print Assumptions C34_removable_root_partial.

(* the flagged expression may fail (its children are only effect-free): a successful run stays the same run *)
Theorem C34_removable_fallible_root_partial :
  forall (F : fname -> list value -> option value) (binop : opcode -> value -> value -> option value)
         (pre : list pexpr) (x : pexpr) (post : list pexpr) (c : wcls),
      post <> [] ->
      In ([List.length pre], c) (check_program (pre ++ x :: post)) ->
      kids_eff_free x = true ->
      forall s v, faults s = [] ->
        fst (run F binop (elab_prog (pre ++ x :: post)) s) = Success v ->
        fst (run F binop (elab_prog (pre ++ post)) s) = Success v
        /\ core (snd (run F binop (elab_prog (pre ++ x :: post)) s))
           = core (snd (run F binop (elab_prog (pre ++ post)) s)).
Proof.
  intros F binop pre x post c Hne Hin Hk s v Hs Hv.
  destruct (removable_root_gen F binop (fun _ _ => false) ltac:(discriminate) false pre x post c Hne Hin Hk s Hs)
    as [[_ E]|[E Hc]]; [congruence|]. rewrite <- E. auto.
Qed.
Print Assumptions C34_removable_fallible_root_partial.

(* statements inside blocks, if/else blocks and closure bodies, at any depth: deleting every selected
   non-last statement, provided each of them is effect-free and cannot fail (sel_ok_prog checks exactly
   that), does not change the run *)
Theorem C34_removable_nested_partial :
  forall (F : fname -> list value -> option value) (binop : opcode -> value -> value -> option value)
         (tf : fname -> nat -> bool),
    (forall f args, tf f (List.length args) = true -> F f args <> None) ->
    forall (sel : pos -> bool) (p : list pexpr),
      sel_ok_prog (total tf) sel p = true ->
      forall s, faults s = [] ->
        fst (run F binop (elab_prog p) s) = fst (run F binop (elab_prog (pdel_prog sel p)) s)
        /\ core (snd (run F binop (elab_prog p) s)) = core (snd (run F binop (elab_prog (pdel_prog sel p)) s)).
Proof. intros F binop tf Htf. exact (pdel_run F binop tf Htf). Qed.
Print Assumptions C34_removable_nested_partial.

(* The property's main clause, for EVERY flagged position q (root, blocks, if/else blocks, closure bodies, at any
   depth) - full statement: without the hypothesis on the children (false, see the refutations).
   delete_at q p removes the statement at q when q is a non-last statement of a statement list and is the identity
   otherwise (operands, array elements, last statements: covered by the oracle only). *)
Theorem C34_removable_partial :
  forall (F : fname -> list value -> option value) (binop : opcode -> value -> value -> option value)
         (tf : fname -> nat -> bool),
    (forall f args, tf f (List.length args) = true -> F f args <> None) ->
    forall (p : list pexpr) (q : pos) (c : wcls) (x : pexpr),
      In (q, c) (check_program p) -> psub p q = Some x -> kids_total tf x = true ->
      forall s, faults s = [] ->
        fst (run F binop (elab_prog p) s) = fst (run F binop (elab_prog (delete_at q p)) s)
        /\ core (snd (run F binop (elab_prog p) s)) = core (snd (run F binop (elab_prog (delete_at q p)) s)).
Proof. intros F binop tf Htf. exact (removable_at F binop tf Htf). Qed.
Print Assumptions C34_removable_partial.

(* ---------- the unrestricted property is false ---------- *)

Local Open Scope string_scope.
Definition fld (s : string) : path := [SField (bs s)].

(* D10.  `{ "a": del(.foo) }` as a statement is reported "unused object ... no side-effects";
   deleting it changes the final event. *)
Theorem C34_object_refuted :
  exists (p : list pexpr) (s : state),
    In ([0], WObj) (check_program p) /\ faults s = [] /\ delete_at [0] p = tl p /\ tl p <> [] /\
    fst (run_inst (elab_prog p) s) = fst (run_inst (elab_prog (delete_at [0] p)) s) /\
    ev (snd (run_inst (elab_prog p) s)) <> ev (snd (run_inst (elab_prog (delete_at [0] p)) s)).
Proof.
  exists [PObj [(bs "a", PDelExt PEvent (fld "foo"))]; PAssign (TExt PEvent (fld "r")) (PLit (VInt 1))],
         (st0 [] (VObj [(bs "foo", VInt 1)]) (VObj [])).
  vm_compute. repeat split; auto; discriminate.
Qed.
Print Assumptions C34_object_refuted.

(* `is_null((.x = 1))` is reported "unused result for function call"; deleting it loses the assignment *)
Theorem C34_call_arg_refuted :
  exists (p : list pexpr) (s : state),
    In ([0], WCall) (check_program p) /\ faults s = [] /\ delete_at [0] p = tl p /\ tl p <> [] /\
    fst (run_inst (elab_prog p) s) = fst (run_inst (elab_prog (delete_at [0] p)) s) /\
    ev (snd (run_inst (elab_prog p) s)) <> ev (snd (run_inst (elab_prog (delete_at [0] p)) s)).
Proof.
  exists [PCall (bs "is_null") false [PGroup (PAssign (TExt PEvent (fld "x")) (PLit (VInt 1)))]; PLit (VInt 9)],
         (st0 [] (VObj []) (VObj [])).
  vm_compute. repeat split; auto; discriminate.
Qed.
Print Assumptions C34_call_arg_refuted.

(* `.r = { int!(.x); int(.z) } ?? 1`: the call `int!(.x)` (children effect-free) is reported unused, it can fail,
   and both the original and the edited program succeed - with different final events *)
Theorem C34_coalesce_refuted :
  exists (p : list pexpr) (q : pos) (s : state) (v v' : value),
    In (q, WCall) (check_program p) /\ faults s = [] /\
    (exists x, psub p q = Some x /\ kids_eff_free x = true) /\
    fst (run_inst (elab_prog p) s) = Success v /\
    fst (run_inst (elab_prog (delete_at q p)) s) = Success v' /\
    ev (snd (run_inst (elab_prog p) s)) <> ev (snd (run_inst (elab_prog (delete_at q p)) s)).
Proof.
  exists [PAssign (TExt PEvent (fld "r"))
            (POp OErr (PBlock [PCall (bs "int") true [PQExt PEvent (fld "x")];
                               PCall (bs "int") false [PQExt PEvent (fld "z")]]) (PLit (VInt 1)));
          PQExt PEvent []],
         [0; 0; 0; 0]%nat, (st0 [] (VObj [(bs "x", VBytes (bs "a")); (bs "z", VInt 5)]) (VObj [])).
  eexists. eexists. vm_compute. repeat split; auto.
  - eexists. split; reflexivity.
  - discriminate.
Qed.
Print Assumptions C34_coalesce_refuted.

(* `.q = [for_each({ "a": 1 }) -> |_, _| { 1 }, 5]`: after the closure the visitor marks the level as not
   expecting a result, so the literal 5 - an element of the array that is assigned - is reported unused;
   without it the final event differs *)
Theorem C34_closure_stale_refuted :
  exists (t : target) (c : pexpr) (s : state),
    In ([0; 0; 1]%nat, WLit) (check_program [PAssign t (PArr [c; PLit (VInt 5)])]) /\ faults s = [] /\
    fst (run_inst (elab_prog [PAssign t (PArr [c; PLit (VInt 5)])]) s) <> Failed /\
    ev (snd (run_inst (elab_prog [PAssign t (PArr [c; PLit (VInt 5)])]) s))
    <> ev (snd (run_inst (elab_prog [PAssign t (PArr [c])]) s)).
Proof.
  exists (TExt PEvent (fld "q")),
         (PClosure CForEach false (PObj [(bs "a", PLit (VInt 1))]) [[]; []] [PLit (VInt 1)]),
         (st0 [] (VObj []) (VObj [])).
  vm_compute. repeat split; auto; discriminate.
Qed.
Print Assumptions C34_closure_stale_refuted.

(* `{ .a; null } || { .x = 1 }` as a statement: the literal null - the value of the left operand of `||` - is reported
   unused; with it the right operand runs, without it (the block is then `{ .a }`) it does not *)
Theorem C34_short_circuit_refuted :
  exists (a : pexpr) (rhs : pexpr) (s : state),
    In ([0; 0; 1]%nat, WLit) (check_program [POp OOr (PBlock [a; PLit VNull]) rhs; PLit (VInt 9)]) /\ faults s = [] /\
    fst (run_inst (elab_prog [POp OOr (PBlock [a; PLit VNull]) rhs; PLit (VInt 9)]) s)
    = fst (run_inst (elab_prog [POp OOr (PBlock [a]) rhs; PLit (VInt 9)]) s) /\
    ev (snd (run_inst (elab_prog [POp OOr (PBlock [a; PLit VNull]) rhs; PLit (VInt 9)]) s))
    <> ev (snd (run_inst (elab_prog [POp OOr (PBlock [a]) rhs; PLit (VInt 9)]) s)).
Proof.
  exists (PQExt PEvent (fld "a")), (PBlock [PAssign (TExt PEvent (fld "x")) (PLit (VInt 1))]),
         (st0 [] (VObj [(bs "a", VBool true)]) (VObj [])).
  vm_compute. repeat split; auto; discriminate.
Qed.
Print Assumptions C34_short_circuit_refuted.

(* ---------- the hypotheses are satisfiable ---------- *)

(* is_null / is_string with one argument never fail in the executable instance *)
Definition tf_inst (f : fname) (n : nat) : bool :=
  Nat.eqb n 1 && (bytes_eqb f (bs "is_null") || bytes_eqb f (bs "is_string")).

Lemma tf_inst_total : forall f args, tf_inst f (List.length args) = true -> F_inst f args <> None.
Proof.
  intros f args H. unfold tf_inst in H. apply andb_true_iff in H. destruct H as [Hn Hf].
  destruct args as [|v [|w r]]; try discriminate.
  apply orb_true_iff in Hf. destruct Hf as [Hf|Hf]; apply bytes_eqb_eq in Hf; subst f; vm_compute; discriminate.
Qed.

(* "foo" ; is_null(.a) ; { "k": .b } ; .r = { "x"; 1 } ; .   -- three flagged root statements and a nested one *)
Definition ex_prog : list pexpr :=
  [PLit (VBytes (bs "foo"));
   PCall (bs "is_null") false [PQExt PEvent (fld "a")];
   PObj [(bs "k", PQExt PEvent (fld "b"))];
   PAssign (TExt PEvent (fld "r")) (PBlock [PLit (VBytes (bs "x")); PLit (VInt 1)]);
   PQExt PEvent []].

Example C34_example :
  check_program ex_prog = [([0], WLit); ([1], WCall); ([2], WObj); ([3; 0; 0], WLit)]%nat
  /\ (forall f args, tf_inst f (List.length args) = true -> F_inst f args <> None)
  /\ kids_total tf_inst (PCall (bs "is_null") false [PQExt PEvent (fld "a")]) = true
  /\ kids_total tf_inst (PObj [(bs "k", PQExt PEvent (fld "b"))]) = true
  /\ sel_ok_prog (total tf_inst) (pos_eqb [3; 0; 0]%nat) ex_prog = true
  /\ delete_at [3; 0; 0]%nat ex_prog =
     [PLit (VBytes (bs "foo")); PCall (bs "is_null") false [PQExt PEvent (fld "a")];
      PObj [(bs "k", PQExt PEvent (fld "b"))];
      PAssign (TExt PEvent (fld "r")) (PBlock [PLit (VInt 1)]); PQExt PEvent []]
  /\ kids_total tf_inst (PObj [(bs "a", PDelExt PEvent (fld "foo"))]) = false.
Proof. split; [vm_compute; reflexivity|]. split; [exact tf_inst_total|]. vm_compute. repeat split; reflexivity. Qed.
