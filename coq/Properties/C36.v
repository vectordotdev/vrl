(* C36 — results are independent of the configured timezone where they should be.
   In the runtime the timezone is a read-only field of Context that only stdlib functions can read
   (ctx.timezone()); in the model it is therefore a parameter of the function semantics F only. *)
From Coq Require Import List ZArith String.
From VRL Require Import Base.Value Base.Lit Model.Expr Model.Eval Model.EvalInst Model.Info Proofs.ExtProofs.
Import ListNotations.
Local Open Scope string_scope.
Local Open Scope list_scope.
Local Open Scope Z_scope.

(* If every function a program calls returns the same result under two timezones (for all arguments),
   then the whole run - result, event, metadata, variables, Target operations - is identical under
   both: the timezone can influence a program only through calls that are sensitive to it. *)
Theorem C36_timezone_reaches_programs_only_through_sensitive_calls :
  forall (TZ : Type) (Ftz : TZ -> fname -> list value -> option value) binop (es : list expr) (tz1 tz2 : TZ),
  (forall f, In f (fnames_l es) -> forall args, Ftz tz1 f args = Ftz tz2 f args) ->
  forall s, run (Ftz tz1) binop es s = run (Ftz tz2) binop es s.
Proof. intros TZ Ftz binop es tz1 tz2 H s. apply run_ext. exact H. Qed.
Print Assumptions C36_timezone_reaches_programs_only_through_sensitive_calls.

Theorem C36_expression_level :
  forall (TZ : Type) (Ftz : TZ -> fname -> list value -> option value) binop (e : expr) (tz1 tz2 : TZ),
  (forall f, In f (fnames e) -> forall args, Ftz tz1 f args = Ftz tz2 f args) ->
  forall s, eval (Ftz tz1) binop e s = eval (Ftz tz2) binop e s.
Proof. intros TZ Ftz binop e tz1 tz2 H s. apply eval_ext. exact H. Qed.
Print Assumptions C36_expression_level.

(* a program that calls no function at all cannot depend on the timezone, whatever Ftz is *)
Theorem C36_call_free_programs :
  forall (TZ : Type) (Ftz : TZ -> fname -> list value -> option value) binop es tz1 tz2,
  fnames_l es = [] -> forall s, run (Ftz tz1) binop es s = run (Ftz tz2) binop es s.
Proof. intros TZ Ftz binop es tz1 tz2 H s. apply run_ext. rewrite H. intros f []. Qed.
Print Assumptions C36_call_free_programs.

Example C36_example :
  fnames_l [EAssign (TVar (hx "78") []) (ECall (nm "int") [EQExt PEvent [SField (hx "61")]]);
            EIf [ECall (nm "is_null") [EVar (hx "78")]] [ELit (VInt 1)] None]
  = [nm "int"; nm "is_null"].
Proof. vm_compute. reflexivity. Qed.
