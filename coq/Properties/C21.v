(* C21 — JSON encoding round-trips.
   Model: Model/Json.v (src/stdlib/encode_json.rs, src/stdlib/parse_json.rs, src/stdlib/json_utils/bom.rs,
   src/value/value/serde.rs, and serde_json's printer/parser as those drive it); proofs in Proofs/Json*.v.

   `encode_json ff ft pretty v` is the VRL function (ff = the float printer, ft = the timestamp printer: library
   code, universally quantified); `parse_json` is the VRL function with its defaults (lossy UTF-8 conversion, BOM
   stripping, one value then only whitespace).  `jrep fok v` says v is JSON-representable: no timestamps or
   regexes, UTF-8 strings and keys, integers in i64, objects in BTreeMap form, floats finite and accepted by fok. *)
From Coq Require Import List NArith ZArith Bool String.
From Coq Require Import Floats.SpecFloat.
From VRL Require Import Base.Bytes Base.Value Base.Lit Model.Json
  Proofs.JsonTextProofs Proofs.JsonProofs Proofs.JsonTopProofs.
Import ListNotations.
Local Open Scope string_scope.
Local Open Scope list_scope.
Local Open Scope N_scope.

(* a string literal, as serde_json prints it, is read back exactly — every byte string: controls, quotes,
   backslashes, 0x7f, U+2028, astral characters, even ill-formed bytes (which never reach the printer) *)
Theorem C21_string_roundtrip : forall s : bytes, parse_doc (print_string s) = Some (VBytes s).
Proof.
  intros s. unfold parse_doc. rewrite <- (app_nil_r (print_string s)), parse_value_print_string. reflexivity.
Qed.
Print Assumptions C21_string_roundtrip.

(* through the VRL functions a Value::Bytes comes back as its lossy UTF-8 conversion, in both modes ... *)
Theorem C21_bytes_roundtrip : forall (ff : spec_float -> bytes) (ft : Z -> bytes) (pretty : bool) (b : bytes),
  parse_json (encode_json ff ft pretty (VBytes b)) = Some (VBytes (lossy_utf8 b)).
Proof.
  intros ff ft pretty b. pose proof (roundtrip_exact ff ft pretty (VBytes (lossy_utf8 b))) as H.
  cbn [jrep vdepth] in H. unfold encode_json in *. cbn [print_value] in *.
  rewrite lossy_idem in H. apply H; [apply lossy_is_valid | reflexivity].
Qed.
Print Assumptions C21_bytes_roundtrip.

(* ... which is the identity on UTF-8 strings *)
Theorem C21_utf8_lossy_id : forall s : bytes, utf8_ok s = true -> lossy_utf8 s = s.
Proof. exact lossy_id. Qed.
Print Assumptions C21_utf8_lossy_id.

(* every i64 is read back exactly (never as a float), in both modes *)
Theorem C21_int_roundtrip : forall (ff : spec_float -> bytes) (ft : Z -> bytes) (pretty : bool) (z : Z),
  in_i64 z = true -> parse_json (encode_json ff ft pretty (VInt z)) = Some (VInt z).
Proof. intros ff ft pretty z H. apply roundtrip_exact; [exact H | reflexivity]. Qed.
Print Assumptions C21_int_roundtrip.

(* every float-free representable value nested less than 128 deep is read back exactly, compact and pretty *)
Theorem C21_roundtrip : forall (ff : spec_float -> bytes) (ft : Z -> bytes) (pretty : bool) (v : value),
  jrep (fun _ => false) v = true -> vdepth v < 128 ->
  parse_json (encode_json ff ft pretty v) = Some v.
Proof. exact roundtrip_exact. Qed.
Print Assumptions C21_roundtrip.

(* with floats: whatever the float printer ff is, if the text it gives for each float of v is an ASCII number
   token that serde_json's float arithmetic reads back within one ulp (float_text_ok, decidable; evaluated on
   the implementation's texts by the correspondence run), v comes back equal up to one ulp per float *)
Theorem C21_roundtrip_floats : forall (ff : spec_float -> bytes) (ft : Z -> bytes) (pretty : bool) (v : value),
  jrep (fun f => float_text_ok (ff f) f) v = true -> vdepth v < 128 ->
  exists v', parse_json (encode_json ff ft pretty v) = Some v' /\ value_close v v' = true.
Proof. exact roundtrip_close. Qed.
Print Assumptions C21_roundtrip_floats.

(* "equal up to one ulp per float" is plain equality on float-free values *)
Theorem C21_float_free_close_eq : forall v v' : value,
  jrep (fun _ => false) v = true -> value_close v v' = true -> v' = v.
Proof. intros v v' H. exact (close_eq v H v'). Qed.
Print Assumptions C21_float_free_close_eq.

(* non-vacuity of C21_roundtrip_floats: the texts zmij prints for 0.5, 1e21, -0.0 and the smallest subnormal
   satisfy float_text_ok, and a nested value over them meets the hypotheses *)
Example C21_roundtrip_floats_nonvacuous :
  let ff := table_f64 [(f64_of_bits 0x3fe0000000000000, hx "302e35");            (* 0.5 *)
                       (f64_of_bits 0x444b1ae4d6e2ef50, hx "31652b3231");        (* 1e+21 *)
                       (f64_of_bits 0x8000000000000000, hx "2d302e30");          (* -0.0 *)
                       (f64_of_bits 0x0000000000000001, hx "35652d333234")] in   (* 5e-324 *)
  let v := VObj [(hx "61", VArr [VFloat (f64_of_bits 0x3fe0000000000000); VFloat (f64_of_bits 0x444b1ae4d6e2ef50);
                                 VBytes (hx "0a22e280a8f09f9880")]);
                 (hx "62", VObj [(hx "", VFloat (f64_of_bits 0x8000000000000000));
                                 (hx "7a", VFloat (f64_of_bits 0x0000000000000001))])] in
  jrep (fun f => float_text_ok (ff f) f) v = true /\ vdepth v < 128
  /\ parse_json (encode_json ff (fun _ => []) true v) = Some v.
Proof. vm_compute. repeat split. Qed.

(* FINDING (recursion limit): "any nesting" does not hold.  128 one-element arrays around 1 are printed by
   encode_json and rejected by parse_json (serde_json's remaining_depth starts at 128) *)
Example C21_depth_refuted :
  let v := Nat.iter 128 (fun x => VArr [x]) (VInt 1) in
  jrep (fun _ => false) v = true /\ vdepth v = 128
  /\ parse_json (encode_json (fun _ => []) (fun _ => []) false v) = None
  /\ parse_json (encode_json (fun _ => []) (fun _ => []) true v) = None.
Proof.
  intros v. assert (Hj : jrep (fun _ => false) v = true) by (vm_compute; reflexivity).
  assert (Hj' : jrep (fok (fun _ => [])) v = true) by (apply (jrep_mono no_float); [discriminate | exact Hj]).
  split; [exact Hj|]. split; [vm_compute; reflexivity|].
  split; apply (depth_limit _ _ _ (VInt 1) 127 Hj'), N.leb_le; reflexivity.
Qed.

(* FINDING (2 ulp): the float with bits 0x651faaa814d10597 = 0x1faaa814d10597 * 2^542 prints as
   1.2832144790256697e+179; that decimal is within half an ulp of the float (first conjunct: exact integer
   arithmetic), yet serde_json's arithmetic without float_roundtrip reads it two floats lower *)
Example C21_float_2ulp_refuted :
  let txt := hx "312e32383332313434373930323536363937652b313739" in
  let f := f64_of_bits 0x651faaa814d10597 in
  (Z.abs (12832144790256697 * 10 ^ 163 - 0x1faaa814d10597 * 2 ^ 542) < 2 ^ 541)%Z
  /\ f = S754_finite false 0x1faaa814d10597 542
  /\ parse_num_tok txt = Some (PF64 (f64_of_bits 0x651faaa814d10595), [])
  /\ float_text_ok txt f = false.
Proof. vm_compute. repeat split. Qed.

(* duplicate keys: the last one wins (BTreeMap::insert in document order), keys come back sorted *)
Example C21_duplicate_keys_last_wins :
  parse_json (hx "7b2262223a312c2261223a322c2262223a337d")          (* {"b":1,"a":2,"b":3} *)
  = Some (VObj [(hx "61", VInt 2); (hx "62", VInt 3)]).
Proof. vm_compute. reflexivity. Qed.
