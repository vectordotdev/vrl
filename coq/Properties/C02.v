(* C02 — accepted programs without `!` or `abort` never fail at runtime.
   Model: Model/TypeInfo.v (fallibility of `type_info`) against the evaluator Model/Eval.v. *)
From Coq Require Import List ZArith.
From VRL Require Import Base.Value Base.Lit Model.Kind Model.Expr Model.Eval Model.EvalInst Model.TypeInfo
  Model.TypeInfoInst Model.TypeWitnesses Model.KindDomains Model.TypeFragment Proofs.TypeSoundProofs.
Import ListNotations.
Local Open Scope string_scope.
Local Open Scope list_scope.
Local Open Scope Z_scope.

(* FULL STATEMENT NOT PROVED (C02_infallible_never_errors): for every program outside the known classes
   (program_reason = 0), an expression typed infallible does not evaluate to an error in a conforming
   state (given a function table sound for F), except for the NaN error of float arithmetic.
   It is false without the exclusion; each theorem below is a program without `!` and `abort` that
   the compiler types as infallible and that fails at run time. *)

(* .a = 1; x = (.a.q || "s"); x && true — a left operand of || that can only be missing is typed always-true *)
Theorem C02_or_undefined_refuted :
  w_fallible w_or_undefined = false /\ w_reason w_or_undefined = 123%N
  /\ fst (w_run w_or_undefined (VObj [])) = Failed.
Proof. vm_compute. auto. Qed.

(* x = if .c == true { true } else { {"a": 1} }; x.b = .zz; x.a + 1 — insert through a slot that need not hold
   the object keeps its fields required (C19-insert-coerce-keeps-required) *)
Theorem C02_insert_coerce_refuted :
  w_fallible w_coerce = false /\ w_reason w_coerce = 103%N /\ fst (w_run w_coerce ev_c_true) = Failed.
Proof. vm_compute. auto. Qed.

(* .x = [1, "a", true, 7]; del(.x[0]); .x[3] + 1 — remove_shift (C19-remove-shift-one-only) *)
Theorem C02_remove_shift_refuted :
  w_fallible w_remove_shift = false /\ w_reason w_remove_shift = 107%N
  /\ fst (w_run w_remove_shift (VObj [])) = Failed.
Proof. vm_compute. auto. Qed.

(* .a = 1; for_each([1]) -> |k, v| { .a = "s"; null }; .a + 1 — a closure body's effects are dropped *)
Theorem C02_closure_effect_refuted :
  w_fallible w_closure_event = false /\ w_reason w_closure_event = 122%N
  /\ fst (w_run w_closure_event (VObj [])) = Failed.
Proof. vm_compute. auto. Qed.

(* true && .i — with a constant-true left operand Op::type_info keeps the right operand's fallibility
   but never checks its kind against null-or-boolean; `true && -7` fails *)
Theorem C02_and_true_rhs_refuted :
  w_fallible w_and_true = false /\ w_reason w_and_true = 130%N /\ fst (w_run w_and_true ev_i_int) = Failed.
Proof. vm_compute. auto. Qed.

(* (1 / 0) / 7 — the type of a division starts from a fresh TypeDef::float(), so with a constant non-zero
   divisor the whole expression is infallible whatever the left operand is: the failing inner division
   goes unnoticed *)
Theorem C02_div_lhs_fallible_refuted :
  w_fallible w_div_lhs = false /\ w_reason w_div_lhs = 131%N /\ fst (w_run w_div_lhs (VObj [])) = Failed.
Proof. vm_compute. auto. Qed.

(* the documented exception is modelled: a constant float operation that produces NaN (here inf - inf,
   both built by constant multiplication) is typed fallible, and it fails at run time *)
Example C02_nan_exception_typed :
  let big := ELit (VFloat (f64_of_bits 0x7fe0000000000000)) in
  let inf := EOp OMul big big in
  td_fal (snd (type_info_inst inf ts_default)) = false
  /\ td_fal (snd (type_info_inst (EOp OSub inf inf) ts_default)) = true
  /\ fst (w_run [EOp OSub inf inf] (VObj [])) = Failed.
Proof. vm_compute. auto. Qed.

(* What is proved: no failure on the straight-line fragment (Model/TypeFragment.v). *)

(* a statement of the fragment (an effect-free expression or its assignment, see Properties/C01.v), typed
   in a state the run-time state conforms to, never ends in an error, an abort, a return or a panic —
   for every function table *)
Theorem C02_statement_never_errors_partial :
  forall (F : fname -> list value -> option value) (T : fname -> list tdef -> list tdef -> tdef)
         (e : expr) (G : tstate) (s : state) (c : err) (s' : state),
  stmt_ok binop_inst T e G = true -> conf G s -> eval F binop_inst e s <> (inr c, s').
Proof.
  intros F T e G s c s' Hok Hc.
  destruct (stmt_sound F binop_inst T binop_inst_cmp e G s Hok Hc) as (v & s1 & Hev & _).
  rewrite Hev. discriminate.
Qed.
Print Assumptions C02_statement_never_errors_partial.

(* C02 for straight-line programs of the fragment: whatever the conforming event and metadata, the run
   succeeds (no `Failed`, no abort, no panic).  The `!` on a non-boolean and the failing arithmetic that
   make programs fallible are outside the fragment; every statement is judged in the type state the
   compiler has before it, so the theorem does use the compiler's kinds (e.g. for `!x`). *)
Theorem C02_straightline_never_fails_partial :
  forall (es : list expr) (ek mk : kind) (event meta : value),
  es <> [] -> stmts_ok binop_inst T_inst es (ts0 ek mk) = true ->
  member event ek = true -> wf_value event = true -> member meta mk = true -> wf_value meta = true ->
  exists v, fst (run_typed es (st0 [] event meta)) = Success v.
Proof.
  intros es ek mk event meta Hne Hok He Hwe Hm Hwm.
  destruct (run_sound F_typed binop_inst T_inst binop_inst_cmp es _ _ Hne Hok (conf_init ek mk event meta He Hwe Hm Hwm))
    as (v & s' & Hr & _).
  exists v. unfold run_typed. rewrite Hr. reflexivity.
Qed.
Print Assumptions C02_straightline_never_fails_partial.
