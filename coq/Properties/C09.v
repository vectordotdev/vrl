(* C09 — short-circuit and conditional evaluation are exact.
   C09_or, C09_and and C09_if repeat the clause of Model/Eval.eval for `||`, `&&` and `if`: they hold by
   computation, and say something about vrl only through the correspondence check that runs the model
   against the implementation.  The corollaries below them are the statements of the property. *)
From Coq Require Import List ZArith String.
From VRL Require Import Base.Value Base.Lit Model.Expr Model.Eval Model.EvalInst Proofs.EvalProofs.
Import ListNotations.
Local Open Scope string_scope.
Local Open Scope list_scope.
Local Open Scope Z_scope.

Theorem C09_or :
  forall F binop a b s,
  eval F binop (EOp OOr a b) s =
  match eval F binop a s with
  | (inl v, s') => if falsy v then eval F binop b s' else (inl v, s')
  | (inr er, s') => (inr er, s')
  end.
Proof. exact eval_or. Qed.
Print Assumptions C09_or.

(* a truthy: yields a, b not evaluated (state unchanged after a) *)
Theorem C09_or_skips_rhs :
  forall F binop a b s v s', eval F binop a s = (inl v, s') -> falsy v = false ->
  eval F binop (EOp OOr a b) s = (inl v, s').
Proof. intros F binop a b s v s' H Hf. rewrite eval_or, H, Hf. reflexivity. Qed.
Print Assumptions C09_or_skips_rhs.

Theorem C09_or_yields_rhs :
  forall F binop a b s v s', eval F binop a s = (inl v, s') -> falsy v = true ->
  eval F binop (EOp OOr a b) s = eval F binop b s'.
Proof. intros F binop a b s v s' H Hf. rewrite eval_or, H, Hf. reflexivity. Qed.
Print Assumptions C09_or_yields_rhs.

Theorem C09_and :
  forall F binop a b s,
  eval F binop (EOp OAnd a b) s =
  match eval F binop a s with
  | (inl v, s') =>
      if falsy v then (inl (VBool false), s')
      else match eval F binop b s' with
           | (inl w, s'') => (match try_and v w with Some r => inl r | None => inr Error end, s'')
           | (inr er, s'') => (inr er, s'')
           end
  | (inr er, s') => (inr er, s')
  end.
Proof. exact eval_and. Qed.
Print Assumptions C09_and.

Theorem C09_and_skips_rhs :
  forall F binop a b s v s', eval F binop a s = (inl v, s') -> falsy v = true ->
  eval F binop (EOp OAnd a b) s = (inl (VBool false), s').
Proof. intros F binop a b s v s' H Hf. rewrite eval_and, H, Hf. reflexivity. Qed.
Print Assumptions C09_and_skips_rhs.

Theorem C09_and_conjunction :
  forall F binop a b s s' w s'',
  eval F binop a s = (inl (VBool true), s') -> eval F binop b s' = (inl w, s'') ->
  eval F binop (EOp OAnd a b) s =
  (match w with VBool y => inl (VBool y) | VNull => inl (VBool false) | _ => inr Error end, s'').
Proof. intros F binop a b s s' w s'' H H2. rewrite eval_and, H. cbn [falsy]. rewrite H2. destruct w; reflexivity. Qed.
Print Assumptions C09_and_conjunction.

(* if: exactly one branch, chosen by the boolean predicate; null for a missing else *)
Theorem C09_if :
  forall F binop c t f s,
  eval F binop (EIf c t f) s =
  match blk F binop c s with
  | (inl v, s') =>
      match try_boolean v with
      | Some true => blk F binop t s'
      | Some false => match f with Some fb => blk F binop fb s' | None => (inl VNull, s') end
      | None => (inr Error, s')
      end
  | (inr er, s') => (inr er, s')
  end.
Proof. exact eval_if. Qed.
Print Assumptions C09_if.

Theorem C09_if_missing_else_is_null :
  forall F binop c t s s', blk F binop c s = (inl (VBool false), s') ->
  eval F binop (EIf c t None) s = (inl VNull, s').
Proof. exact if_false_no_else. Qed.
Print Assumptions C09_if_missing_else_is_null.

Example C09_example :
  let s := st0 [] (VObj []) (VObj []) in
  let mark k := EAssign (TExt PEvent [SField (hx k)]) (ELit (VBool true)) in
  run_core
    [EOp OOr (ELit (VInt 5)) (mark "61");
     EOp OAnd (ELit VNull) (mark "62");
     EIf [ELit (VBool false)] [mark "63"] None] s
  = (Success VNull, [], VObj [], VObj []).
Proof. vm_compute. reflexivity. Qed.
