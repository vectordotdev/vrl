(* C04 — compiling and running never panics the host.
   PARTIAL by nature: the lexer, the LALRPOP parser, the compiler, codespan and ~190 Rust functions
   have no Gallina model; for them the property is judged on the implementation (catch_unwind,
   process aborts observed by the driver).  What is proved is the runtime part on the Core-VRL model:
   the model marks with the outcome Panic exactly the two `expect`s of the modelled runtime
   (Block::resolve on an empty block; filter's "compiler guarantees boolean return type") and nothing
   else can panic. *)
From Coq Require Import List ZArith String.
From VRL Require Import Base.Value Base.Lit Model.Expr Model.Eval Model.EvalInst Proofs.PanicProofs.
Import ListNotations.
Local Open Scope string_scope.
Local Open Scope Z_scope.

(* a program without empty blocks and without filter closures never panics: every state, every fault
   schedule of the target, every function and operator semantics *)
Theorem C04_core_programs_never_panic_partial :
  forall F binop (es : list expr) (s : state),
  nonempty es = true -> pfl es = true -> fst (run F binop es s) <> Panicked.
Proof. exact run_no_panic. Qed.
Print Assumptions C04_core_programs_never_panic_partial.

Theorem C04_core_expressions_never_panic_partial :
  forall F binop (e : expr), pf e = true -> forall s, no_panic (fst (eval F binop e s)).
Proof. exact eval_no_panic. Qed.
Print Assumptions C04_core_expressions_never_panic_partial.

(* the excluded site is a real panic site of the model: a filter closure whose body yields a
   non-boolean (the compiler is relied upon to prevent this - C01) *)
Example C04_filter_expect_is_a_panic_site :
  fst (run_core [EClosure CFilter (ELit (VArr [VInt 1])) [hx "69"; hx "76"] [ELit (VInt 7)]]
                (st0 [] (VObj []) (VObj []))) = (Panicked, [], VObj []).
Proof. vm_compute. reflexivity. Qed.

Example C04_nonvacuous :
  pfl [EAssign (TVar (hx "78") []) (EClosure CMapValues (ELit (VArr [VInt 1])) [hx "76"] [EVar (hx "76")]);
       EIf [ELit (VBool true)] [EReturn (EVar (hx "78"))] None] = true.
Proof. vm_compute. reflexivity. Qed.
