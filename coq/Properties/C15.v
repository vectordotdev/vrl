(* C15 — read-only paths are never modified.
   Model: CompileConfig::is_read_only_path / can_start_with and the two compile-time checks that
   consult it (Model/ReadOnly.v), the runtime of Model/Eval.v.

   Full statement of the property: accepted program => for every read-only path P the value at P
   after the run equals the value before (recursive: hence everything below).  It is FALSE of the
   code in three classes of input (witnesses below, each confirmed on the implementation):
     - a write through an index segment that aliases or renumbers an index segment of P
       (can_start_with compares indices syntactically);
     - P not recursive and a write strictly below P (accepted by design);
     - (not refuted, not proved) compacting deletions next to P.
   Proved: the statement for recursive P when P and the written paths are field-only and deletions
   do not compact. *)
From Coq Require Import List ZArith String.
From VRL Require Import Base.Value Base.Lit Model.ValueCrud Model.Expr Model.Eval Model.EvalInst Model.Info
  Model.ReadOnly Proofs.EvalProofs Proofs.InfoProofs Proofs.ReadOnlyProofs.
Import ListNotations.
Local Open Scope string_scope.
Local Open Scope list_scope.
Local Open Scope Z_scope.

Theorem C15_recursive_read_only_unchanged_partial :
  forall F binop (cfg : list ro_path) (es : list expr) (s : state) (r : ro_path),
  ro_accepts cfg es = true -> no_compact_del es = true ->
  In r cfg -> ro_rec r = true -> fields_only (ro_p r) = true ->
  (forall w, In w (writes es) -> fields_only (snd w) = true) ->
  get (tval (snd (run F binop es s)) (ro_pfx r)) (ro_p r) = get (tval s (ro_pfx r)) (ro_p r).
Proof. exact accepted_keeps_recursive_read_only. Qed.
Print Assumptions C15_recursive_read_only_unchanged_partial.

(* the invariant behind it, for any program (no read-only configuration involved): a location that is
   separate from every reported assignment path and every reported (non-compacting) del path keeps
   its value through the run *)
Theorem C15_separate_locations_kept :
  forall F binop (es : list expr) (s : state) (pfx : prefix) (P : path),
  (forall q, In (pfx, q) (assigns_l es) -> sep q P) ->
  (forall c q, In (Some c, (pfx, q)) (queries_l es) -> sep q P /\ c = false) ->
  get (tval (snd (run F binop es s)) pfx) P = get (tval s pfx) P.
Proof. exact run_keeps. Qed.
Print Assumptions C15_separate_locations_kept.

(* read-only .arr[1] (recursive): .arr[-1] = 9 is accepted and rewrites it *)
Example C15_negative_index_alias_refuted :
  let cfg := [mkRo PEvent [SField (hx "617272"); SIndex 1] true] in
  let prog := [EAssign (TExt PEvent [SField (hx "617272"); SIndex (-1)]) (ELit (VInt 9))] in
  let s := st0 [] (VObj [(hx "617272", VArr [VInt 0; VInt 1])]) (VObj []) in
  ro_accepts cfg prog = true /\
  get (ev (snd (run_inst prog s))) [SField (hx "617272"); SIndex 1] = Some (VInt 9) /\
  get (ev s) [SField (hx "617272"); SIndex 1] = Some (VInt 1).
Proof. vm_compute. repeat split; reflexivity. Qed.

(* read-only .a, not recursive, holding a scalar: .a.b = 1 is accepted and replaces it *)
Example C15_nonrecursive_parent_refuted :
  let cfg := [mkRo PEvent [SField (hx "61")] false] in
  let prog := [EAssign (TExt PEvent [SField (hx "61"); SField (hx "62")]) (ELit (VInt 1))] in
  let s := st0 [] (VObj [(hx "61", VInt 5)]) (VObj []) in
  ro_accepts cfg prog = true /\
  get (ev (snd (run_inst prog s))) [SField (hx "61")] = Some (VObj [(hx "62", VInt 1)]) /\
  get (ev s) [SField (hx "61")] = Some (VInt 5).
Proof. vm_compute. repeat split; reflexivity. Qed.

(* the hypotheses are satisfiable by a program that does write and delete next to the read-only path *)
Example C15_nonvacuous :
  let cfg := [mkRo PEvent [SField (hx "61"); SField (hx "62")] true] in
  let prog := [EAssign (TExt PEvent [SField (hx "61"); SField (hx "63")]) (ELit (VInt 1));
               EDelExt PEvent [SField (hx "64")] false] in
  ro_accepts cfg prog = true /\ no_compact_del prog = true /\
  forallb (fun w => fields_only (snd w)) (writes prog) = true /\
  ro_accepts cfg [EAssign (TExt PEvent [SField (hx "61")]) (ELit (VInt 1))] = false /\
  ro_accepts cfg [EDelExt PEvent [SField (hx "61"); SField (hx "62"); SField (hx "7a")] false] = false.
Proof. vm_compute. repeat split; reflexivity. Qed.
