(* Byte strings as lists of N (each element < 256 when well-formed).
   Lexicographic order = Rust's Ord on [u8] / str (BTreeMap<KeyString,_> iteration order). *)
From Coq Require Import List NArith Bool Lia.
Import ListNotations.

Definition bytes := list N.

Fixpoint bytes_eqb (a b : bytes) : bool :=
  match a, b with
  | [], [] => true
  | x :: a', y :: b' => N.eqb x y && bytes_eqb a' b'
  | _, _ => false
  end.

Fixpoint bytes_cmp (a b : bytes) : comparison :=
  match a, b with
  | [], [] => Eq
  | [], _ :: _ => Lt
  | _ :: _, [] => Gt
  | x :: a', y :: b' =>
      match N.compare x y with
      | Eq => bytes_cmp a' b'
      | c => c
      end
  end.

Definition bytes_ltb (a b : bytes) : bool :=
  match bytes_cmp a b with Lt => true | _ => false end.

Definition wf_bytes (b : bytes) : bool := forallb (fun x => N.ltb x 256) b.

Lemma wf_bytes_cons x b : wf_bytes (x :: b) = true <-> (x < 256)%N /\ wf_bytes b = true.
Proof. unfold wf_bytes. cbn [forallb]. rewrite andb_true_iff, N.ltb_lt. tauto. Qed.

Lemma wf_app (a b : bytes) : wf_bytes a = true -> wf_bytes b = true -> wf_bytes (a ++ b) = true.
Proof. unfold wf_bytes. intros Ha Hb. rewrite forallb_app, Ha, Hb. reflexivity. Qed.

Lemma wf_bytes_split n b : wf_bytes b = true -> wf_bytes (firstn n b) = true /\ wf_bytes (skipn n b) = true.
Proof.
  intros H. rewrite <- (firstn_skipn n b) in H. unfold wf_bytes in *. rewrite forallb_app in H.
  apply andb_true_iff, H.
Qed.

Lemma bytes_eqb_eq a b : bytes_eqb a b = true <-> a = b.
Proof.
  revert b; induction a as [|x a IH]; intros [|y b]; cbn; try (split; congruence).
  rewrite andb_true_iff, N.eqb_eq, IH. split; [intros [-> ->]; reflexivity | intros H; inversion H; auto].
Qed.

Lemma bytes_eqb_refl a : bytes_eqb a a = true.
Proof. apply bytes_eqb_eq; reflexivity. Qed.

Lemma bytes_eqb_neq a b : bytes_eqb a b = false <-> a <> b.
Proof.
  split.
  - intros H E. apply bytes_eqb_eq in E. congruence.
  - intros H. destruct (bytes_eqb a b) eqn:E; [apply bytes_eqb_eq in E; contradiction | reflexivity].
Qed.

Lemma bytes_eqb_spec a b : reflect (a = b) (bytes_eqb a b).
Proof. apply iff_reflect. symmetry. apply bytes_eqb_eq. Qed.

Lemma bytes_eqb_sym a b : bytes_eqb a b = bytes_eqb b a.
Proof.
  destruct (bytes_eqb a b) eqn:E.
  - apply bytes_eqb_eq in E; subst; symmetry; apply bytes_eqb_refl.
  - symmetry; apply bytes_eqb_neq; apply bytes_eqb_neq in E; congruence.
Qed.

Lemma bytes_cmp_eq a b : bytes_cmp a b = Eq <-> a = b.
Proof.
  revert b; induction a as [|x a IH]; intros [|y b]; cbn; try (split; congruence).
  destruct (N.compare_spec x y) as [E|L|G].
  - subst. rewrite IH. split; [intros ->; reflexivity | intros H; inversion H; auto].
  - split; [discriminate | intros H; inversion H; lia].
  - split; [discriminate | intros H; inversion H; lia].
Qed.

Lemma bytes_cmp_refl a : bytes_cmp a a = Eq.
Proof. apply bytes_cmp_eq; reflexivity. Qed.

Lemma bytes_cmp_antisym a b : bytes_cmp b a = CompOpp (bytes_cmp a b).
Proof.
  revert b; induction a as [|x a IH]; intros [|y b]; cbn; auto.
  rewrite (N.compare_antisym x y). destruct (N.compare x y); cbn; auto.
Qed.

Lemma bytes_cmp_lt_trans a b c :
  bytes_cmp a b = Lt -> bytes_cmp b c = Lt -> bytes_cmp a c = Lt.
Proof.
  revert b c; induction a as [|x a IH]; intros [|y b] [|z c]; cbn; try congruence.
  destruct (N.compare_spec x y) as [E|L|G]; try discriminate.
  - subst y. destruct (N.compare_spec x z); try discriminate; auto. intros; eapply IH; eauto.
  - intros _. destruct (N.compare_spec y z) as [E|L'|G]; try discriminate.
    + subst. intros _. destruct (N.compare_spec x z); try lia; auto.
    + intros _. destruct (N.compare_spec x z); try lia; auto.
Qed.

Lemma bytes_cmp_trichotomy a b :
  (bytes_cmp a b = Lt /\ a <> b /\ bytes_cmp b a = Gt) \/
  (bytes_cmp a b = Eq /\ a = b) \/
  (bytes_cmp a b = Gt /\ a <> b /\ bytes_cmp b a = Lt).
Proof.
  rewrite (bytes_cmp_antisym a b).
  destruct (bytes_cmp a b) eqn:E; cbn.
  - right; left; split; auto. apply bytes_cmp_eq; auto.
  - left; repeat split; auto. intros H; apply bytes_cmp_eq in H; congruence.
  - right; right; repeat split; auto. intros H; apply bytes_cmp_eq in H; congruence.
Qed.

Lemma cmp_lt_neq a b : bytes_cmp a b = Lt -> a <> b.
Proof. intros H ->. rewrite bytes_cmp_refl in H. discriminate. Qed.

Lemma bytes_eqb_cmp a b : bytes_eqb a b = match bytes_cmp a b with Eq => true | _ => false end.
Proof.
  destruct (bytes_cmp a b) eqn:E.
  1: apply bytes_eqb_eq, bytes_cmp_eq, E.
  all: apply bytes_eqb_neq; intros ->; rewrite bytes_cmp_refl in E; discriminate.
Qed.

Lemma bytes_ltb_lt a b : bytes_ltb a b = true <-> bytes_cmp a b = Lt.
Proof. unfold bytes_ltb. destruct (bytes_cmp a b); split; congruence. Qed.
