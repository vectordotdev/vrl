(* VRL values (src/value/value.rs `enum Value`) and the BTreeMap / Vec primitives the
   implementation uses on them.  Objects are association lists kept sorted by key bytes
   (BTreeMap<KeyString,_> order); the laws of obj_get after obj_set and obj_remove hold without sortedness. *)
From Coq Require Import List ZArith Bool.
From Coq Require Import Floats.SpecFloat.
From VRL Require Import Base.Bytes.
Import ListNotations.

Inductive value :=
| VBytes (b : bytes)
| VRegex (src : bytes)
| VInt (z : Z)
| VFloat (f : spec_float)
| VBool (b : bool)
| VTs (ns : Z)                         (* nanoseconds since the epoch, UTC *)
| VObj (kvs : list (bytes * value))
| VArr (vs : list value)
| VNull.

Section value_ind_nested.
  Variable P : value -> Prop.
  Hypothesis Hbytes : forall b, P (VBytes b).
  Hypothesis Hregex : forall b, P (VRegex b).
  Hypothesis Hint : forall z, P (VInt z).
  Hypothesis Hfloat : forall f, P (VFloat f).
  Hypothesis Hbool : forall b, P (VBool b).
  Hypothesis Hts : forall n, P (VTs n).
  Hypothesis Hobj : forall kvs, Forall (fun kv => P (snd kv)) kvs -> P (VObj kvs).
  Hypothesis Harr : forall vs, Forall P vs -> P (VArr vs).
  Hypothesis Hnull : P VNull.

  Fixpoint value_ind' (v : value) : P v :=
    match v with
    | VBytes b => Hbytes b
    | VRegex b => Hregex b
    | VInt z => Hint z
    | VFloat f => Hfloat f
    | VBool b => Hbool b
    | VTs n => Hts n
    | VObj kvs =>
        Hobj kvs ((fix go (l : list (bytes * value)) : Forall (fun kv => P (snd kv)) l :=
                     match l with
                     | [] => Forall_nil _
                     | kv :: l' => Forall_cons kv (value_ind' (snd kv)) (go l')
                     end) kvs)
    | VArr vs =>
        Harr vs ((fix go (l : list value) : Forall P l :=
                    match l with
                    | [] => Forall_nil _
                    | x :: l' => Forall_cons x (value_ind' x) (go l')
                    end) vs)
    | VNull => Hnull
    end.
End value_ind_nested.

(* ---------- structural equality ---------- *)

Definition sf_eqb (a b : spec_float) : bool :=
  match a, b with
  | S754_zero s, S754_zero t => Bool.eqb s t
  | S754_infinity s, S754_infinity t => Bool.eqb s t
  | S754_nan, S754_nan => true
  | S754_finite s m e, S754_finite t n f => Bool.eqb s t && Pos.eqb m n && Z.eqb e f
  | _, _ => false
  end.

Lemma sf_eqb_eq a b : sf_eqb a b = true <-> a = b.
Proof.
  destruct a, b; cbn; try (split; congruence).
  - rewrite Bool.eqb_true_iff. split; congruence.
  - rewrite Bool.eqb_true_iff. split; congruence.
  - rewrite !andb_true_iff, Bool.eqb_true_iff, Pos.eqb_eq, Z.eqb_eq.
    split; [intros [[-> ->] ->]; reflexivity | intros H; inversion H; auto].
Qed.

Fixpoint value_eqb (a b : value) {struct a} : bool :=
  match a, b with
  | VBytes x, VBytes y => bytes_eqb x y
  | VRegex x, VRegex y => bytes_eqb x y
  | VInt x, VInt y => Z.eqb x y
  | VFloat x, VFloat y => sf_eqb x y
  | VBool x, VBool y => Bool.eqb x y
  | VTs x, VTs y => Z.eqb x y
  | VObj x, VObj y =>
      (fix go (l1 l2 : list (bytes * value)) {struct l1} : bool :=
         match l1, l2 with
         | [], [] => true
         | (k1, v1) :: r1, (k2, v2) :: r2 => bytes_eqb k1 k2 && value_eqb v1 v2 && go r1 r2
         | _, _ => false
         end) x y
  | VArr x, VArr y =>
      (fix go (l1 l2 : list value) {struct l1} : bool :=
         match l1, l2 with
         | [], [] => true
         | v1 :: r1, v2 :: r2 => value_eqb v1 v2 && go r1 r2
         | _, _ => false
         end) x y
  | VNull, VNull => true
  | _, _ => false
  end.

Lemma value_eqb_eq a : forall b, value_eqb a b = true <-> a = b.
Proof.
  induction a using value_ind'; intros [ ]; cbn; try (split; congruence).
  - rewrite bytes_eqb_eq; split; congruence.
  - rewrite bytes_eqb_eq; split; congruence.
  - rewrite Z.eqb_eq; split; congruence.
  - rewrite sf_eqb_eq; split; congruence.
  - rewrite Bool.eqb_true_iff; split; congruence.
  - rewrite Z.eqb_eq; split; congruence.
  - rename kvs0 into l2. revert l2.
    induction H as [|[k1 v1] r1 Hv Hr IH]; intros [|[k2 v2] r2]; try (split; congruence).
    rewrite !andb_true_iff, bytes_eqb_eq. cbn in Hv. rewrite Hv.
    specialize (IH r2). split.
    + intros [[-> ->] Hgo]. apply IH in Hgo. congruence.
    + intros E. inversion E; subst. repeat split; auto. apply IH. reflexivity.
  - rename vs0 into l2. revert l2.
    induction H as [|v1 r1 Hv Hr IH]; intros [|v2 r2]; try (split; congruence).
    rewrite !andb_true_iff, Hv. specialize (IH r2). split.
    + intros [-> Hgo]. apply IH in Hgo. congruence.
    + intros E. inversion E; subst. split; auto. apply IH. reflexivity.
Qed.

Lemma value_eqb_refl a : value_eqb a a = true.
Proof. apply value_eqb_eq; reflexivity. Qed.

(* ---------- BTreeMap<KeyString, Value> ---------- *)

Definition obj := list (bytes * value).

Fixpoint obj_get (m : obj) (k : bytes) : option value :=
  match m with
  | [] => None
  | (k', v) :: m' => if bytes_eqb k' k then Some v else obj_get m' k
  end.

(* BTreeMap::insert: replace in place, or insert at the sorted position *)
Fixpoint obj_set (m : obj) (k : bytes) (x : value) : obj :=
  match m with
  | [] => [(k, x)]
  | (k', v) :: m' =>
      match bytes_cmp k' k with
      | Lt => (k', v) :: obj_set m' k x
      | Eq => (k, x) :: m'
      | Gt => (k, x) :: (k', v) :: m'
      end
  end.

(* BTreeMap::remove (first occurrence; keys are unique in a sorted map) *)
Fixpoint obj_remove (m : obj) (k : bytes) : obj :=
  match m with
  | [] => []
  | (k', v) :: m' => if bytes_eqb k' k then m' else (k', v) :: obj_remove m' k
  end.

Fixpoint obj_sorted (m : obj) : bool :=
  match m with
  | [] => true
  | (k, _) :: m' =>
      match m' with
      | [] => true
      | (k', _) :: _ => bytes_ltb k k' && obj_sorted m'
      end
  end.

Definition obj_keys (m : obj) : list bytes := map fst m.

Lemma obj_get_in m f w : obj_get m f = Some w -> In (f, w) m.
Proof.
  induction m as [|[k y] m IH]; cbn; [discriminate|].
  destruct (bytes_eqb k f) eqn:E; auto.
  apply bytes_eqb_eq in E; subst. intros H; inversion H; auto.
Qed.

Lemma obj_get_notin m k : ~ In k (map fst m) -> obj_get m k = None.
Proof.
  induction m as [|[k' v] m IH]; [reflexivity|]. cbn [obj_get map fst In]. intros H.
  destruct (bytes_eqb k' k) eqn:E; [apply bytes_eqb_eq in E; tauto | apply IH; tauto].
Qed.

Lemma nodup_in_get m : NoDup (map fst m) -> forall k v, In (k, v) m -> obj_get m k = Some v.
Proof.
  induction m as [|[k' v'] m IH]; intros Hnd k v Hin; [destruct Hin|].
  cbn [map fst] in Hnd. apply NoDup_cons_iff in Hnd as [Hk Hnd]. cbn [obj_get].
  destruct Hin as [[= -> ->]|Hin]; [rewrite bytes_eqb_refl; reflexivity|].
  rewrite (proj2 (bytes_eqb_neq k' k)); [apply IH; assumption|].
  intros ->. apply Hk. exact (in_map fst _ _ Hin).
Qed.

(* obj_set puts the new pair in front of what is left, except behind a smaller key *)
Lemma obj_get_set_same m k x : obj_get (obj_set m k x) k = Some x.
Proof.
  induction m as [|[k' v] m IH]; cbn; [|destruct (bytes_cmp k' k) eqn:E; cbn].
  3: rewrite bytes_eqb_cmp, E; exact IH.
  all: rewrite bytes_eqb_refl; reflexivity.
Qed.

Lemma obj_get_set_other m k k' x : k' <> k -> obj_get (obj_set m k x) k' = obj_get m k'.
Proof.
  intros Hne%not_eq_sym%bytes_eqb_neq.
  induction m as [|[k0 v] m IH]; cbn; [|destruct (bytes_cmp k0 k) eqn:E; cbn].
  2: apply bytes_cmp_eq in E as ->.
  3: rewrite IH; reflexivity.
  all: rewrite Hne; reflexivity.
Qed.

Lemma obj_get_remove_other m k k' : k' <> k -> obj_get (obj_remove m k) k' = obj_get m k'.
Proof.
  intros Hne%not_eq_sym%bytes_eqb_neq. induction m as [|[k0 v] m IH]; cbn; auto.
  destruct (bytes_eqb_spec k0 k) as [->|_]; cbn; [rewrite Hne | rewrite IH]; reflexivity.
Qed.

Lemma obj_set_in m k x kv : In kv (obj_set m k x) -> kv = (k, x) \/ In kv m.
Proof.
  induction m as [|[k' v] m IH]; cbn [obj_set]; intros H.
  - destruct H as [<-|[]]; left; reflexivity.
  - destruct (bytes_cmp k' k); cbn [In]; destruct H as [<-|H]; auto. destruct (IH H); auto.
Qed.

(* a key above all the keys present goes to the end *)
Lemma obj_set_append m k x : Forall (fun kv => bytes_cmp (fst kv) k = Lt) m -> obj_set m k x = m ++ [(k, x)].
Proof.
  induction 1 as [|[k' v] m Hk _ IH]; [reflexivity|]. cbn [obj_set app fst] in *. rewrite Hk, IH. reflexivity.
Qed.

(* Sorted maps: the keys increase strictly, so each occurs once, and obj_set and obj_remove keep the order. *)

Lemma sorted_tail k v m : obj_sorted ((k, v) :: m) = true -> obj_sorted m = true.
Proof. cbn [obj_sorted]. destruct m as [|[k' v'] m']; [reflexivity|]. intros H. apply andb_true_iff in H. tauto. Qed.

Lemma sorted_head_lt k v m : obj_sorted ((k, v) :: m) = true -> forall g w, In (g, w) m -> bytes_cmp k g = Lt.
Proof.
  revert k v. induction m as [|[k' v'] m IH]; intros k v H g w Hin; [destruct Hin|].
  cbn [obj_sorted] in H. apply andb_true_iff in H as [H1%bytes_ltb_lt H2].
  destruct Hin as [[= <- <-]|Hin]; [exact H1|].
  eapply bytes_cmp_lt_trans; [exact H1|]. exact (IH k' v' H2 g w Hin).
Qed.

Lemma sorted_cons k v m :
  obj_sorted m = true -> (forall g w, In (g, w) m -> bytes_cmp k g = Lt) -> obj_sorted ((k, v) :: m) = true.
Proof.
  intros Hs Hlt. cbn [obj_sorted]. destruct m as [|[k' v'] m']; [reflexivity|].
  apply andb_true_iff. split; [apply bytes_ltb_lt, (Hlt k' v'); left; reflexivity | exact Hs].
Qed.

(* the first key of a sorted map does not occur again *)
Lemma sorted_not_in k v m v' : obj_sorted ((k, v) :: m) = true -> ~ In (k, v') m.
Proof. intros H Hin. exact (cmp_lt_neq k k (sorted_head_lt k v m H _ _ Hin) eq_refl). Qed.

Lemma sorted_nodup m : obj_sorted m = true -> NoDup (map fst m).
Proof.
  induction m as [|[k v] m IH]; intros H; cbn [map fst]; constructor.
  - intros Hin. apply in_map_iff in Hin as ([k' v'] & [= ->] & Hin). exact (sorted_not_in k v m v' H Hin).
  - apply IH. eapply sorted_tail; eauto.
Qed.

Lemma sorted_in_get m : obj_sorted m = true -> forall f w, In (f, w) m -> obj_get m f = Some w.
Proof. intros Hs. apply nodup_in_get, sorted_nodup, Hs. Qed.

Lemma obj_set_sorted m k x : obj_sorted m = true -> obj_sorted (obj_set m k x) = true.
Proof.
  induction m as [|[k' v] m IH]; intros Hs; cbn [obj_set]; [reflexivity|].
  destruct (bytes_cmp k' k) eqn:C.
  - apply bytes_cmp_eq in C. subst k'. apply sorted_cons; [eapply sorted_tail; eauto | eapply sorted_head_lt; eauto].
  - apply sorted_cons; [apply IH; eapply sorted_tail; eauto|].
    intros g w Hin. apply obj_set_in in Hin as [[= -> ->]|Hin]; [exact C | eapply sorted_head_lt; eauto].
  - assert (L : bytes_cmp k k' = Lt) by (rewrite bytes_cmp_antisym, C; reflexivity).
    apply sorted_cons; [exact Hs|]. intros g w [[= <- <-]|Hin]; [exact L|].
    eapply bytes_cmp_lt_trans; [exact L|]. eapply sorted_head_lt; eauto.
Qed.

(* in a sorted map the old entry for the key is gone *)
Lemma in_obj_set_sorted m f w' : obj_sorted m = true -> forall g w,
  In (g, w) (obj_set m f w') -> (g = f /\ w = w') \/ (g <> f /\ In (g, w) m).
Proof.
  intros Hs g w Hin. destruct (bytes_eqb_spec g f) as [->|Hne]; [left | right]; split; auto.
  - apply (sorted_in_get _ (obj_set_sorted m f w' Hs)) in Hin. rewrite obj_get_set_same in Hin. congruence.
  - apply obj_set_in in Hin as [[= -> ->]|Hin]; [contradiction | exact Hin].
Qed.

Lemma in_obj_remove_sorted m f : obj_sorted m = true -> forall g w,
  In (g, w) (obj_remove m f) -> g <> f /\ In (g, w) m.
Proof.
  induction m as [|[k v] m IH]; intros Hs g w Hin; cbn in Hin; [contradiction|].
  destruct (bytes_eqb k f) eqn:E.
  - apply bytes_eqb_eq in E; subst k. split; [|right; auto].
    apply not_eq_sym. apply cmp_lt_neq. eapply sorted_head_lt; eauto.
  - destruct Hin as [H|Hin].
    + inversion H; subst. split; [apply bytes_eqb_neq; auto | left; auto].
    + destruct (IH (sorted_tail _ _ _ Hs) g w Hin). split; auto. right; auto.
Qed.

(* writing back the value a key already has changes nothing *)
Lemma obj_set_same m : obj_sorted m = true -> forall f w, obj_get m f = Some w -> obj_set m f w = m.
Proof.
  induction m as [|[k v] m IH]; intros Hs f w; cbn; [discriminate|].
  rewrite bytes_eqb_cmp. destruct (bytes_cmp k f) eqn:E; intros Hg.
  - apply bytes_cmp_eq in E. congruence.
  - f_equal. apply IH; eauto using sorted_tail.
  - apply obj_get_in in Hg. rewrite (sorted_head_lt _ _ _ Hs _ _ Hg) in E. discriminate.
Qed.

(* ---------- Vec<Value> ---------- *)

(* crud/mod.rs `array_index` *)
Definition arr_index (len : nat) (i : Z) : option nat :=
  if (0 <=? i)%Z then Some (Z.to_nat i)
  else let j := (Z.of_nat len + i)%Z in
       if (0 <=? j)%Z then Some (Z.to_nat j) else None.

Definition arr_get (a : list value) (i : Z) : option value :=
  match arr_index (length a) i with
  | Some n => nth_error a n
  | None => None
  end.

Fixpoint list_set {A} (l : list A) (n : nat) (x : A) : list A :=
  match l, n with
  | [], _ => []
  | _ :: l', O => x :: l'
  | y :: l', S n' => y :: list_set l' n' x
  end.

Fixpoint list_remove_nth {A} (l : list A) (n : nat) : list A :=
  match l, n with
  | [], _ => []
  | _ :: l', O => l'
  | y :: l', S n' => y :: list_remove_nth l' n'
  end.

(* `impl ValueCollection for Vec<Value>` insert_value: pad with nulls at the end for a
   non-negative index past the end, at the front for a negative index before the front *)
Definition arr_set (a : list value) (i : Z) (x : value) : list value :=
  let len := length a in
  if (0 <=? i)%Z then
    let n := Z.to_nat i in
    if Nat.leb len n then a ++ repeat VNull (n - len) ++ [x]
    else list_set a n x
  else
    let req := Z.to_nat (- i) in
    if Nat.ltb len req then x :: repeat VNull (req - 1 - len) ++ a
    else list_set a (len - req) x.

Definition arr_remove (a : list value) (i : Z) : option (value * list value) :=
  match arr_index (length a) i with
  | Some n => match nth_error a n with
              | Some x => Some (x, list_remove_nth a n)
              | None => None
              end
  | None => None
  end.

(* is_empty_collection, on a value that is a container *)
Definition is_empty_coll (v : value) : bool :=
  match v with
  | VObj [] => true
  | VArr [] => true
  | _ => false
  end.

(* ---------- paths ---------- *)
Inductive seg := SField (k : bytes) | SIndex (i : Z).
Definition path := list seg.

Definition seg_eqb (a b : seg) : bool :=
  match a, b with
  | SField x, SField y => bytes_eqb x y
  | SIndex x, SIndex y => Z.eqb x y
  | _, _ => false
  end.

Lemma seg_eqb_eq a b : seg_eqb a b = true <-> a = b.
Proof.
  destruct a, b; cbn; try (split; congruence).
  - rewrite bytes_eqb_eq; split; congruence.
  - rewrite Z.eqb_eq; split; congruence.
Qed.

Lemma seg_eqb_sym a b : seg_eqb a b = seg_eqb b a.
Proof. destruct a, b; cbn; [apply bytes_eqb_sym | reflexivity | reflexivity | apply Z.eqb_sym]. Qed.
