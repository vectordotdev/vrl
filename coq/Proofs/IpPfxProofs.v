(* ipcrypt-pfx (Model/IpPfx.v) is invertible over ANY block cipher, keeps 16 well-formed bytes well-formed, and in
   IPv4 mode keeps the mapped prefix: the four facts C23_ip_roundtrip assumes of the `pfx` permutation. *)
From Coq Require Import List NArith ZArith Bool Arith Lia.
From VRL Require Import Base.Bytes Model.Modes Model.Ip Model.CipherGlue Model.IpPfx Proofs.ListFacts
     Proofs.IpCryptProofs.
Import ListNotations.

Lemma pfx_dec_enc_bits F : forall bits padded, pfx_dec_bits F padded (pfx_enc_bits F padded bits) = bits.
Proof.
  induction bits as [|o r IH]; intros padded; [reflexivity|]. cbn [pfx_enc_bits pfx_dec_bits].
  assert (Ho : Datatypes.xorb (F padded) (Datatypes.xorb (F padded) o) = o) by (destruct (F padded), o; reflexivity).
  rewrite Ho. f_equal. apply IH.
Qed.

Lemma pfx_enc_bits_length F : forall bits padded, length (pfx_enc_bits F padded bits) = length bits.
Proof. induction bits as [|o r IH]; intros padded; [reflexivity|]. cbn. f_equal. apply IH. Qed.

Lemma pfx_dec_bits_length F : forall bits padded, length (pfx_dec_bits F padded bits) = length bits.
Proof. induction bits as [|o r IH]; intros padded; [reflexivity|]. cbn. f_equal. apply IH. Qed.

Lemma byte_of_bits_bits x : (x < 256)%N -> byte_of_bits (byte_bits x) = x.
Proof.
  intros H. apply N.eqb_eq.
  apply (forallb_Nrange (fun i => N.eqb (byte_of_bits (byte_bits i)) i) 256); [vm_compute; reflexivity | exact H].
Qed.

Lemma byte_bits_of_bits b7 b6 b5 b4 b3 b2 b1 b0 :
  byte_bits (byte_of_bits [b7; b6; b5; b4; b3; b2; b1; b0]) = [b7; b6; b5; b4; b3; b2; b1; b0].
Proof. destruct b7, b6, b5, b4, b3, b2, b1, b0; reflexivity. Qed.

Lemma byte_of_bits_lt b7 b6 b5 b4 b3 b2 b1 b0 : (byte_of_bits [b7; b6; b5; b4; b3; b2; b1; b0] < 256)%N.
Proof. destruct b7, b6, b5, b4, b3, b2, b1, b0; reflexivity. Qed.

Lemma bits_of_bytes_length b : length (bits_of_bytes b) = (8 * length b)%nat.
Proof.
  induction b as [|x b IH]; [reflexivity|]. change (bits_of_bytes (x :: b)) with (byte_bits x ++ bits_of_bytes b).
  cbn [byte_bits app length]. lia.
Qed.

Lemma bytes_of_bits_f_bits : forall b fuel, wf_bytes b = true -> (length b <= fuel)%nat ->
  bytes_of_bits_f fuel (bits_of_bytes b) = b.
Proof.
  induction b as [|x b IH]; intros fuel Hw Hf; [destruct fuel; reflexivity|].
  apply wf_bytes_cons in Hw as [Hx Hb]. destruct fuel as [|fuel]; [cbn in Hf; lia|].
  cbn [bits_of_bytes flat_map byte_bits app bytes_of_bits_f firstn skipn]. fold (byte_bits x).
  rewrite (byte_of_bits_bits x Hx). f_equal. apply IH; [exact Hb | cbn in Hf; lia].
Qed.

Lemma bytes_of_bits_bits b : wf_bytes b = true -> bytes_of_bits (bits_of_bytes b) = b.
Proof.
  intros H. apply bytes_of_bits_f_bits; [exact H | rewrite bits_of_bytes_length; lia].
Qed.

(* a list of 8n bits is the bits of n bytes; so whatever holds of bytes_of_bits (bits_of_bytes b) holds of
   bytes_of_bits on such a list *)
Lemma bits_of_bytes_onto : forall n l, length l = (8 * n)%nat ->
  exists b, length b = n /\ wf_bytes b = true /\ bits_of_bytes b = l.
Proof.
  induction n as [|n IH]; intros l H; [destruct l; [exists []; auto | discriminate]|].
  do 8 (destruct l as [|? l]; [cbn in H; lia|]).
  destruct (IH l) as (t & Hl & Hw & Ht); [cbn [length] in H; lia|].
  eexists (byte_of_bits _ :: t). cbn [length bits_of_bytes flat_map]. fold (bits_of_bytes t).
  rewrite byte_bits_of_bits, Hl, Ht. repeat split. apply wf_bytes_cons. split; [apply byte_of_bits_lt | exact Hw].
Qed.

Section Pfx.
  Variable E : cipher.

  (* the processed bits are again the bits of as many well-formed bytes *)
  Lemma enc_bytes F p (b : bytes) :
    exists b', length b' = length b /\ wf_bytes b' = true /\ bits_of_bytes b' = pfx_enc_bits F p (bits_of_bytes b).
  Proof. apply bits_of_bytes_onto. rewrite pfx_enc_bits_length. apply bits_of_bytes_length. Qed.

  Theorem pfx_keeps_wf k v b : ip_wf b -> ip_wf (pfx_encrypt_bytes E k v b).
  Proof.
    intros [Hl Hw]. unfold pfx_encrypt_bytes. destruct v.
    - destruct (enc_bytes (prf E (firstn 16 k) (skipn 16 k)) pad96 (skipn 12 b)) as (b' & L & W & <-).
      rewrite (bytes_of_bits_bits b' W). split.
      + rewrite app_length, firstn_length, L, skipn_length. lia.
      + apply wf_app; [apply (wf_bytes_split 12 b Hw) | exact W].
    - destruct (enc_bytes (prf E (firstn 16 k) (skipn 16 k)) pad0 b) as (b' & L & W & <-).
      rewrite (bytes_of_bits_bits b' W). split; [rewrite L; exact Hl | exact W].
  Qed.

  Theorem pfx_inverse6 k b : ip_wf b -> pfx_decrypt_bytes E k false (pfx_encrypt_bytes E k false b) = b.
  Proof.
    intros [Hl Hw]. unfold pfx_decrypt_bytes, pfx_encrypt_bytes.
    destruct (enc_bytes (prf E (firstn 16 k) (skipn 16 k)) pad0 b) as (b' & _ & W & Eb).
    rewrite <- Eb, (bytes_of_bits_bits b' W), Eb, pfx_dec_enc_bits. apply bytes_of_bits_bits, Hw.
  Qed.

  Lemma mapped_prefix b : length b = 16%nat -> is_mapped b = true -> firstn 12 b = repeat 0%N 10 ++ [255%N; 255%N].
  Proof. intros Hl Hm. rewrite (mapped_shape b Hl Hm). reflexivity. Qed.

  Theorem pfx_keeps_mapped k b : ip_wf b -> is_mapped b = true -> is_mapped (pfx_encrypt_bytes E k true b) = true.
  Proof.
    intros [Hl Hw] Hm. unfold pfx_encrypt_bytes. rewrite (mapped_prefix b Hl Hm). reflexivity.
  Qed.

  Theorem pfx_inverse4 k b : ip_wf b -> is_mapped b = true ->
    pfx_decrypt_bytes E k true (pfx_encrypt_bytes E k true b) = b.
  Proof.
    intros [Hl Hw] Hm. unfold pfx_encrypt_bytes.
    destruct (enc_bytes (prf E (firstn 16 k) (skipn 16 k)) pad96 (skipn 12 b)) as (b' & _ & W & Eb).
    rewrite <- Eb, (bytes_of_bits_bits b' W), (mapped_prefix b Hl Hm). unfold pfx_decrypt_bytes. cbn [repeat app skipn].
    rewrite Eb, pfx_dec_enc_bits, bytes_of_bits_bits by apply (wf_bytes_split 12 b Hw).
    symmetry. apply mapped_shape; assumption.
  Qed.

  (* encrypt_ip / decrypt_ip with the real ipcrypt-pfx construction and any invertible 16-byte permutation for aes128 *)
  Definition pfx_ipprims (dE dD : bytes -> bytes -> bytes) : ipprims :=
    mkIpPrims dE dD (pfx_encrypt_bytes E) (pfx_decrypt_bytes E).

  Theorem ip_roundtrip_pfx (dE dD : bytes -> bytes -> bytes) :
    (forall k b, ip_wf b -> ip_wf (dE k b)) -> (forall k b, ip_wf b -> dD k (dE k b) = b) ->
    forall a s key mode,
    wf_addr a -> parse_ip s = Some a -> key_ok key mode -> known_ip_class (pfx_ipprims dE dD) a key mode = false ->
    exists c, encrypt_ip (pfx_ipprims dE dD) s key mode = IpOk c
              /\ decrypt_ip (pfx_ipprims dE dD) c key mode = IpOk (ip_text a).
  Proof.
    intros Hwf Hinv.
    exact (ip_roundtrip (pfx_ipprims dE dD) Hwf Hinv pfx_keeps_wf pfx_inverse6 pfx_keeps_mapped pfx_inverse4).
  Qed.
End Pfx.
