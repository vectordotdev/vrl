(* Proofs about Model/DdSearch.v (C30): escaping and the lexical level. *)
From Coq Require Import String List NArith Bool Lia.
From Coq Require Import Floats.SpecFloat.
From VRL Require Import Base.Bytes Model.DdNode Model.DdSearch.
Import ListNotations.
Local Open Scope N_scope.

(* two characters that a class tells apart are different *)
Lemma class_neq (P : N -> bool) b c k : P c = b -> P k = negb b -> (c =? k) = false.
Proof. intros Hc Hk. destruct (N.eqb_spec c k) as [->|]; [|reflexivity]. rewrite Hc in Hk. destruct b; discriminate. Qed.

Lemma not_special_neq c k : lucene_special c = false -> lucene_special k = true -> (c =? k) = false.
Proof. apply class_neq. Qed.

Lemma not_special_not_invalid c : lucene_special c = false -> invalid_char c = false.
Proof. intros H. unfold invalid_char. rewrite !(not_special_neq c _ H) by reflexivity. reflexivity. Qed.

Lemma is_ws_cases c : is_ws c = true -> In c [32; 13; 10; 9].
Proof. unfold is_ws. rewrite !orb_true_iff, !N.eqb_eq. cbn. intuition. Qed.

Lemma term_end_cases c r : term_end (c :: r) = true -> In c [32; 13; 10; 9; 41; 93; 125].
Proof. cbn [term_end]. unfold is_ws. rewrite !orb_true_iff, !N.eqb_eq. cbn. intuition. Qed.

(* a fact about the character that ends a term is checked on the seven of them *)
Lemma term_end_head (Q : N -> bool) c r :
  term_end (c :: r) = true -> forallb Q [32; 13; 10; 9; 41; 93; 125] = true -> Q c = true.
Proof. intros E F. rewrite forallb_forall in F. apply F, (term_end_cases c r E). Qed.

(* what may follow a term so that TERM_CHAR* stops there: whitespace, or one of the special characters
   other than - + = and the backslash *)
Definition stop_char (c : N) : bool := is_ws c || (invalid_char c && negb (is_pme c) && negb (c =? 92)).
Definition stops (rest : bytes) : bool := match rest with [] => true | c :: _ => stop_char c end.

Lemma stop_char_term_chars g c r :
  stop_char c = true -> g && is_glob c = false -> term_chars g (c :: r) = ([], c :: r).
Proof.
  intros H G. cbn [term_chars]. unfold invalid_start. rewrite G. apply orb_true_iff in H as [H|H].
  - apply is_ws_cases in H. cbn in H. decompose [or] H; subst; try reflexivity. contradiction.
  - apply andb_true_iff in H as [H H3]. apply andb_true_iff in H as [H1 H2].
    apply negb_true_iff in H2, H3. rewrite H3, H2, H1, !orb_true_r. reflexivity.
Qed.

Lemma stops_term_chars rest : stops rest = true -> term_chars false rest = ([], rest).
Proof. destruct rest as [|c r]; [reflexivity|]. intros H. apply stop_char_term_chars; auto. Qed.

Lemma term_end_stops rest : term_end rest = true -> stops rest = true.
Proof. destruct rest as [|c r]; [reflexivity|]. intros E. exact (term_end_head stop_char c r E eq_refl). Qed.

(* a literal made of characters that cannot follow a term does not straddle the end of the term *)
Lemma starts_with_app_false p : forall t rest,
  starts_with t p = false -> stops rest = true -> forallb (fun c => negb (stop_char c)) p = true ->
  starts_with (t ++ rest) p = false.
Proof.
  induction p as [|p0 p IH]; intros t rest H S P; [discriminate|].
  cbn [forallb] in P. apply andb_true_iff in P as [P0 P]. apply negb_true_iff in P0. destruct t as [|x t].
  - destruct rest as [|c r]; [reflexivity|]. cbn in S |- *. rewrite (class_neq stop_char true c p0 S P0). reflexivity.
  - cbn in H |- *. destruct (x =? p0); [apply IH; assumption | reflexivity].
Qed.

(* a literal without characters that get escaped is found in the escaped text exactly where it is in
   the text itself *)
Lemma starts_with_escape s : forall rest p,
  forallb (fun c => negb (lucene_special c)) p = true ->
  starts_with (lucene_escape s ++ rest) p = starts_with (s ++ rest) p.
Proof.
  induction s as [|c s IH]; intros rest p P; [reflexivity|].
  destruct p as [|p0 p]; [reflexivity|].
  cbn [forallb] in P. apply andb_true_iff in P as [P0 P]. apply negb_true_iff in P0.
  cbn [lucene_escape]. destruct (lucene_special c) eqn:Sc; cbn [app starts_with].
  - rewrite (N.eqb_sym 92), (not_special_neq p0 92 P0 eq_refl), (N.eqb_sym c), (not_special_neq p0 c P0 Sc). reflexivity.
  - rewrite IH; auto.
Qed.

Theorem unescape_lucene_escape s : unescape (lucene_escape s) = s.
Proof.
  unfold unescape. induction s as [|c s IH]; [reflexivity|].
  cbn [lucene_escape]. destruct (lucene_special c) eqn:Sc.
  - cbn. rewrite IH. reflexivity.
  - cbn [unescape_go]. rewrite (not_special_neq c 92 Sc eq_refl), IH. reflexivity.
Qed.

Theorem unescape_quoted_escape s : unescape (quoted_escape s) = s.
Proof.
  unfold unescape. induction s as [|c s IH]; [reflexivity|].
  cbn [quoted_escape]. destruct ((c =? 34) || (c =? 92)) eqn:E.
  - cbn. rewrite IH. reflexivity.
  - cbn [unescape_go]. apply orb_false_iff in E as [_ ->]. rewrite IH. reflexivity.
Qed.

(* text without characters that get escaped is printed as it is *)
Lemma lucene_escape_plain s : forallb (fun c => negb (lucene_special c)) s = true -> lucene_escape s = s.
Proof.
  induction s as [|c s IH]; [reflexivity|]. cbn. intros H. apply andb_true_iff in H as [H1 H2].
  apply negb_true_iff in H1. rewrite H1, IH; auto.
Qed.

Lemma unescape_plain s : forallb (fun c => negb (lucene_special c)) s = true -> unescape s = s.
Proof.
  intros H. rewrite <- (lucene_escape_plain s H) at 1. apply unescape_lucene_escape.
Qed.

Lemma unescape_no_backslash s : forallb (fun c => negb (c =? 92)) s = true -> unescape s = s.
Proof.
  unfold unescape. induction s as [|c s IH]; [reflexivity|]. cbn [forallb unescape_go]. intros H.
  apply andb_true_iff in H as [Hc H]. apply negb_true_iff in Hc. rewrite Hc, IH; auto.
Qed.

Theorem phrase_body_quoted s rest :
  phrase_body (quoted_escape s ++ 34 :: rest) = Some (quoted_escape s, rest).
Proof.
  induction s as [|c s IH]; [reflexivity|].
  cbn [quoted_escape]. destruct ((c =? 34) || (c =? 92)) eqn:E.
  - cbn. rewrite IH. reflexivity.
  - apply orb_false_iff in E as [E1 E2]. cbn [app phrase_body]. rewrite E2, E1, IH. reflexivity.
Qed.

Theorem lex_phrase_quoted s rest :
  lex_phrase (34 :: quoted_escape s ++ 34 :: rest) = Some (quoted_escape s, rest).
Proof. cbn. apply phrase_body_quoted. Qed.

Fixpoint uni_free (s : bytes) : bool :=
  match s with
  | [] => true
  | c :: r => negb (starts_with s UNICODE3000) && uni_free r
  end.

Definition no_ws (s : bytes) : bool := forallb (fun c => negb (is_ws c)) s.

(* the text does not begin with AND, OR, NOT, && or || *)
Definition kw_free (s : bytes) : bool :=
  negb (starts_with s (bs "AND") || starts_with s (bs "&&") || starts_with s (bs "OR")
        || starts_with s (bs "||") || starts_with s (bs "NOT")).

Definition nonempty (s : bytes) : bool := match s with [] => false | _ => true end.

(* the term values whose escaped text is read back as the same single TERM *)
Definition term_ok (s : bytes) : bool := nonempty s && no_ws s && uni_free s && kw_free s.

Lemma term_ok_parts v :
  term_ok v = true -> nonempty v = true /\ no_ws v = true /\ uni_free v = true /\ kw_free v = true.
Proof. unfold term_ok. rewrite !andb_true_iff. tauto. Qed.

Lemma no_ws_cons c s : no_ws (c :: s) = true -> is_ws c = false /\ no_ws s = true.
Proof. cbn. rewrite andb_true_iff, negb_true_iff. auto. Qed.

Lemma uni_free_tail c s : uni_free (c :: s) = true -> uni_free s = true.
Proof. cbn [uni_free]. rewrite andb_true_iff. tauto. Qed.

(* UNICODE3000 is made of characters that neither get escaped nor can follow a term *)
Lemma uni_not_stop : forallb (fun c => negb (stop_char c)) UNICODE3000 = true.
Proof. reflexivity. Qed.
Lemma uni_not_special : forallb (fun c => negb (lucene_special c)) UNICODE3000 = true.
Proof. reflexivity. Qed.

Lemma uni_free_head c t rest :
  uni_free (c :: t) = true -> stops rest = true -> starts_with (c :: t ++ rest) UNICODE3000 = false.
Proof.
  cbn [uni_free]. rewrite andb_true_iff, negb_true_iff. intros [U _] S.
  apply (starts_with_app_false _ (c :: t)); auto using uni_not_stop.
Qed.

Lemma not_invalid_start_escaped c s rest :
  lucene_special c = false -> is_ws c = false -> uni_free (c :: s) = true -> stops rest = true ->
  invalid_start c (lucene_escape s ++ rest) = false.
Proof.
  intros Sc Wc U S. unfold invalid_start. rewrite Wc, (not_special_not_invalid c Sc), orb_false_r.
  replace (c :: lucene_escape s ++ rest) with (lucene_escape (c :: s) ++ rest) by (cbn; rewrite Sc; reflexivity).
  rewrite starts_with_escape by apply uni_not_special. apply uni_free_head; assumption.
Qed.

Lemma term_chars_escaped s : forall rest,
  no_ws s = true -> uni_free s = true -> stops rest = true ->
  term_chars false (lucene_escape s ++ rest) = (lucene_escape s, rest).
Proof.
  induction s as [|c s IH]; intros rest W U S.
  - apply stops_term_chars; exact S.
  - apply no_ws_cons in W as [Wc W]. specialize (IH rest W (uni_free_tail c s U) S).
    cbn [lucene_escape]. destruct (lucene_special c) eqn:Sc; cbn [app term_chars].
    + rewrite N.eqb_refl, IH. reflexivity.
    + rewrite (not_special_neq c 92 Sc eq_refl), (not_invalid_start_escaped c s rest Sc Wc U S), IH. reflexivity.
Qed.

(* TERM_START_CHAR ~ TERM_CHAR* (glob = true: the _GLOB variants): what TERM, TERM_PREFIX and TERM_GLOB share *)
Definition term_scan (g : bool) (s : bytes) : option (bytes * bytes) :=
  match term_start_char g s with
  | Some (a, r) => let '(b, rest) := term_chars g r in Some (a ++ b, rest)
  | None => None
  end.

Lemma lex_term_scan s : lex_term s = if kw_ahead s then None else term_scan false s.
Proof. reflexivity. Qed.

Lemma lex_term_prefix_scan s :
  lex_term_prefix s =
  match term_scan false s with
  | Some (t, c :: r) => if (c =? 42) && term_end r then Some (t, r) else None
  | _ => None
  end.
Proof.
  unfold lex_term_prefix, term_scan. destruct (term_start_char false s) as [[a r]|]; [|reflexivity].
  destruct (term_chars false r). reflexivity.
Qed.

Lemma lex_term_glob_scan s :
  lex_term_glob s =
  match term_scan true s with Some (t, r) => if term_end r then Some (t, r) else None | None => None end.
Proof.
  unfold lex_term_glob, term_scan. destruct (term_start_char true s) as [[a r]|]; [|reflexivity].
  destruct (term_chars true r). reflexivity.
Qed.

Lemma term_scan_escaped s rest :
  nonempty s = true -> no_ws s = true -> uni_free s = true -> stops rest = true ->
  term_scan false (lucene_escape s ++ rest) = Some (lucene_escape s, rest).
Proof.
  destruct s as [|c s]; [discriminate|]. intros _ W U S. apply no_ws_cons in W as [Wc W].
  pose proof (term_chars_escaped s rest W (uni_free_tail c s U) S) as T.
  unfold term_scan. cbn [lucene_escape]. destruct (lucene_special c) eqn:Sc; cbn [app term_start_char].
  - rewrite N.eqb_refl, T. reflexivity.
  - rewrite (not_special_neq c 92 Sc eq_refl), (not_invalid_start_escaped c s rest Sc Wc U S). cbn [negb].
    rewrite T. reflexivity.
Qed.

(* the keywords that a term must not start with *)
Definition keywords : list bytes := [bs "AND"; bs "&&"; bs "OR"; bs "||"; bs "NOT"].

Definition no_kw (s : bytes) : Prop := forall p, In p keywords -> starts_with s p = false.

Lemma kw_free_no_kw s : kw_free s = true -> no_kw s.
Proof.
  unfold kw_free. rewrite negb_true_iff, !orb_false_iff.
  intros ((((A & B) & C) & D) & E) p [<-|[<-|[<-|[<-|[<-|[]]]]]]; assumption.
Qed.

(* keywords are made of characters that neither get escaped nor can follow a term *)
Lemma keywords_chars p : In p keywords ->
  forallb (fun c => negb (lucene_special c)) p = true /\ forallb (fun c => negb (stop_char c)) p = true.
Proof. intros [<-|[<-|[<-|[<-|[<-|[]]]]]]; split; reflexivity. Qed.

Lemma no_kw_app t rest : no_kw t -> stops rest = true -> no_kw (t ++ rest).
Proof. intros K S p Hp. apply starts_with_app_false; auto. apply (keywords_chars p Hp). Qed.

Lemma no_kw_escape s rest : no_kw (s ++ rest) -> no_kw (lucene_escape s ++ rest).
Proof. intros K p Hp. rewrite starts_with_escape by apply (keywords_chars p Hp). auto. Qed.

Lemma no_kw_and_or s : no_kw s -> kw_and_or s = false.
Proof.
  intros K. unfold kw_and_or.
  rewrite (K (bs "AND")), (K (bs "&&")), (K (bs "OR")), (K (bs "||")) by (cbn; tauto). reflexivity.
Qed.

Lemma no_kw_ahead s : no_kw s -> starts_with s [45] = false -> kw_ahead s = false.
Proof.
  intros K M. unfold kw_ahead, kw_not. rewrite (no_kw_and_or s K), (K (bs "NOT")) by (cbn; tauto). exact M.
Qed.

Lemma no_kw_escaped s rest : kw_free s = true -> stops rest = true -> no_kw (lucene_escape s ++ rest).
Proof. intros K S. apply no_kw_escape, no_kw_app; auto using kw_free_no_kw. Qed.

Lemma kw_ahead_escaped s rest :
  nonempty s = true -> kw_free s = true -> stops rest = true ->
  kw_ahead (lucene_escape s ++ rest) = false.
Proof.
  intros N K S. apply no_kw_ahead; [apply no_kw_escaped; assumption|].
  destruct s as [|c s]; [discriminate|]. cbn [lucene_escape].
  destruct (lucene_special c) eqn:Sc; cbn; [reflexivity|]. rewrite (not_special_neq c 45 Sc eq_refl). reflexivity.
Qed.

(* the lexical lemma: the escaped text of a term value is consumed as exactly one TERM *)
Theorem lex_term_escaped s rest :
  term_ok s = true -> stops rest = true ->
  lex_term (lucene_escape s ++ rest) = Some (lucene_escape s, rest).
Proof.
  intros T S. destruct (term_ok_parts s T) as (N & W & U & K).
  rewrite lex_term_scan, (kw_ahead_escaped s rest N K S). apply term_scan_escaped; assumption.
Qed.

(* ...and an escaped prefix followed by the star as one TERM_PREFIX *)
Theorem lex_term_prefix_escaped s rest :
  nonempty s = true -> no_ws s = true -> uni_free s = true -> term_end rest = true ->
  lex_term_prefix (lucene_escape s ++ 42 :: rest) = Some (lucene_escape s, rest).
Proof.
  intros N W U E. rewrite lex_term_prefix_scan, (term_scan_escaped s (42 :: rest) N W U eq_refl), N.eqb_refl, E.
  reflexivity.
Qed.
