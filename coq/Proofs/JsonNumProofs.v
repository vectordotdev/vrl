(* C21: the number scanner.  (a) locality: a number token is read the same way whatever non-number
   character follows it, so a number's text can be judged on its own (as float_text_ok does for floats);
   (b) every i64 printed in decimal is read as that integer. *)
From Coq Require Import List NArith ZArith Bool Lia.
From Coq Require Import Floats.SpecFloat.
From VRL Require Import Base.Bytes Base.Value Model.Json.
Import ListNotations.
Local Open Scope N_scope.

(* what may follow a number token: anything that does not continue it *)
Definition num_end (rest : bytes) : bool :=
  match rest with
  | [] => true
  | c :: _ => negb (is_digit c) && negb (c =? 46) && negb (is_e c)
  end.

Lemma num_end_cons c r : num_end (c :: r) = true -> is_digit c = false /\ (c =? 46) = false /\ is_e c = false.
Proof.
  cbn [num_end]. rewrite !andb_true_iff, !negb_true_iff. tauto.
Qed.

Lemma is_digit_iff c : is_digit c = true <-> 48 <= c <= 57.
Proof. unfold is_digit, between. rewrite andb_true_iff, !N.leb_le. tauto. Qed.

(* F reads a number token and leaves the rest: text put after its input that does not continue a number is
   simply left over as well *)
Definition frame (F : bytes -> option (pnum * bytes)) : Prop :=
  forall txt p r rest, F txt = Some (p, r) -> num_end rest = true -> F (txt ++ rest) = Some (p, r ++ rest).

(* from_parts does not look at the text it returns *)
Lemma from_parts_any positive sig e s p r :
  from_parts positive sig e s = Some (p, r) -> r = s /\ forall s', from_parts positive sig e s' = Some (p, s').
Proof.
  unfold from_parts. destruct (f64_from_parts positive sig e); [intros [= <- <-]; split; reflexivity | discriminate].
Qed.

Lemma skip_digits_app txt rest : num_end rest = true -> skip_digits (txt ++ rest) = skip_digits txt ++ rest.
Proof.
  intros Hend. induction txt as [|d t IH]; cbn [app skip_digits].
  - destruct rest as [|c r]; [reflexivity|]. cbn [skip_digits]. rewrite (proj1 (num_end_cons _ _ Hend)). reflexivity.
  - destruct (is_digit d); [exact IH | reflexivity].
Qed.

Lemma exp_loop_frame positive sig start pos_exp exp : frame (exp_loop positive sig start pos_exp exp).
Proof.
  intros txt. revert exp. induction txt as [|d t IH]; intros exp p r rest H Hend; cbn [app exp_loop] in *.
  - apply from_parts_any in H as [-> H].
    destruct rest as [|c r']; [|cbn [exp_loop]; rewrite (proj1 (num_end_cons _ _ Hend))]; apply H.
  - destruct (is_digit d).
    + destruct (overflow10 exp (d - 48) i32_max); [|apply IH; assumption].
      destruct (negb (sig =? 0) && pos_exp); [discriminate|].
      injection H as <- <-. rewrite skip_digits_app by exact Hend. reflexivity.
    + apply from_parts_any in H as [-> H]. apply H.
Qed.

Lemma exp_first_frame positive sig start pos_exp : frame (exp_first positive sig start pos_exp).
Proof.
  intros [|d t] p r rest; [discriminate|]. cbn [app exp_first].
  destruct (is_digit d); [apply exp_loop_frame | discriminate].
Qed.

Lemma parse_exponent_frame positive sig start : frame (parse_exponent positive sig start).
Proof.
  intros [|c t] p r rest; [discriminate|]. unfold parse_exponent. cbn [app exp_sign].
  destruct (c =? 43); [|destruct (c =? 45)]; cbn [fst snd];
    [apply exp_first_frame | apply exp_first_frame | apply (exp_first_frame positive sig start true (c :: t))].
Qed.

Lemma exp_or_end_frame positive sig e : frame (exp_or_end positive sig e).
Proof.
  intros [|c t] p r rest H Hend; cbn [app exp_or_end] in *.
  - apply from_parts_any in H as [-> H].
    destruct rest as [|c r']; [|cbn [exp_or_end]; rewrite (proj2 (proj2 (num_end_cons _ _ Hend)))]; apply H.
  - destruct (is_e c); [apply parse_exponent_frame; assumption|].
    apply from_parts_any in H as [-> H]. apply H.
Qed.

Lemma dec_loop_frame positive sig e any : frame (dec_loop positive sig e any).
Proof.
  intros txt. revert sig e any.
  induction txt as [|d t IH]; intros sig e any p r rest H Hend; cbn [app dec_loop] in *.
  - destruct any; [|discriminate].
    destruct rest as [|c r']; [|cbn [dec_loop]; rewrite (proj1 (num_end_cons _ _ Hend))];
      exact (exp_or_end_frame positive sig e [] p r _ H Hend).
  - destruct (is_digit d).
    + destruct (overflow10 sig (d - 48) u64_max); [|apply IH; assumption].
      change (d :: t ++ rest) with ((d :: t) ++ rest). rewrite skip_digits_app by exact Hend. apply exp_or_end_frame; assumption.
    + destruct any; [|discriminate]. apply (exp_or_end_frame positive sig e (d :: t)); assumption.
Qed.

Lemma parse_number_frame positive sig : frame (parse_number positive sig).
Proof.
  intros [|c t] p r rest H Hend; unfold parse_number in *; cbn [app].
  - injection H as <- <-. destruct rest as [|c r]; [reflexivity|].
    destruct (num_end_cons _ _ Hend) as (_ & H2 & H3). rewrite H2, H3. reflexivity.
  - destruct (c =? 46); [apply dec_loop_frame; assumption|].
    destruct (is_e c); [apply parse_exponent_frame; assumption|]. injection H as <- <-. reflexivity.
Qed.

Lemma long_int_frame positive sig e : frame (long_int positive sig e).
Proof.
  intros txt. revert e. induction txt as [|c t IH]; intros e p r rest H Hend; cbn [app long_int] in *.
  - apply from_parts_any in H as [-> H]. destruct rest as [|c r']; [apply H|].
    destruct (num_end_cons _ _ Hend) as (H1 & H2 & H3). cbn [long_int]. rewrite H1, H2, H3. apply H.
  - destruct (is_digit c); [apply IH; assumption|].
    destruct (c =? 46); [apply dec_loop_frame; assumption|].
    destruct (is_e c); [apply parse_exponent_frame; assumption|].
    apply from_parts_any in H as [-> H]. apply H.
Qed.

Lemma int_loop_frame positive sig : frame (int_loop positive sig).
Proof.
  intros txt. revert sig. induction txt as [|d t IH]; intros sig p r rest H Hend; cbn [app int_loop] in *.
  - destruct rest as [|c r']; [|cbn [int_loop]; rewrite (proj1 (num_end_cons _ _ Hend))];
      apply (parse_number_frame positive sig []); assumption.
  - destruct (is_digit d).
    + destruct (overflow10 sig (d - 48) u64_max); [apply (long_int_frame positive sig 0 (d :: t)) | apply IH]; assumption.
    + apply (parse_number_frame positive sig (d :: t)); assumption.
Qed.

Lemma parse_integer_frame positive : frame (parse_integer positive).
Proof.
  intros [|c t] p r rest H Hend; [discriminate|]. cbn [app parse_integer] in *.
  destruct (c =? 48); [|destruct (between 49 57 c); [apply int_loop_frame; assumption | discriminate]].
  destruct t as [|d t']; cbn [app].
  - destruct rest as [|c' r']; [|rewrite (proj1 (num_end_cons _ _ Hend))];
      apply (parse_number_frame positive 0 []); assumption.
  - destruct (is_digit d); [discriminate|]. apply (parse_number_frame positive 0 (d :: t')); assumption.
Qed.

Lemma parse_num_tok_frame : frame parse_num_tok.
Proof.
  intros [|c t] p r rest H Hend; [discriminate|]. cbn [app parse_num_tok] in *.
  destruct (c =? 45); [apply parse_integer_frame; assumption|].
  destruct (is_digit c); [apply (parse_integer_frame true (c :: t)); assumption | discriminate].
Qed.

Definition num_start (s : bytes) : bool :=
  match s with c :: _ => (c =? 45) || is_digit c | [] => false end.

Lemma parse_num_tok_head txt p r rest : parse_num_tok txt = Some (p, r) -> num_start (txt ++ rest) = true.
Proof.
  destruct txt as [|c t]; [discriminate|]. cbn [app parse_num_tok num_start].
  destruct (c =? 45); [reflexivity|]. destruct (is_digit c); [reflexivity | discriminate].
Qed.

Definition digit_chars (ds : bytes) : Prop := Forall (fun c => 48 <= c <= 57) ds.

Fixpoint dval (acc : N) (ds : bytes) : N :=
  match ds with
  | [] => acc
  | c :: r => dval (acc * 10 + (c - 48)) r
  end.

Lemma dval_app a x y : dval a (x ++ y) = dval (dval a x) y.
Proof. revert a; induction x as [|c x IH]; intros a; [reflexivity|]. cbn [app dval]. apply IH. Qed.

Lemma dval_ge a ds : a <= dval a ds.
Proof.
  revert a; induction ds as [|c r IH]; intros a; cbn [dval]; [lia|].
  specialize (IH (a * 10 + (c - 48))). lia.
Qed.

Lemma overflow10_u64 a d : d < 10 -> overflow10 a d u64_max = (u64_max <? a * 10 + d).
Proof.
  intros Hd. apply eq_true_iff_eq. unfold overflow10.
  change (u64_max / 10) with 1844674407370955161. change (u64_max mod 10) with 5. unfold u64_max.
  rewrite andb_true_iff, orb_true_iff, N.leb_le, !N.ltb_lt. lia.
Qed.

(* the integer loop walks over a run of digits as long as the value fits u64 *)
Lemma int_loop_digits positive ds : forall sig,
  digit_chars ds -> dval sig ds <= u64_max ->
  int_loop positive sig ds = parse_number positive (dval sig ds) [].
Proof.
  induction ds as [|c r IH]; intros sig Hd Hv; [reflexivity|].
  inversion Hd as [|? ? Hc Hr]; subst. cbn [int_loop dval] in *.
  pose proof (dval_ge (sig * 10 + (c - 48)) r).
  rewrite (proj2 (is_digit_iff c) Hc), overflow10_u64, (proj2 (N.ltb_ge _ _)) by lia.
  apply IH; assumption.
Qed.

Lemma lsd_digits fuel : forall n, Forall (fun d => d < 10) (lsd fuel n).
Proof.
  induction fuel as [|f IH]; intros n; cbn [lsd]; [constructor|].
  constructor; [apply N.mod_lt; lia|]. destruct (n / 10 =? 0); [constructor | apply IH].
Qed.

Lemma div10_bound f n : n < 2 ^ N.of_nat (S f) -> n / 10 < 2 ^ N.of_nat f.
Proof. rewrite Nat2N.inj_succ, N.pow_succ_r'. intros H. apply N.div_lt_upper_bound; lia. Qed.

(* the most significant digit is not zero *)
Lemma lsd_last fuel : forall n, n <> 0 -> n < 2 ^ N.of_nat fuel ->
  exists l d, lsd fuel n = l ++ [d] /\ d <> 0.
Proof.
  induction fuel as [|f IH]; intros n Hn0 Hn; [cbn in Hn; lia|].
  cbn [lsd]. destruct (N.eqb_spec (n / 10) 0) as [E|E].
  - exists [], (n mod 10). split; [reflexivity|]. pose proof (N.div_mod n 10). lia.
  - destruct (IH (n / 10) E (div10_bound f n Hn)) as (l & d & -> & Hd).
    exists (n mod 10 :: l), d. split; [reflexivity | exact Hd].
Qed.

(* read most significant digit first, the digits of n give n back *)
Lemma dval_lsd fuel : forall n, n < 2 ^ N.of_nat fuel ->
  dval 0 (map (fun d => 48 + d) (rev (lsd fuel n))) = n.
Proof.
  induction fuel as [|f IH]; intros n Hn; [cbn in *; lia|].
  cbn [lsd rev]. pose proof (N.div_mod n 10). destruct (N.eqb_spec (n / 10) 0) as [E|E].
  - cbn [rev app map dval]. lia.
  - rewrite map_app, dval_app, IH by (apply div10_bound, Hn). cbn [map dval].
    rewrite (N.add_comm 48), N.add_sub. lia.
Qed.

Lemma digit_chars_map l : Forall (fun d => d < 10) l -> digit_chars (map (fun d => 48 + d) l).
Proof.
  induction 1 as [|d l Hd _ IH]; [constructor|]. cbn [map]. constructor; [lia | exact IH].
Qed.

Lemma fuel_enough n : n < 2 ^ N.of_nat (S (S (N.to_nat (N.log2 n)))).
Proof.
  rewrite !Nat2N.inj_succ, N2Nat.id.
  destruct (N.eq_dec n 0) as [->|Hn]; [cbn; lia|].
  destruct (N.log2_spec n) as [_ H]; [lia|].
  rewrite N.pow_succ_r'. lia.
Qed.

(* print_u n, n > 0: a leading digit 1..9, then digits, with value n *)
Lemma print_u_shape n : n <> 0 ->
  exists c ds, print_u n = c :: ds /\ 49 <= c <= 57 /\ digit_chars ds /\ dval (c - 48) ds = n.
Proof.
  intros Hn. unfold print_u. pose proof (fuel_enough n) as Hf.
  set (fuel := S (S (N.to_nat (N.log2 n)))) in *.
  pose proof (lsd_digits fuel n) as Hdig. pose proof (dval_lsd fuel n Hf) as Hval.
  destruct (lsd_last fuel n Hn Hf) as (l & d & Hl & Hd). rewrite Hl in *.
  apply Forall_app in Hdig as [Hdl Hd10]. apply Forall_inv in Hd10.
  rewrite rev_app_distr in *. cbn [rev app map] in *.
  exists (48 + d), (map (fun d0 => 48 + d0) (rev l)). split; [reflexivity|]. split; [lia|]. split.
  - apply digit_chars_map, Forall_rev, Hdl.
  - exact Hval.
Qed.

(* a positive decimal integer that fits u64 is scanned as that integer, with or without a sign before it *)
Lemma parse_print_u n :
  n <> 0 -> n <= u64_max ->
  (forall positive, parse_integer positive (print_u n) = parse_number positive n [])
  /\ parse_num_tok (print_u n) = parse_integer true (print_u n).
Proof.
  intros Hn Hmax.
  destruct (print_u_shape n Hn) as (c & ds & -> & Hc & Hds & Hv). split.
  - intros positive. cbn [parse_integer].
    destruct (N.eqb_spec c 48) as [->|_]; [lia|].
    unfold between. rewrite (proj2 (N.leb_le 49 c)), (proj2 (N.leb_le c 57)) by lia. cbn [andb].
    rewrite int_loop_digits, Hv by (rewrite ?Hv; assumption). reflexivity.
  - cbn [parse_num_tok]. destruct (N.eqb_spec c 45); [lia|].
    rewrite (proj2 (is_digit_iff c)) by lia. reflexivity.
Qed.

(* the integer round trip at the token level: the text of an i64 is one number token with that value *)
Lemma parse_num_tok_print_int z :
  in_i64 z = true -> exists p, parse_num_tok (print_int z) = Some (p, []) /\ value_of_pnum p = VInt z.
Proof.
  unfold in_i64. rewrite andb_true_iff, !Z.leb_le. intros [Hlo Hhi].
  destruct z as [|q|q]; cbn [print_int].
  - exists (PU64 0). split; reflexivity.
  - destruct (parse_print_u (N.pos q)) as [Hi Ht]; [lia | unfold u64_max; lia |].
    exists (PU64 (N.pos q)). rewrite Ht, Hi. split; [reflexivity|].
    cbn [value_of_pnum]. rewrite (proj2 (N.leb_le _ _)) by (unfold i64_max; lia). reflexivity.
  - destruct (parse_print_u (N.pos q)) as [Hi _]; [lia | unfold u64_max; lia |].
    exists (PI64 (Z.neg q)). split; [|reflexivity].
    change (parse_integer false (print_u (N.pos q)) = Some (PI64 (Z.neg q), [])).
    rewrite Hi. unfold parse_number.
    (* two's complement: only 2^63 itself is not below 2^63, and negating it wraps to itself *)
    assert (Hw : wrapping_neg (as_i64 (N.pos q)) = Z.neg q).
    { unfold as_i64, wrapping_neg. destruct (N.ltb_spec (N.pos q) 9223372036854775808) as [L|G].
      - destruct (Z.eqb_spec (Z.of_N (N.pos q)) (-9223372036854775808)); [lia | reflexivity].
      - replace q with 9223372036854775808%positive by lia. reflexivity. }
    rewrite Hw. reflexivity.
Qed.

(* The fast integer rounding of the model agrees with SpecFloat's binary_normalize on samples
      (powers of ten of the POW10 table, u64 edges, ties, the overflow threshold) *)
Example round_int_f64_samples :
  forallb (fun m => sf_eqb (round_int_f64 m) (binary_normalize 53 1024 m 0 false))
    ([0; 1; 2; 3; 10; 9007199254740991; 9007199254740992; 9007199254740993; 9007199254740994; 9007199254740995;
      9223372036854775807; 9223372036854775808; 12345678901234567890; 18446744073709550591; 18446744073709550592;
      18446744073709550593; 18446744073709551615; 2 ^ 1024 - 2 ^ 970; 2 ^ 1024 - 2 ^ 970 - 1; 2 ^ 1024]
     ++ map (fun k => 10 ^ k) [1; 5; 15; 16; 17; 18; 19; 20; 21; 22; 23; 24; 25; 27; 30; 50; 100; 200; 300; 307; 308; 309])%Z
  = true.
Proof. vm_compute. reflexivity. Qed.
