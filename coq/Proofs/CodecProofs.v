(* Proofs for Model/Base16.v and Model/Base64.v: the decoders invert the encoders on all byte strings. *)
From Coq Require Import List NArith Bool Lia PeanoNat.
From VRL Require Import Base.Bytes Model.Base16 Model.Base64 Proofs.ListFacts.
Import ListNotations.
Local Open Scope N_scope.

(* a decoding table inverts an encoding table on 0..n-1 as soon as it does so entry by entry *)
Lemma table_inverse (enc : N -> N) (dec : N -> option N) (n : nat) :
  forallb (fun v => match dec (enc v) with Some m => m =? v | None => false end) (Nrange n) = true ->
  forall v, v < N.of_nat n -> dec (enc v) = Some v.
Proof.
  intros H v Hv. apply (forallb_Nrange _ n H) in Hv.
  destruct (dec (enc v)); [apply N.eqb_eq in Hv; congruence | discriminate].
Qed.

Lemma ltb_true x y : x < y -> (x <? y) = true.
Proof. apply N.ltb_lt. Qed.

Lemma ltb_false x y : y <= x -> (x <? y) = false.
Proof. apply N.ltb_ge. Qed.

(* two digits in base m: hi * m + lo with lo < m *)
Lemma div_mul_add hi m lo : lo < m -> (hi * m + lo) / m = hi.
Proof. intros H. symmetry. apply (N.div_unique _ _ _ lo); lia. Qed.

Lemma mod_mul_add hi m lo : lo < m -> (hi * m + lo) mod m = lo.
Proof. intros H. symmetry. apply (N.mod_unique _ _ hi); lia. Qed.

Lemma mul_add_lt hi m lo n : hi < n -> lo < m -> hi * m + lo < n * m.
Proof. nia. Qed.

Lemma div_mul_mod x m : m <> 0 -> x / m * m + x mod m = x.
Proof. intros H. rewrite (N.div_mod x m H) at 3. lia. Qed.

Lemma div_lt x m n : x < m * n -> x / m < n.
Proof. intros H. apply N.div_lt_upper_bound; lia. Qed.

Lemma div16_lt x : x < 256 -> x / 16 < 16.
Proof. exact (div_lt x 16 16). Qed.

Lemma mod16_lt x : x mod 16 < 16.
Proof. apply N.mod_lt. discriminate. Qed.

Lemma unhex_hex_lower n : n < 16 -> unhex (hex_lower n) = Some n.
Proof. apply (table_inverse hex_lower unhex 16). vm_compute. reflexivity. Qed.

Lemma unhex_hex_upper n : n < 16 -> unhex (hex_upper n) = Some n.
Proof. apply (table_inverse hex_upper unhex 16). vm_compute. reflexivity. Qed.

Theorem b16_roundtrip b : wf_bytes b = true -> b16_decode (b16_encode b) = Some b.
Proof.
  induction b as [|x b IH]; intros Hwf; [reflexivity|].
  apply wf_bytes_cons in Hwf as [Hx Hb].
  change (b16_encode (x :: b)) with (hex_lower (x / 16) :: hex_lower (x mod 16) :: b16_encode b).
  cbn [b16_decode].
  rewrite !unhex_hex_lower, (IH Hb), div_mul_mod by (discriminate || apply mod16_lt || apply div16_lt, Hx).
  reflexivity.
Qed.

Lemma b64_val_char url s : s < 64 -> b64_val url (b64_char url s) = Some s.
Proof. apply (table_inverse (b64_char url) (b64_val url) 64). destruct url; vm_compute; reflexivity. Qed.

Lemma b64_char_not_eq url s : s < 64 -> b64_char url s <> 61.
Proof. intros H E. apply (b64_val_char url) in H. rewrite E in H. destruct url; discriminate. Qed.

(* The four sextets of a block x y z are x / 4, (x mod 4) * 16 + y / 16, (y mod 16) * 4 + z / 64 and z mod 64;
   a one-byte tail ends with (x mod 4) * 16, a two-byte tail with (y mod 16) * 4.  All are below 64. *)
Lemma sextet1 x : x < 256 -> x / 4 < 64.
Proof. exact (div_lt x 4 64). Qed.
Lemma sextet2 x y : y < 256 -> (x mod 4) * 16 + y / 16 < 64.
Proof. intros Hy. apply (mul_add_lt _ 16 _ 4); [apply N.mod_lt; discriminate | apply div_lt, Hy]. Qed.
Lemma sextet2_tail x : (x mod 4) * 16 < 64.
Proof. apply (N.mul_lt_mono_pos_r 16 _ 4); [reflexivity | apply N.mod_lt; discriminate]. Qed.
Lemma sextet3 y z : z < 256 -> (y mod 16) * 4 + z / 64 < 64.
Proof. intros Hz. apply (mul_add_lt _ 4 _ 16); [apply N.mod_lt; discriminate | apply div_lt, Hz]. Qed.
Lemma sextet3_tail y : (y mod 16) * 4 < 64.
Proof. apply (N.mul_lt_mono_pos_r 4 _ 16); [reflexivity | apply N.mod_lt; discriminate]. Qed.
Lemma sextet4 z : z mod 64 < 64.
Proof. apply N.mod_lt. discriminate. Qed.

Local Hint Resolve sextet1 sextet2 sextet2_tail sextet3 sextet3_tail sextet4 : sextet.

Lemma list_ind3 {A} (P : list A -> Prop) :
  P [] -> (forall x, P [x]) -> (forall x y, P [x; y]) ->
  (forall x y z r, P r -> P (x :: y :: z :: r)) -> forall l, P l.
Proof.
  intros H0 H1 H2 H3.
  assert (G : forall l, P l /\ (forall x, P (x :: l)) /\ (forall x y, P (x :: y :: l))).
  { induction l as [|a l [IH0 [IH1 IH2]]]; repeat split; auto. }
  intros l; apply G.
Qed.

(* In each case the decoder finds the sextets back (b64_val_char) and regroups them into the bytes: the sextets
   are two-digit numbers in bases 16 and 4, whose digits div_mul_add / mod_mul_add read off. *)
Theorem b64_nopad_roundtrip url b :
  wf_bytes b = true -> b64_decode_nopad url (b64_encode url false b) = Some b.
Proof.
  induction b as [|x|x y|x y z r IH] using list_ind3; rewrite ?wf_bytes_cons; intros Hwf.
  - reflexivity.
  - destruct Hwf as [Hx _]. cbn [b64_encode pad2 b64_decode_nopad].
    rewrite !b64_val_char, N.mod_mul by (discriminate || auto with sextet). cbn [N.eqb].
    rewrite N.div_mul, div_mul_mod by discriminate. reflexivity.
  - destruct Hwf as (Hx & Hy & _). cbn [b64_encode pad1 b64_decode_nopad].
    rewrite !b64_val_char, N.mod_mul by (discriminate || auto with sextet). cbn [N.eqb].
    rewrite N.div_mul, div_mul_add, mod_mul_add, !div_mul_mod by (discriminate || apply div_lt, Hy). reflexivity.
  - destruct Hwf as (Hx & Hy & Hz & Hr). cbn [b64_encode b64_decode_nopad].
    rewrite !b64_val_char, (IH Hr) by auto with sextet.
    rewrite !div_mul_add, !mod_mul_add, !div_mul_mod by (discriminate || (apply div_lt; assumption)). reflexivity.
Qed.

(* decode_base64 strips every trailing '=' before it decodes *)
Lemma strip_eq_app s t : Forall (fun c => c = 61) t -> strip_eq (s ++ t) = strip_eq s.
Proof.
  intros Ht. induction s as [|c s IH]; cbn [app strip_eq]; [|rewrite IH; reflexivity].
  induction Ht as [|c t -> _ IH]; [reflexivity|]. cbn [strip_eq]. rewrite IH. reflexivity.
Qed.

Lemma strip_eq_noeq s : Forall (fun c => c <> 61) s -> strip_eq s = s.
Proof.
  induction 1 as [|c s Hc _ IH]; [reflexivity|].
  cbn [strip_eq]. rewrite IH. apply N.eqb_neq in Hc. rewrite Hc. reflexivity.
Qed.

Lemma b64_encode_no_eq url b :
  wf_bytes b = true -> Forall (fun c => c <> 61) (b64_encode url false b).
Proof.
  induction b as [|x|x y|x y z r IH] using list_ind3; rewrite ?wf_bytes_cons; intros Hwf.
  - constructor.
  - destruct Hwf as [Hx _]. repeat constructor; apply b64_char_not_eq; auto with sextet.
  - destruct Hwf as (Hx & Hy & _). repeat constructor; apply b64_char_not_eq; auto with sextet.
  - destruct Hwf as (Hx & Hy & Hz & Hr). cbn [b64_encode].
    repeat (constructor; [apply b64_char_not_eq; auto with sextet|]). exact (IH Hr).
Qed.

Lemma b64_encode_pad url pad b :
  exists t, Forall (fun c => c = 61) t /\ b64_encode url pad b = b64_encode url false b ++ t.
Proof.
  induction b as [|x|x y|x y z r IH] using list_ind3.
  - exists []. split; [constructor|reflexivity].
  - exists (pad2 pad). split; [destruct pad; repeat constructor | reflexivity].
  - exists (pad1 pad). split; [destruct pad; repeat constructor | reflexivity].
  - destruct IH as [t [Ht E]]. exists t. split; [exact Ht|]. cbn [b64_encode app]. rewrite E. reflexivity.
Qed.

Lemma strip_eq_encode url pad b :
  wf_bytes b = true -> strip_eq (b64_encode url pad b) = b64_encode url false b.
Proof.
  intros Hwf. destruct (b64_encode_pad url pad b) as [t [Ht ->]].
  rewrite (strip_eq_app _ t Ht). apply strip_eq_noeq, b64_encode_no_eq, Hwf.
Qed.

(* a non-empty encoding starts with an alphabet character, so it is not all '=' *)
Lemma strip_trailing_encode url pad b :
  wf_bytes b = true -> strip_trailing (b64_encode url pad b) = b64_encode url false b.
Proof.
  intros Hwf. unfold strip_trailing. destruct b as [|x r]; [reflexivity|].
  assert (Hne : all_eq (b64_encode url pad (x :: r)) = false).
  { apply wf_bytes_cons in Hwf as [Hx _]. apply (sextet1 x), (b64_char_not_eq url), N.eqb_neq in Hx.
    destruct r as [|y [|z r']]; cbn [b64_encode all_eq forallb]; rewrite Hx; reflexivity. }
  rewrite Hne. apply strip_eq_encode, Hwf.
Qed.

Theorem b64_roundtrip url pad b :
  wf_bytes b = true -> b64_decode_nopad url (strip_trailing (b64_encode url pad b)) = Some b.
Proof.
  intros Hwf. rewrite (strip_trailing_encode url pad b Hwf). apply b64_nopad_roundtrip, Hwf.
Qed.

(* the VRL functions, for both charset names and both padding modes *)
Theorem base64_roundtrip pad charset v :
  wf_bytes v = true -> charset_of charset <> None ->
  exists e, encode_base64 pad charset v = ROk e /\ decode_base64 charset e = ROk v.
Proof.
  intros Hwf Hcs. unfold encode_base64, decode_base64.
  destruct (charset_of charset) as [url|]; [|congruence].
  exists (b64_encode url pad v). split; [reflexivity|].
  rewrite (b64_roundtrip url pad v Hwf). reflexivity.
Qed.

(* the encoder's output length (RFC 4648 section 4) *)
Lemma b64_encode_length_padded url b :
  length (b64_encode url true b) = Nat.mul 4 (Nat.div (Nat.add (length b) 2) 3).
Proof.
  induction b as [|x|x y|x y z r IH] using list_ind3; try reflexivity.
  cbn [b64_encode length]. rewrite IH.
  replace (Nat.add (S (S (S (length r)))) 2) with (Nat.add (Nat.add (length r) 2) (Nat.mul 1 3)) by lia.
  rewrite Nat.div_add by lia. lia.
Qed.
