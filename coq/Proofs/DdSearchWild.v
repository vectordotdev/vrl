(* Proofs about Model/DdSearch.v (C30): wildcards, which are printed raw. *)
From Coq Require Import String List NArith Bool Lia.
From Coq Require Import Floats.SpecFloat.
From VRL Require Import Base.Bytes Model.DdNode Model.DdSearch
  Proofs.DdSearchProofs Proofs.DdSearchRT.
Import ListNotations.
Local Open Scope N_scope.

(* the characters TERM_CHAR* (g = false) / TERM_CHAR_GLOB* (g = true) consumes, the backslash apart *)
Definition tchar (g : bool) (c : N) : bool :=
  negb (is_ws c) && negb (c =? 92) && (negb (invalid_char c) || is_pme c || (g && is_glob c)).

Lemma starts_with_mono s more p : starts_with s p = true -> starts_with (s ++ more) p = true.
Proof.
  revert s; induction p as [|c p IH]; intros s H; [reflexivity|].
  destruct s as [|x s]; [discriminate|]. cbn in *. apply andb_true_iff in H as [H1 H2]. rewrite H1, IH; auto.
Qed.

Lemma uni_free_prefix a b : uni_free (a ++ b) = true -> uni_free a = true.
Proof.
  induction a as [|c a IH]; [reflexivity|]. cbn [app uni_free]. intros H. apply andb_true_iff in H as [H1 H2].
  rewrite IH by exact H2. rewrite andb_true_r. apply negb_true_iff in H1. apply negb_true_iff.
  destruct (starts_with (c :: a) UNICODE3000) eqn:E; [|reflexivity].
  change (c :: a ++ b) with ((c :: a) ++ b) in H1. rewrite (starts_with_mono _ b _ E) in H1. discriminate.
Qed.

Lemma uni_free_suffix a b : uni_free (a ++ b) = true -> uni_free b = true.
Proof.
  induction a as [|c a IH]; [auto|]. cbn [app uni_free]. intros H. apply andb_true_iff in H as [_ H]. auto.
Qed.

Lemma tchar_parts g c : tchar g c = true ->
  is_ws c = false /\ (c =? 92) = false /\ negb (invalid_char c) || is_pme c || g && is_glob c = true.
Proof. unfold tchar. rewrite !andb_true_iff, !negb_true_iff. tauto. Qed.

Lemma tchar_weaken c : tchar false c = true -> tchar true c = true.
Proof.
  unfold tchar. intros H. apply andb_true_iff in H as [H1 H2]. rewrite H1. cbn [andb].
  rewrite andb_false_l, orb_false_r in H2. rewrite H2. reflexivity.
Qed.

Lemma term_chars_raw g t : forall rest,
  forallb (tchar g) t = true -> uni_free t = true -> stops rest = true ->
  (match rest with c :: _ => g && is_glob c = false | [] => True end) ->
  term_chars g (t ++ rest) = (t, rest).
Proof.
  induction t as [|c t IH]; intros rest T U S G.
  - destruct rest as [|c r]; [reflexivity|]. apply stop_char_term_chars; assumption.
  - cbn [forallb] in T. apply andb_true_iff in T as [Tc T]. destruct (tchar_parts g c Tc) as (T1 & T2 & T3).
    cbn [app term_chars]. unfold invalid_start. rewrite T2, T1, (uni_free_head c t rest U S). cbn [orb].
    rewrite T3, (IH rest T (uni_free_tail c t U) S G). reflexivity.
Qed.

(* raw text made of term characters is scanned whole; its first character must not be - + = *)
Lemma term_scan_raw g c t rest :
  forallb (tchar g) (c :: t) = true -> is_pme c = false -> uni_free (c :: t) = true -> stops rest = true ->
  (match rest with x :: _ => g && is_glob x = false | [] => True end) ->
  term_scan g ((c :: t) ++ rest) = Some (c :: t, rest).
Proof.
  intros T P U S G. cbn [forallb] in T. apply andb_true_iff in T as [Tc T].
  destruct (tchar_parts g c Tc) as (T1 & T2 & T3). rewrite P, orb_false_r in T3.
  unfold term_scan. cbn [app term_start_char]. unfold invalid_start.
  rewrite T2, T1, (uni_free_head c t rest U S). cbn [orb].
  destruct (invalid_char c); cbn [negb orb] in *; rewrite ?T3, (term_chars_raw g t rest T (uni_free_tail c t U) S G);
    reflexivity.
Qed.

Lemma glob_cases c : is_glob c = true -> c = 42 \/ c = 63.
Proof. unfold is_glob. rewrite orb_true_iff, !N.eqb_eq. auto. Qed.

Lemma term_end_tchar c r : tchar true c = true -> term_end (c :: r) = false.
Proof.
  intros H. cbn [term_end]. destruct (tchar_parts true c H) as (-> & _).
  rewrite (class_neq (tchar true) true c 41 H eq_refl), (class_neq (tchar true) true c 93 H eq_refl),
    (class_neq (tchar true) true c 125 H eq_refl). reflexivity.
Qed.

(* a wildcard text: X (no wildcard character, maybe empty), the first wildcard character g0, the rest Y;
   not `X*` (a prefix) and not `*` alone *)
Definition wild_parts (X : bytes) (g0 : N) (Y : bytes) : Prop :=
  forallb (tchar false) X = true /\
  (match X with c :: _ => is_pme c = false | [] => True end) /\
  is_glob g0 = true /\
  forallb (tchar true) Y = true /\
  uni_free (X ++ g0 :: Y) = true /\
  kw_free (X ++ g0 :: Y) = true /\
  (g0 =? 42) && (match Y with [] => true | _ => false end) = false.

Lemma wild_tchars X g0 Y : wild_parts X g0 Y -> forallb (tchar true) (X ++ g0 :: Y) = true.
Proof.
  intros (HX & _ & Hg & HY & _). rewrite forallb_app. cbn [forallb]. rewrite HY, andb_true_r.
  assert (tchar true g0 = true) as -> by (destruct (glob_cases g0 Hg) as [->| ->]; reflexivity).
  rewrite andb_true_r, forallb_forall in *. intros c Hc. apply tchar_weaken; auto.
Qed.

(* the first character: not - + =, and when it is `*` another term character follows *)
Lemma wild_head X g0 Y : wild_parts X g0 Y ->
  exists c r, X ++ g0 :: Y = c :: r /\ tchar true c = true /\ is_pme c = false /\
              ((c =? 42) = false \/ exists y ys, r = y :: ys /\ tchar true y = true).
Proof.
  intros W. pose proof (wild_tchars X g0 Y W) as T. destruct W as (HX & Hhead & Hg & HY & _ & _ & Hshape).
  destruct X as [|c x]; cbn [app forallb] in T |- *; apply andb_true_iff in T as [T _].
  - exists g0, Y. repeat split; auto.
    + destruct (glob_cases g0 Hg) as [->| ->]; reflexivity.
    + destruct Y as [|y ys]; [left; rewrite andb_true_r in Hshape; exact Hshape|].
      right. exists y, ys. cbn [forallb] in HY. apply andb_true_iff in HY as [Hy _]. auto.
  - exists c, (x ++ g0 :: Y). repeat split; auto. left.
    cbn [forallb] in HX. apply andb_true_iff in HX as [Hc _]. apply (class_neq (tchar false) true c 42 Hc eq_refl).
Qed.

Lemma wild_no_kw X g0 Y rest : wild_parts X g0 Y -> stops rest = true -> no_kw ((X ++ g0 :: Y) ++ rest).
Proof. intros (_ & _ & _ & _ & _ & HK & _) S. apply no_kw_app; auto using kw_free_no_kw. Qed.

Lemma wild_kw_ahead X g0 Y rest : wild_parts X g0 Y -> stops rest = true -> kw_ahead ((X ++ g0 :: Y) ++ rest) = false.
Proof.
  intros W S. apply no_kw_ahead; [apply wild_no_kw; assumption|].
  destruct (wild_head X g0 Y W) as (c & r & -> & _ & P & _). cbn.
  unfold is_pme in P. rewrite !orb_false_iff in P. destruct P as [[-> _] _]. reflexivity.
Qed.

(* TERM reads the part before the first wildcard character, and nothing when the text starts with one *)
Lemma wild_scan_term X g0 Y rest :
  wild_parts X g0 Y -> stops rest = true ->
  term_scan false ((X ++ g0 :: Y) ++ rest) = match X with [] => None | _ => Some (X, g0 :: Y ++ rest) end.
Proof.
  intros (HX & Hhead & Hg & _ & HU & _) S. rewrite <- app_assoc. destruct X as [|x xs].
  - destruct (glob_cases g0 Hg) as [->| ->]; reflexivity.
  - apply term_scan_raw; auto.
    + apply (uni_free_prefix _ (g0 :: Y)), HU.
    + destruct (glob_cases g0 Hg) as [->| ->]; reflexivity.
Qed.

Lemma term_end_not_glob rest : term_end rest = true -> match rest with c :: _ => true && is_glob c = false | [] => True end.
Proof.
  destruct rest as [|c r]; [auto|]. intros E. apply negb_true_iff.
  exact (term_end_head (fun c => negb (is_glob c)) c r E eq_refl).
Qed.

(* TERM_GLOB reads it all *)
Lemma wild_scan_glob X g0 Y rest :
  wild_parts X g0 Y -> term_end rest = true ->
  term_scan true ((X ++ g0 :: Y) ++ rest) = Some (X ++ g0 :: Y, rest).
Proof.
  intros W E. pose proof (wild_tchars X g0 Y W) as T. destruct (wild_head X g0 Y W) as (c & r & Ev & _ & P & _).
  destruct W as (_ & _ & _ & _ & HU & _). rewrite Ev in *.
  apply term_scan_raw; auto using term_end_stops. apply term_end_not_glob, E.
Qed.

Theorem parse_value_wild X g0 Y rest :
  wild_parts X g0 Y -> term_end rest = true ->
  parse_value ((X ++ g0 :: Y) ++ rest) = Some (PVGlob (X ++ g0 :: Y), rest).
Proof.
  intros Wp E. pose proof (term_end_stops rest E) as S.
  pose proof (wild_scan_term X g0 Y rest Wp S) as ST. pose proof (wild_scan_glob X g0 Y rest Wp E) as SG.
  pose proof (wild_kw_ahead X g0 Y rest Wp S) as KA.
  destruct (wild_head X g0 Y Wp) as (c & r & Ev & Tc & _ & Hstar).
  pose proof (fun k => class_neq (tchar true) true c k Tc) as Nc.
  destruct Wp as (_ & _ & Hg & HY & _ & _ & Hshape).
  rewrite parse_value_eq.
  (* TERM_PREFIX and TERM stop at g0, which is followed neither by the end (after `*`) nor is the end itself *)
  assert (lex_term_prefix ((X ++ g0 :: Y) ++ rest) = None) as ->.
  { rewrite lex_term_prefix_scan, ST. destruct X; [reflexivity|].
    destruct Y as [|y ys]; [rewrite andb_true_r in Hshape; rewrite Hshape; reflexivity|].
    cbn [forallb] in HY. apply andb_true_iff in HY as [Hy _]. cbn [app].
    rewrite (term_end_tchar y _ Hy), andb_false_r. reflexivity. }
  assert (alt_term ((X ++ g0 :: Y) ++ rest) = None) as ->.
  { unfold alt_term. rewrite lex_term_scan, KA, ST. destruct X; [reflexivity|].
    destruct (glob_cases g0 Hg) as [->| ->]; reflexivity. }
  rewrite lex_term_glob_scan, SG, E, Ev. cbn [app].
  (* the other alternatives fail on the first character *)
  assert (alt_star (c :: r ++ rest) = None) as ->.
  { cbn [alt_star]. destruct Hstar as [->|(y & ys & -> & Hy)]; [reflexivity|].
    cbn [app]. rewrite (term_end_tchar y _ Hy), andb_false_r. reflexivity. }
  assert (lex_phrase (c :: r ++ rest) = None) as -> by (cbn; rewrite (Nc 34 eq_refl); reflexivity).
  rewrite (parse_comparison_head c _ (Nc 62 eq_refl) (Nc 60 eq_refl)).
  assert (parse_range (c :: r ++ rest) = None) as -> by (cbn; rewrite (Nc 91 eq_refl), (Nc 123 eq_refl); reflexivity).
  reflexivity.
Qed.

Lemma wild_unescape X g0 Y : wild_parts X g0 Y -> unescape (X ++ g0 :: Y) = X ++ g0 :: Y.
Proof.
  intros W. apply unescape_no_backslash. pose proof (wild_tchars X g0 Y W) as T.
  rewrite forallb_forall in *. intros c Hc. destruct (tchar_parts true c (T c Hc)) as (_ & -> & _). reflexivity.
Qed.

Fixpoint split_glob (v : bytes) : bytes * bytes :=
  match v with
  | [] => ([], [])
  | c :: r => if is_glob c then ([], v) else let '(a, b) := split_glob r in (c :: a, b)
  end.

Lemma split_glob_spec v : forall X r,
  split_glob v = (X, r) -> v = X ++ r /\ match r with c :: _ => is_glob c = true | [] => True end.
Proof.
  induction v as [|c v IH]; intros X r H; cbn in H.
  - inversion H; auto.
  - destruct (is_glob c) eqn:G; [inversion H; auto|]. destruct (split_glob v) as [a b].
    inversion H; subst. destruct (IH a r eq_refl) as [-> Hr]. auto.
Qed.

(* the wildcards that are printed and read back as the same wildcard on attribute a:
   `*` alone on an explicit attribute, or ordinary / wildcard characters only (no blank, no backslash, none of
   the other special characters), at least one wildcard character, not of the form `text*` (that is a prefix),
   no keyword at the start, no UNICODE3000; without a field moreover: when it starts with ordinary characters
   its first wildcard character is `*` (else the multiterm rule takes the start as a term) *)
Definition wild_ok (a v : bytes) : bool :=
  (bytes_eqb v [42] && negb (bytes_eqb a DEFAULT_FIELD))
  || (let '(X, r) := split_glob v in
      match r with
      | [] => false
      | g0 :: Y =>
          forallb (tchar false) X && (match X with c :: _ => negb (is_pme c) | [] => true end)
          && forallb (tchar true) Y && uni_free v && kw_free v
          && negb ((g0 =? 42) && (match Y with [] => true | _ => false end))
          && (negb (bytes_eqb a DEFAULT_FIELD) || (match X with [] => true | _ => g0 =? 42 end))
      end).

Lemma wild_ok_cases a v :
  wild_ok a v = true ->
  (v = [42] /\ bytes_eqb a DEFAULT_FIELD = false) \/
  (exists X g0 Y, v = X ++ g0 :: Y /\ wild_parts X g0 Y /\
                  (bytes_eqb a DEFAULT_FIELD = true -> match X with [] => True | _ => g0 = 42 end)).
Proof.
  unfold wild_ok. intros H. apply orb_true_iff in H as [H|H].
  - left. apply andb_true_iff in H as [H1 H2]. apply bytes_eqb_eq in H1. apply negb_true_iff in H2. auto.
  - right. destruct (split_glob v) as [X r] eqn:E. destruct r as [|g0 Y]; [discriminate|].
    destruct (split_glob_spec v X _ E) as [Ev Hg].
    rewrite !andb_true_iff, negb_true_iff in H. destruct H as [[[[[[HX Hh] HY] U] K] S] D].
    exists X, g0, Y. split; [exact Ev|]. split.
    + rewrite Ev in U, K. repeat split; auto.
      destruct X as [|c x]; [exact I|]. apply negb_true_iff in Hh. exact Hh.
    + intros Da. rewrite Da in D. cbn [negb orb] in D. destruct X; [exact I|]. apply N.eqb_eq in D. exact D.
Qed.

Section WildClause.
  Variable sub : bytes -> bytes -> option (list qitem * bytes).

  Theorem clause_wild a v rest :
    attr_ok a = true -> wild_ok a v = true -> term_end rest = true ->
    clause_reads sub (is_default_attr a ++ v ++ rest) (NWild a v) rest false.
  Proof.
    intros A Wk E. destruct (wild_ok_cases a v Wk) as [[-> D] | (X & g0 & Y & -> & Wp & Dx)].
    - (* attr:* *)
      apply (clause_of_value sub a _ PVStar _ _ false); auto using andb_false_r.
      + rewrite clause_node_attr, D by exact A. reflexivity.
      + split; [|split; [reflexivity | congruence]]. rewrite parse_value_eq. cbn [app alt_star]. rewrite E. reflexivity.
    - pose proof (term_end_stops rest E) as S.
      destruct (wild_head X g0 Y Wp) as (c & r & Ev & Tc & Pc & Hstar).
      apply (clause_of_value sub a _ (PVGlob (X ++ g0 :: Y)) _ _ false); auto using andb_false_r.
      + rewrite clause_node_attr, (wild_unescape X g0 Y Wp) by exact A. reflexivity.
      + split; [apply parse_value_wild; assumption|].
        split; [rewrite Ev; apply skip_head, (tchar_parts true c Tc)|].
        (* without a field: TERM reads X and stops at g0 = `*`, or fails at once *)
        intros D. specialize (Dx D). unfold bare_start, parse_field_opt, multiterm_lookahead.
        rewrite lex_term_scan, (wild_kw_ahead X g0 Y rest Wp S), (wild_scan_term X g0 Y rest Wp S).
        repeat split.
        * (* not the match-all token *)
          rewrite Ev. change (bs "*:*") with [42; 58; 42]. cbn [app strip_prefix].
          destruct Hstar as [->|(y & ys & -> & Hy)]; [reflexivity|]. cbn [app].
          rewrite (class_neq (tchar true) true y 58 Hy eq_refl). destruct (c =? 42); reflexivity.
        * destruct X; [|subst g0]; reflexivity.
        * pose proof (wild_no_kw X g0 Y rest Wp S) as K. rewrite Ev in *.
          unfold is_pme in Pc. rewrite !orb_false_iff in Pc. apply no_modifier; tauto.
        * destruct X; [|subst g0]; reflexivity.
  Qed.
End WildClause.
