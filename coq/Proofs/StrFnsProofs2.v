(* More proofs about Model/StrFns.v (C28): case-insensitive starts_with outside the known class; the pieces of a
   split are valid UTF-8, hence join(split(s, d), d) = s on the functions themselves. *)
From Coq Require Import List NArith ZArith Bool Lia.
From VRL Require Import Base.Bytes Base.Value Model.CodecUtf8 Model.StrFns
     Proofs.ListFacts Proofs.PunycodeProofs Proofs.StrUtf8 Proofs.StrFnsProofs.
Import ListNotations.
Local Open Scope N_scope.

Definition ulen (c : N) : nat := length (utf8_of_cp c).
Definition low1 (c : N) : N := match lower_cp c with [d] => d | _ => c end.
(* a char whose lowercase is one char of the same encoded length *)
Definition len_stable (c : N) : bool :=
  match lower_cp c with [d] => Nat.eqb (ulen d) (ulen c) | _ => false end.
Definition blen (l : list N) : nat := length (utf8_of_cps l).

Lemma blen_cons c l : blen (c :: l) = (ulen c + blen l)%nat.
Proof. unfold blen, ulen. rewrite utf8_of_cps_cons, app_length. reflexivity. Qed.

Lemma ascii_lower_table : forallb (fun c => bytes_eqb (lower_cp c) [ascii_lower c]) (map N.of_nat (seq 0 128)) = true.
Proof. vm_compute. reflexivity. Qed.

Lemma lower_cp_ascii c : c < 128 -> lower_cp c = [ascii_lower c].
Proof.
  intros H. pose proof ascii_lower_table as T. rewrite forallb_forall in T.
  apply bytes_eqb_eq, T. apply in_map_iff. exists (N.to_nat c). split; [lia|]. apply in_seq. lia.
Qed.

Lemma ci_char_eq_stable a b : len_stable a = true -> len_stable b = true ->
  ci_char_eq a b = (low1 a =? low1 b).
Proof.
  unfold len_stable, low1, ci_char_eq. intros Ha Hb.
  destruct ((a <? 128) && (b <? 128)) eqn:E.
  - apply andb_true_iff in E as [E1%N.ltb_lt E2%N.ltb_lt].
    rewrite (lower_cp_ascii a E1), (lower_cp_ascii b E2). reflexivity.
  - destruct (lower_cp a) as [|da [|? ?]]; try discriminate.
    destruct (lower_cp b) as [|db [|? ?]]; try discriminate.
    cbn [zip_all]. apply andb_true_r.
Qed.

Lemma stable_ulen a b : len_stable a = true -> len_stable b = true -> low1 a = low1 b -> ulen a = ulen b.
Proof.
  unfold len_stable, low1. intros Ha Hb E.
  destruct (lower_cp a) as [|da [|? ?]]; try discriminate.
  destruct (lower_cp b) as [|db [|? ?]]; try discriminate.
  apply Nat.eqb_eq in Ha, Hb. subst. lia.
Qed.

(* the needle must fit in bytes, which for chars of stable length means: in chars *)
Lemma zip_prefix_stable cp : forall cs, forallb len_stable cp = true -> forallb len_stable cs = true ->
  zip_all ci_char_eq cp cs = true /\ (blen cp <= blen cs)%nat <-> is_prefix (map low1 cp) (map low1 cs) = true.
Proof.
  induction cp as [|a cp IH]; intros cs Hp Hs.
  - split; [reflexivity | intros _; split; [reflexivity | cbn; lia]].
  - destruct cs as [|b cs].
    + pose proof (utf8_of_cp_length a : (1 <= ulen a)%nat). rewrite blen_cons. split; [cbn; lia | discriminate].
    + cbn [forallb] in Hp, Hs. apply andb_true_iff in Hp as [Ha Hp], Hs as [Hb Hs].
      cbn [zip_all map is_prefix].
      rewrite (ci_char_eq_stable a b Ha Hb), !blen_cons, !andb_true_iff, <- (IH cs Hp Hs), N.eqb_eq.
      pose proof (stable_ulen a b Ha Hb). intuition lia.
Qed.

(* The tail of the chunk becomes a variable t (with t = ... kept aside), so that cbn [ci_items] unfolds one step:
   every error branch applies ci_items to the rest of the chunk again. *)
Lemma with_tail {A} (P : list A -> Prop) l : (forall t, t = l -> P t) -> P l.
Proof. intros H. apply H. reflexivity. Qed.

Lemma ci_items_enc1 w c r : enc1 w c -> ci_items (w ++ r) = CIok c :: ci_items r.
Proof.
  intros [b L | b0 b1 ? W C -> | b0 b1 b2 ? W O C -> | b0 b1 b2 b3 ? W O C2 C3 ->]; cbn [app].
  - cbn [ci_items]. apply N.ltb_lt in L. rewrite L. reflexivity.
  - pattern (b1 :: r). apply with_tail. intros t Et. cbn [ci_items].
    destruct (lead2 b0 W) as [-> _]. rewrite W, Et, C. reflexivity.
  - pattern (b1 :: b2 :: r). apply with_tail. intros t Et. cbn [ci_items].
    destruct (lead3 b0 W) as (-> & -> & _). rewrite W, Et, O, C. reflexivity.
  - pattern (b1 :: b2 :: b3 :: r). apply with_tail. intros t Et. cbn [ci_items].
    destruct (lead4 b0 W) as (-> & -> & -> & _). rewrite W, Et, O, C2, C3. reflexivity.
Qed.

Theorem ci_items_valid s : valid_utf8 s = true -> ci_items s = map CIok (utf8_chars s).
Proof.
  revert s. apply valid_utf8_ind; [reflexivity|]. intros w c r E IH.
  rewrite (ci_items_enc1 w c r E), (chars_enc1 w c r E), IH. reflexivity.
Qed.

Lemma zip_all_map_ok a : forall b,
  zip_all ci_item_eq (map CIok a) (map CIok b) = zip_all ci_char_eq a b.
Proof.
  induction a as [|x a IH]; intros [|y b]; try reflexivity. cbn [map zip_all ci_item_eq]. rewrite IH. reflexivity.
Qed.

Lemma starts_with_ci_valid s p : valid_utf8 s = true -> valid_utf8 p = true ->
  starts_with_ci s p =
  if (length s <? length p)%nat then false else zip_all ci_char_eq (utf8_chars p) (utf8_chars s).
Proof.
  intros Vs Vp. unfold starts_with_ci. rewrite (ci_items_valid s Vs), (ci_items_valid p Vp), zip_all_map_ok.
  reflexivity.
Qed.

Lemma ci_items_app p t : valid_utf8 p = true -> ci_items (p ++ t) = ci_items p ++ ci_items t.
Proof.
  revert p. apply valid_utf8_ind; [reflexivity|]. intros w c r E IH.
  rewrite <- app_assoc, !(ci_items_enc1 w c _ E), IH. reflexivity.
Qed.

Lemma zip_all_refl {A} (f : A -> A -> bool) l r : (forall x, f x x = true) -> zip_all f l (l ++ r) = true.
Proof. intros H. induction l as [|x l IH]; [reflexivity|]. cbn [app zip_all]. rewrite H. exact IH. Qed.

Lemma ci_char_eq_refl c : ci_char_eq c c = true.
Proof.
  unfold ci_char_eq. destruct ((c <? 128) && (c <? 128)); [apply N.eqb_refl|].
  rewrite <- (app_nil_r (lower_cp c)) at 2. apply zip_all_refl, N.eqb_refl.
Qed.

Lemma ci_item_eq_refl x : ci_item_eq x x = true.
Proof. destruct x; cbn [ci_item_eq]; [apply ci_char_eq_refl | apply N.eqb_refl]. Qed.

(* a case-sensitive match of a valid needle is a case-insensitive match, whatever the haystack... *)
Theorem starts_with_cs_ci s p : valid_utf8 p = true -> starts_with_cs s p = true -> starts_with_ci s p = true.
Proof.
  intros Vp [t ->]%starts_with_cs_spec. unfold starts_with_ci.
  rewrite (proj2 (Nat.ltb_ge (length (p ++ t)) (length p))) by (rewrite app_length; lia).
  rewrite (ci_items_app p t Vp). apply zip_all_refl, ci_item_eq_refl.
Qed.

(* ...but not of a needle that ends in the middle of a char of the haystack: starts_with(x"c3a9", x"c3") *)
Lemma starts_with_cs_ci_needs_valid :
  starts_with_cs [195; 169] [195] = true /\ starts_with_ci [195; 169] [195] = false.
Proof. vm_compute. split; reflexivity. Qed.

(* the class of the known finding C28-starts-with-ci-zip *)
Definition KnownC28_sw_zip (s p : bytes) : bool :=
  negb (forallb len_stable (utf8_chars s) && forallb len_stable (utf8_chars p)).

Theorem starts_with_ci_spec s p : valid_utf8 s = true -> valid_utf8 p = true -> KnownC28_sw_zip s p = false ->
  starts_with_ci s p = is_prefix (map low1 (utf8_chars p)) (map low1 (utf8_chars s)).
Proof.
  intros Vs Vp K. unfold KnownC28_sw_zip in K. apply negb_false_iff, andb_true_iff in K as [Ks Kp].
  rewrite (starts_with_ci_valid s p Vs Vp). apply eq_iff_eq_true.
  rewrite <- (zip_prefix_stable _ _ Kp Ks). unfold blen. rewrite !utf8_reencode by assumption.
  destruct (Nat.ltb_spec (length s) (length p)) as [G|G].
  - split; [discriminate | intros [_ H]; lia].
  - split; [intros H; split; [exact H | exact G] | intros [H _]; exact H].
Qed.

(* the pieces of a split are valid UTF-8, so join's lossy conversion leaves them alone *)
Lemma find_sub_valid p v b a : valid_utf8 p = true -> p <> [] -> valid_utf8 v = true ->
  find_sub p v = Some (b, a) -> valid_utf8 b = true /\ valid_utf8 a = true.
Proof.
  intros Hp Hne Hv ->%find_sub_some.
  destruct (valid_split b (p ++ a) Hv) as [Hb Hpa].
  - pose proof (valid_head_boundary p Hp) as H. destruct p; [contradiction | exact H].
  - split; [exact Hb|]. rewrite valid_app_prefix in Hpa by exact Hp. exact Hpa.
Qed.

Definition all_valid (l : list bytes) : Prop := Forall (fun x => valid_utf8 x = true) l.

Lemma splitn_ne_valid fuel : forall n p v, valid_utf8 p = true -> p <> [] -> valid_utf8 v = true ->
  all_valid (splitn_ne fuel n p v).
Proof.
  induction fuel as [|f IH]; intros n p v Hp Hne Hv; cbn [splitn_ne]; [repeat constructor; exact Hv|].
  destruct (n =? 0); [constructor|]. destruct (n =? 1); [repeat constructor; exact Hv|].
  destruct (find_sub p v) as [[b a]|] eqn:F; [|repeat constructor; exact Hv].
  destruct (find_sub_valid p v b a Hp Hne Hv F) as [Hb Ha]. constructor; [exact Hb | apply IH; assumption].
Qed.

Lemma all_valid_concat l : all_valid l -> valid_utf8 (concat l) = true.
Proof.
  induction 1 as [|x l Hx _ IH]; [reflexivity|]. cbn [concat]. rewrite valid_app_prefix by exact Hx. exact IH.
Qed.

Lemma char_pieces_valid v : valid_utf8 v = true -> all_valid (char_pieces v).
Proof.
  intros Hv. unfold char_pieces. apply Forall_map. eapply Forall_impl; [|apply (chars_scalar v Hv)].
  cbn beta. intros c Hc. rewrite <- (app_nil_r (utf8_of_cp c)). rewrite valid_cp by exact Hc. reflexivity.
Qed.

Lemma split_empty_valid n v : valid_utf8 v = true -> all_valid (split_empty n v).
Proof.
  intros Hv. unfold split_empty.
  assert (Hall : all_valid ([] :: char_pieces v ++ [[]])).
  { constructor; [reflexivity|]. apply Forall_app; split; [apply char_pieces_valid; exact Hv | repeat constructor]. }
  destruct (n =? 0); [constructor|]. destruct (_ <=? n); [exact Hall|].
  apply (Forall_firstn_skipn _ (N.to_nat (n - 1))) in Hall as [Hf Hs].
  rewrite take_n_firstn. apply Forall_app; split; [exact Hf|].
  constructor; [|constructor]. apply all_valid_concat, Hs.
Qed.

Theorem split_pieces_valid s d limit : all_valid (split_str s d limit).
Proof.
  unfold split_str. destruct (utf8_lossy d) as [|x p] eqn:E.
  - apply split_empty_valid, valid_lossy.
  - apply splitn_ne_valid; [rewrite <- E; apply valid_lossy | discriminate | apply valid_lossy].
Qed.

Lemma all_bytes_valid l : all_valid l -> all_bytes (map VBytes l) = Some l.
Proof.
  induction 1 as [|x l Hx _ IH]; [reflexivity|]. cbn [map all_bytes]. rewrite IH, (lossy_valid x Hx). reflexivity.
Qed.

(* the law on the functions themselves: join(split(s, d, limit: n), d) = s (lossily converted) for n >= 1 *)
Theorem fn_join_split s d limit : (1 <= limit)%Z ->
  exists l, fn_split (VBytes s) (VBytes d) (VInt limit) = ROk (VArr l)
            /\ fn_join (VArr l) (Some (VBytes d)) = ROk (VBytes (utf8_lossy s)).
Proof.
  intros Hl. eexists. split; [reflexivity|]. unfold fn_join.
  rewrite (all_bytes_valid _ (split_pieces_valid s d limit)), (join_split s d limit Hl). reflexivity.
Qed.
