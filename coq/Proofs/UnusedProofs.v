(* C34, syntactic half and the property-level theorems: what the visitor can flag, which selections delete
   only statements of a given kind, and removal of flagged statements at the root and at any position. *)
From Coq Require Import List Bool Lia PeanoNat.
From VRL Require Import Base.Value Model.Expr Model.Eval Model.Unused Proofs.ListFacts Proofs.EvalProofs Proofs.UnusedEvalProofs.
Import ListNotations.
Local Open Scope list_scope.

(* every element of l, numbered from off, satisfies P *)
Definition numbered {A} (off : nat) (l : list A) (P : nat -> A -> Prop) : Prop :=
  forall j a, nth_error l j = Some a -> P (off + j) a.

Lemma numbered_cons {A} off (x : A) r P : numbered off (x :: r) P -> P off x /\ numbered (S off) r P.
Proof.
  intros H. split; [rewrite <- (Nat.add_0_r off); exact (H 0 x eq_refl)|].
  intros j a Hj. rewrite Nat.add_succ_comm. exact (H (S j) a Hj).
Qed.

Lemma kid_obj kvs j kv : nth_error kvs j = Some kv -> nth_error (children (PObj kvs)) j = Some (snd kv).
Proof. intros H. cbn [children]. rewrite nth_error_map, H. reflexivity. Qed.

(* l is the run of children of e that starts at child number off *)
Definition kids_at (e : pexpr) (off : nat) (l : list pexpr) : Prop :=
  numbered off l (fun i a => nth_error (children e) i = Some a).

Lemma kid_if_c c t f : kids_at (PIf c t f) 0 c.
Proof. intros j a. apply nth_error_app_l. Qed.

Lemma kid_if_t c t f : kids_at (PIf c t f) (List.length c) t.
Proof. intros j a H. cbn [children]. rewrite nth_error_app_off. apply nth_error_app_l, H. Qed.

Lemma kid_if_f c t fb : kids_at (PIf c t (Some fb)) (List.length c + List.length t) fb.
Proof. intros j a H. cbn [children]. rewrite app_assoc, <- app_length, nth_error_app_off. exact H. Qed.

(* st' has the diagnostics of st and, in front of them, new ones that all satisfy G.  Only v_diags is looked at, so
   the level bookkeeping of the visitor (inc, dec, mark_exp, mark_blk, scoped, ...) disappears by conversion. *)
Definition adds (G : pos * wcls -> Prop) (st st' : vstate) : Prop :=
  exists new, v_diags st' = new ++ v_diags st /\ Forall G new.

Lemma adds_refl G st : adds G st st.
Proof. exists []. split; auto. Qed.

Lemma adds_trans G s1 s2 s3 : adds G s1 s2 -> adds G s2 s3 -> adds G s1 s3.
Proof.
  intros [n1 [E1 F1]] [n2 [E2 F2]]. exists (n2 ++ n1). split.
  - rewrite E2, E1, app_assoc. reflexivity.
  - apply Forall_app; auto.
Qed.

Lemma adds_after G (f : vstate -> vstate) s1 s2 : adds G s1 s2 -> (forall s, adds G s (f s)) -> adds G s1 (f s2).
Proof. intros H Hf. exact (adds_trans _ _ _ _ H (Hf s2)). Qed.

Lemma adds_mono (G G' : pos * wcls -> Prop) st st' : (forall qc, G qc -> G' qc) -> adds G st st' -> adds G' st st'.
Proof. intros H [n [E Fn]]. exists n. split; [exact E|]. eapply Forall_impl; [exact H|exact Fn]. Qed.

Lemma adds_flag (G : pos * wcls -> Prop) st p c : G (p, c) -> adds G st (flag st p c).
Proof. intros H. exists [(p, c)]. split; [reflexivity|]. constructor; [exact H|constructor]. Qed.

Lemma foldi_adds {A} G (g : nat -> A -> vstate -> vstate) (r : list A) : forall off,
  numbered off r (fun i a => forall st, adds G st (g i a st)) -> forall st, adds G st (foldi g off r st).
Proof.
  induction r as [|a r IH]; intros off H st; cbn [foldi]; [apply adds_refl|].
  apply numbered_cons in H as [Ha Hr]. exact (adds_trans _ _ _ _ (Ha st) (IH _ Hr _)).
Qed.

Lemma fold_blk_adds G (g : nat -> pexpr -> vstate -> vstate) (r : list pexpr) : forall off,
  numbered off r (fun i a => forall st, adds G st (g i a st)) -> forall st, adds G st (fold_blk g off r st).
Proof.
  induction r as [|a r IH]; intros off H st; cbn [fold_blk]; [apply adds_refl|].
  apply numbered_cons in H as [Ha Hr].
  destruct r as [|b r']; [exact (Ha (exiting_block st))|exact (adds_trans _ _ _ _ (Ha st) (IH _ Hr _))].
Qed.

(* the new diagnostics are about sub-expressions of e (which sits at position p) of the right shape *)
Definition good (e : pexpr) (p : pos) (qc : pos * wcls) : Prop :=
  exists r x, fst qc = p ++ r /\ sub e r = Some x /\ shape_ok (snd qc) x = true.

Definition ext (e : pexpr) (p : pos) : vstate -> vstate -> Prop := adds (good e p).

Lemma ext_child e p i x st st' : nth_error (children e) i = Some x -> ext x (p ++ [i]) st st' -> ext e p st st'.
Proof.
  intros Hn. apply adds_mono. intros qc [r [y [E1 [E2 E3]]]].
  exists (i :: r), y. split; [rewrite E1, <- app_assoc; reflexivity|]. split; [|exact E3].
  cbn [sub]. rewrite Hn. exact E2.
Qed.

Lemma ext_flag e p st c : shape_ok c e = true -> ext e p st (flag st p c).
Proof. intros H. apply adds_flag. exists [], e. cbn [fst snd sub]. rewrite app_nil_r. auto. Qed.

Lemma ext_scoped e p f st : (forall s, ext e p s (f s)) -> ext e p st (scoped f st).
Proof. intros H. exact (H (mark_exp (inc st) true)). Qed.

(* visit_block over a segment of the children *)
Lemma vblock_ext e p (l : list pexpr) off :
  numbered off l (fun i a => forall st, ext e p st (visit a (p ++ [i]) st)) ->
  forall st, ext e p st (match l with
                         | [] => st
                         | _ :: _ => fold_blk (fun i x s => visit x (p ++ [i]) s) off l (enter_block st)
                         end).
Proof.
  intros H st. destruct l eqn:El; [apply adds_refl|]. rewrite <- El in *.
  exact (fold_blk_adds _ (fun i x s => visit x (p ++ [i]) s) l off H (enter_block st)).
Qed.

Lemma diags_if (b c : bool) st : v_diags (if b then mark_exp st c else st) = v_diags st.
Proof. destruct b; reflexivity. Qed.

Lemma call_tail_ext e p f bang clo st :
  match clo with
  | Some body => forall s, ext e p s (body s)
  | None => is_se f = false -> shape_ok WCall e = true
  end ->
  ext e p st (call_tail f bang clo p st).
Proof.
  intros H. unfold call_tail.
  (* the two optional mark_exp around the middle step leave the diagnostics alone *)
  set (st2 := if negb bang && is_within st then mark_exp st true else st).
  assert (E2 : v_diags st2 = v_diags st) by apply diags_if.
  unfold ext, adds. rewrite diags_if, <- E2.
  destruct (is_se f); [apply adds_refl|]. destruct clo as [body|].
  - exact (H (mark_exp st2 true)).
  - destruct (is_unused st2); [apply ext_flag; auto|apply adds_refl].
Qed.

Theorem visit_ext e : forall p st, ext e p st (visit e p st).
Proof.
  induction e as [e IH] using pexpr_kids_ind. intros q.
  assert (kid : forall i x, nth_error (children e) i = Some x -> forall st, ext e q st (visit x (q ++ [i]) st)).
  { intros i x Hx st. apply (ext_child _ _ i x); [exact Hx|]. rewrite Forall_forall in IH. eapply IH, nth_error_In, Hx. }
  clear IH. destruct e; intros st; cbn [visit].
  - destruct (is_unused st); [apply ext_flag; reflexivity|apply adds_refl].
  - apply adds_refl.
  - apply adds_refl.
  - apply adds_refl.
  - destruct (is_call e); [exact (kid 0 _ eq_refl st)|apply adds_refl].
  - exact (kid 0 _ eq_refl st).
  - apply vblock_ext. exact kid.
  - apply foldi_adds. exact kid.
  - apply adds_trans with (s2 := if is_unused st then flag st q WObj else st).
    + destruct (is_unused st); [apply ext_flag; reflexivity|apply adds_refl].
    + apply foldi_adds. intros j kv Hj s. apply ext_scoped, kid, kid_obj, Hj.
  - apply ext_scoped. intros s. cbv zeta.
    (* backwards: the else-block if there is one, the if-block, the predicates *)
    destruct f as [fb|];
      [apply adds_after; [|intros s1; apply ext_scoped, vblock_ext; intros j a Hj; apply kid, kid_if_f, Hj]|];
      apply adds_after.
    1,3: apply foldi_adds; intros j a Hj; apply kid, kid_if_c, Hj.
    all: intros s1; apply ext_scoped, vblock_ext; intros j a Hj; apply kid, kid_if_t, Hj.
  - eapply adds_trans; [exact (kid 0 _ eq_refl st)|apply ext_scoped, (kid 1 _ eq_refl)].
  - exact (kid 0 _ eq_refl st).
  - apply ext_scoped, (kid 0 _ eq_refl).
  - apply ext_scoped, (kid 0 _ eq_refl).
  - apply adds_refl.
  - apply ext_scoped, (kid 0 _ eq_refl).
  - apply adds_after; [apply foldi_adds; intros j a Hj s; apply ext_scoped, kid, Hj|].
    intros s. apply call_tail_ext. intros Hse. cbn [shape_ok]. rewrite Hse. reflexivity.
  - apply call_tail_ext. intros Hse. vm_compute in Hse. discriminate.
  - apply call_tail_ext. intros Hse. vm_compute in Hse. discriminate.
  - apply call_tail_ext. reflexivity.
  - apply call_tail_ext. reflexivity.
  - apply adds_after; [apply ext_scoped, (kid 0 _ eq_refl)|].
    intros s0. apply call_tail_ext. intros s. apply vblock_ext. intros j a Hj. exact (kid (S j) a Hj).
Qed.

Definition flagged_ok (p : list pexpr) (qc : pos * wcls) : Prop :=
  exists x, psub p (fst qc) = Some x /\ shape_ok (snd qc) x = true.

(* the root loop, over a suffix es (starting at index i) of the program p *)
Lemma visit_root_ext p es : forall i st,
  numbered i es (fun k x => nth_error p k = Some x) -> adds (flagged_ok p) st (visit_root i es st).
Proof.
  induction es as [|x r IH]; intros i st Hp; cbn [visit_root]; [apply adds_refl|].
  apply numbered_cons in Hp as [Hi Hr].
  assert (Hx : forall s, adds (flagged_ok p) s (visit x [i] s)).
  { intros s. eapply adds_mono; [|apply (visit_ext x [i] s)]. intros qc [r0 [y [E1 [E2 E3]]]].
    exists y. rewrite E1. cbn [app psub]. rewrite Hi. auto. }
  destruct r as [|b r']; [exact (Hx (mark_exp (inc st) true))|].
  exact (adds_trans _ _ _ _ (Hx st) (IH _ _ Hr)).
Qed.

Theorem flagged_shape (p : list pexpr) (q : pos) (c : wcls) :
  In (q, c) (check_program p) -> exists x, psub p q = Some x /\ shape_ok c x = true.
Proof.
  unfold check_program. intros H. apply in_rev in H.
  destruct (visit_root_ext p p 0 v0 (fun j x Hj => Hj)) as [n [E Fn]]. cbn [v0 v_diags] in E.
  rewrite E, app_nil_r in H. rewrite Forall_forall in Fn. exact (Fn _ H).
Qed.

Lemma forallb_map_snd {A} (g : pexpr -> bool) (kvs : list (A * pexpr)) :
  forallb g (map snd kvs) = forallb (fun kv => g (snd kv)) kvs.
Proof. induction kvs as [|kv r IH]; cbn; auto. rewrite IH. reflexivity. Qed.

(* a flagged shape with clean children is a clean expression *)
Lemma shape_kids_total tf c x : shape_ok c x = true -> kids_total tf x = true -> total tf x = true.
Proof.
  unfold kids_total. destruct c, x; cbn [shape_ok]; try discriminate; intros _ H; cbn [total children] in *; auto.
  - rewrite forallb_map_snd, andb_true_r in H. exact H.
  - rewrite andb_comm. exact H.
Qed.

Lemma shape_kids_eff_free c x : shape_ok c x = true -> kids_eff_free x = true -> eff_free x = true.
Proof.
  unfold kids_eff_free. destruct c, x; cbn [shape_ok]; try discriminate; intros _ H; cbn [eff_free children] in *; auto.
  rewrite forallb_map_snd in H. exact H.
Qed.

Lemma foralli_true {A} (f : nat -> A -> bool) (l : list A) : forall off,
  numbered off l (fun i x => f i x = true) -> foralli f off l = true.
Proof.
  induction l as [|x r IH]; intros off H; cbn [foralli]; auto.
  apply numbered_cons in H as [Hx Hr]. rewrite Hx. exact (IH _ Hr).
Qed.

Lemma stmts_ok_true {A} (D : A -> bool) (sel : nat -> bool) (l : list A) : forall off,
  numbered off l (fun i x => sel i = true -> D x = true) -> stmts_ok D sel off l = true.
Proof.
  induction l as [|x r IH]; intros off H; cbn [stmts_ok]; auto.
  apply numbered_cons in H as [Hx Hr]. destruct r as [|y r']; auto.
  rewrite (IH _ Hr), andb_true_r. destruct (sel off); auto.
Qed.

Section Selected.
  Variable D : pexpr -> bool.
  Variable sel : pos -> bool.

  (* every selected strict sub-expression of e (which sits at position p0) satisfies D *)
  Definition below (e : pexpr) (p0 : pos) : Prop :=
    forall r y, r <> [] -> sub e r = Some y -> sel (p0 ++ r) = true -> D y = true.

  Lemma below_child e p0 i x : nth_error (children e) i = Some x -> below e p0 -> below x (p0 ++ [i]).
  Proof.
    intros Hn H r y Hr Hs Hq. apply (H (i :: r) y); [discriminate| |rewrite <- app_assoc in Hq; exact Hq].
    cbn [sub]. rewrite Hn. exact Hs.
  Qed.

  Theorem sel_below e : forall p0, below e p0 -> sel_ok D sel p0 e = true.
  Proof.
    induction e as [e IH] using pexpr_kids_ind. intros p0 Hb.
    assert (kid : forall i x, nth_error (children e) i = Some x -> sel_ok D sel (p0 ++ [i]) x = true).
    { intros i x Hx. rewrite Forall_forall in IH. apply IH; [eapply nth_error_In, Hx|eapply below_child; eassumption]. }
    assert (kids : forall off l, kids_at e off l -> foralli (fun i x => sel_ok D sel (p0 ++ [i]) x) off l = true).
    { intros off l Hl. apply foralli_true. intros j a Hj. apply kid, Hl, Hj. }
    assert (stmts : forall off l, kids_at e off l ->
                    stmts_ok D (fun i => sel (p0 ++ [i])) off l && foralli (fun i x => sel_ok D sel (p0 ++ [i]) x) off l = true).
    { intros off l Hl. rewrite (kids off l Hl), andb_true_r. apply stmts_ok_true. intros j a Hj.
      apply (Hb [off + j] a); [discriminate|]. cbn [sub]. rewrite (Hl j a Hj). reflexivity. }
    (* leaves, and nodes with a single child that is not a statement, are immediate *)
    clear IH. destruct e; cbn [sel_ok]; try reflexivity; try exact (kid 0 _ eq_refl).
    - apply (stmts 0). exact (fun _ _ H => H).
    - apply (kids 0). exact (fun _ _ H => H).
    - apply foralli_true. intros j kv Hj. apply kid, kid_obj, Hj.
    - rewrite (kids 0 c), (stmts (List.length c) t); [|apply kid_if_t|apply kid_if_c].
      destruct f; [|reflexivity]. apply stmts, kid_if_f.
    - rewrite (kid 0 _ eq_refl). exact (kid 1 _ eq_refl).
    - destruct m; [exact (kid 0 _ eq_refl)|reflexivity].
    - apply (kids 0). exact (fun _ _ H => H).
    - rewrite (kid 0 _ eq_refl). apply (stmts 1). exact (fun _ _ H => H).
  Qed.

  Theorem sel_below_prog (p : list pexpr) :
    (forall q x, psub p q = Some x -> sel q = true -> D x = true) -> sel_ok_prog D sel p = true.
  Proof.
    intros H. unfold sel_ok_prog. apply andb_true_iff. split.
    - apply stmts_ok_true. intros j y Hj. apply H. cbn [psub Nat.add sub]. rewrite Hj. reflexivity.
    - apply foralli_true. intros j y Hj. apply sel_below.
      intros r z _ Hs. apply H. cbn [app psub Nat.add]. rewrite Hj. exact Hs.
  Qed.
End Selected.

Lemma pos_eqb_eq a b : pos_eqb a b = true -> a = b.
Proof.
  revert b. induction a as [|x a IH]; intros [|y b]; cbn; try discriminate; auto.
  intros H. apply andb_true_iff in H as [H1 H2]. apply Nat.eqb_eq in H1. f_equal; auto.
Qed.

(* if the expression at q satisfies D, deleting "the statement at q" only deletes D-statements *)
Theorem sel_single_prog D q (p : list pexpr) (x : pexpr) : psub p q = Some x -> D x = true ->
  sel_ok_prog D (pos_eqb q) p = true.
Proof.
  intros Hx HD. apply sel_below_prog. intros q' y Hy Hq. apply pos_eqb_eq in Hq. congruence.
Qed.

Section Removal.
  Variable F : fname -> list value -> option value.
  Variable binop : opcode -> value -> value -> option value.
  Notation evl := (eval F binop).

  (* a pure statement x in front of a non-empty rest can go; if x may fail, the original may instead end in that
     plain error *)
  Lemma blk_app_pur t pre x post : post <> [] -> pur F binop t x ->
    forall s s', R s s' ->
      (t = false /\ fst (blk F binop (pre ++ x :: post) s) = inr Error) \/
      sim (blk F binop (pre ++ x :: post) s) (blk F binop (pre ++ post) s').
  Proof.
    intros Hne Hx. induction pre as [|a pre IH]; intros s s' HR; cbn [app].
    - rewrite blk_cons by exact Hne. destruct (Hx s (R_faults_l _ _ HR)) as [HR1 Hok].
      destruct (evl x s) as [[v|[]] s1]; cbn [fst snd] in *; try contradiction; [right|left; auto].
      exact (eqv_refl F binop (EBlock post) _ _ (R_trans _ _ _ (R_sym _ _ HR1) HR)).
    - rewrite !blk_cons by (destruct pre; discriminate || exact Hne).
      destruct (eqv_refl F binop a s s' HR) as [E HR1].
      destruct (evl a s) as [[v|er] s1], (evl a s') as [r' s1']; cbn [fst snd] in *; subst r';
        [exact (IH _ _ HR1)|right; exact (sim_ret _ _ _ HR1)].
  Qed.

  Variable tf : fname -> nat -> bool.
  Hypothesis tf_total : forall f args, tf f (List.length args) = true -> F f args <> None.

  (* t = true: the children of the flagged statement cannot fail; t = false: they are only effect-free *)
  Theorem removable_root_gen (t : bool) pre x post c :
    post <> [] ->
    In ([List.length pre], c) (check_program (pre ++ x :: post)) ->
    (if t then kids_total tf x else kids_eff_free x) = true ->
    forall s, faults s = [] ->
      (t = false /\ fst (run F binop (elab_prog (pre ++ x :: post)) s) = Failed) \/
      same_run F binop (elab_prog (pre ++ x :: post)) (elab_prog (pre ++ post)) s.
  Proof.
    intros Hne Hin Hk s Hs.
    destruct (flagged_shape _ _ _ Hin) as [y [Hy Hsh]].
    cbn [psub] in Hy. rewrite nth_error_app2, Nat.sub_diag in Hy by lia. injection Hy as <-.
    assert (Hp : pur F binop t (elab x)).
    { apply (pure_eval F binop tf tf_total).
      destruct t; [apply (shape_kids_total tf c)|apply (shape_kids_eff_free c)]; assumption. }
    unfold same_run, elab_prog. rewrite !map_app, !run_blk by exact Hs. cbn [map fst snd].
    destruct (blk_app_pur t (map elab pre) _ (map elab post) (fun E => Hne (map_eq_nil _ _ E)) Hp s s (R_self s Hs))
      as [[Ht E]|[E [Hc _]]]; [left|right]; rewrite E; auto.
  Qed.

  (* any flagged position: if the flagged expression's children are effect-free and cannot fail, deleting the
     statement at that position (a no-op unless it is a non-last statement of some block) preserves the run *)
  Theorem removable_at p q c x :
    In (q, c) (check_program p) -> psub p q = Some x -> kids_total tf x = true ->
    forall s, faults s = [] -> same_run F binop (elab_prog p) (elab_prog (delete_at q p)) s.
  Proof.
    intros Hin Hx Hk. destruct (flagged_shape _ _ _ Hin) as [y [Hy Hsh]].
    rewrite Hx in Hy. injection Hy as <-.
    apply (pdel_run F binop tf tf_total), (sel_single_prog _ _ _ x Hx), (shape_kids_total tf c x Hsh Hk).
  Qed.
End Removal.
