(* Key-sorted association lists as BTreeMap<KeyString, Value> (Base/Value.v): a sorted map is determined by its
   set of entries, so collecting any permutation of a sorted map's entries gives the map back. *)
From Coq Require Import List NArith Bool Permutation.
From VRL Require Import Base.Bytes Base.Value Model.Flatten.
Import ListNotations.

Lemma obj_set_perm m k x : ~ In k (map fst m) -> Permutation (obj_set m k x) ((k, x) :: m).
Proof.
  induction m as [|[k' v] m IH]; intros Hn; cbn [obj_set]; [reflexivity|].
  destruct (bytes_cmp k' k) eqn:C.
  - apply bytes_cmp_eq in C. subst. exfalso. apply Hn. left; reflexivity.
  - rewrite perm_swap. apply perm_skip. apply IH. intros Hin. apply Hn. right; exact Hin.
  - reflexivity.
Qed.

Definition ins_entry (m : obj) (kv : entry) : obj := obj_set m (fst kv) (snd kv).

Lemma collect_unfold l : collect l = fold_left ins_entry l [].
Proof. reflexivity. Qed.

Lemma fold_ins_sorted l : forall acc, obj_sorted acc = true -> obj_sorted (fold_left ins_entry l acc) = true.
Proof. induction l as [|kv l IH]; intros acc H; cbn [fold_left]; [exact H|]. apply IH. apply obj_set_sorted. exact H. Qed.

Lemma fold_ins_perm l : forall acc, NoDup (map fst (acc ++ l)) -> Permutation (fold_left ins_entry l acc) (acc ++ l).
Proof.
  induction l as [|[k x] l IH]; intros acc H; cbn [fold_left]; [rewrite app_nil_r; reflexivity|].
  assert (P : Permutation (ins_entry acc (k, x)) ((k, x) :: acc)).
  { apply obj_set_perm. rewrite map_app in H. apply NoDup_remove_2 in H. intros Hin. apply H, in_or_app. left; exact Hin. }
  rewrite IH, P; [apply Permutation_middle|].
  eapply Permutation_NoDup; [|exact H]. rewrite P. apply Permutation_map, Permutation_sym, Permutation_middle.
Qed.

Lemma collect_sorted l : obj_sorted (collect l) = true.
Proof. apply fold_ins_sorted. reflexivity. Qed.

Lemma collect_perm l : NoDup (map fst l) -> Permutation (collect l) l.
Proof. exact (fold_ins_perm l []). Qed.

(* a sorted map is determined by its set of entries *)
Lemma sorted_perm_eq : forall l1 l2, obj_sorted l1 = true -> obj_sorted l2 = true -> Permutation l1 l2 -> l1 = l2.
Proof.
  induction l1 as [|[k1 v1] t1 IH]; intros l2 S1 S2 P.
  - apply Permutation_nil in P. congruence.
  - destruct l2 as [|[k2 v2] t2]; [apply Permutation_sym, Permutation_nil in P; discriminate|].
    assert (I1 : In (k1, v1) ((k2, v2) :: t2)) by (rewrite <- P; left; reflexivity).
    assert (I2 : In (k2, v2) ((k1, v1) :: t1)) by (rewrite P; left; reflexivity).
    destruct I1 as [[= <- <-]|I1]; [f_equal; eauto using sorted_tail, Permutation_cons_inv|].
    destruct I2 as [[= <- <-]|I2]; [destruct (sorted_not_in _ _ _ _ S2 I1)|].
    (* otherwise each head is below the other *)
    destruct (cmp_lt_neq k1 k1); [|reflexivity].
    exact (bytes_cmp_lt_trans _ _ _ (sorted_head_lt k1 v1 t1 S1 _ _ I2) (sorted_head_lt k2 v2 t2 S2 _ _ I1)).
Qed.

Lemma collect_of_perm l m : obj_sorted m = true -> Permutation l m -> collect l = m.
Proof.
  intros Hs P. apply sorted_perm_eq; [apply collect_sorted | exact Hs|].
  rewrite collect_perm; [exact P|].
  eapply Permutation_NoDup; [apply Permutation_map, Permutation_sym, P | apply sorted_nodup, Hs].
Qed.

