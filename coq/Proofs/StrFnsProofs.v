(* Proofs about Model/StrFns.v (C28): case mapping idempotence, trim, split/join, substring search. *)
From Coq Require Import List NArith ZArith Bool Lia FMapPositive.
From VRL Require Import Base.Bytes Base.Value Model.CodecUtf8 Model.CaseTables Model.StrFns
     Proofs.ListFacts Proofs.PunycodeProofs Proofs.StrUtf8.
Import ListNotations.
Local Open Scope N_scope.

Lemma chars_all_scalar s : all_scalar (chars s).
Proof. apply chars_scalar, valid_lossy. Qed.

(* on valid UTF-8 the lossy conversion inside `chars` does nothing *)
Lemma chars_valid v : valid_utf8 v = true -> chars v = utf8_chars v.
Proof. intros H. unfold chars. rewrite (lossy_valid v H). reflexivity. Qed.

Lemma chars_lossy s : chars (utf8_lossy s) = chars s.
Proof. apply chars_valid, valid_lossy. Qed.

Lemma chars_str_app l x : all_scalar l -> chars (str l ++ utf8_lossy x) = l ++ chars x.
Proof.
  intros H. rewrite chars_valid by (unfold str; rewrite valid_of_cps_app by exact H; apply valid_lossy).
  apply utf8_chars_of_cps_app, H.
Qed.

Lemma chars_str l : all_scalar l -> chars (str l) = l.
Proof. intros H. rewrite chars_valid by apply valid_of_cps, H. apply utf8_chars_of_cps, H. Qed.

Lemma str_chars s : str (chars s) = utf8_lossy s.
Proof. apply utf8_reencode, valid_lossy. Qed.

Lemma all_scalar_app a b : all_scalar a -> all_scalar b -> all_scalar (a ++ b).
Proof. intros Ha Hb. apply Forall_app. split; assumption. Qed.

Lemma flat_map_fixed (f : N -> list N) l : Forall (fun d => f d = [d]) l -> flat_map f l = l.
Proof. induction 1 as [|d l Hd _ IH]; [reflexivity|]. cbn [flat_map]. rewrite Hd, IH. reflexivity. Qed.

Section UpcaseIdem.
  Variable upper : N -> list N.
  Hypothesis upper_scalar : forall c, is_scalar_cp c = true -> all_scalar (upper c).
  Hypothesis upper_stable : forall c d, In d (upper c) -> upper d = [d].

  Theorem upcase_with_idem s : upcase_with upper (upcase_with upper s) = upcase_with upper s.
  Proof.
    unfold upcase_with.
    rewrite chars_str
      by (apply Forall_flat_map; eapply Forall_impl; [exact upper_scalar | apply chars_all_scalar]).
    f_equal. apply flat_map_fixed, Forall_flat_map, Forall_forall. intros c _.
    apply Forall_forall. exact (upper_stable c).
  Qed.
End UpcaseIdem.

Section DowncaseIdem.
  Variable lower : N -> list N.
  Variable cased ign : N -> bool.
  Hypothesis lower_scalar : forall c, is_scalar_cp c = true -> all_scalar (lower c).
  Hypothesis lower_stable : forall c d, In d (lower c) -> lower d = [d] /\ d <> capital_sigma.
  Hypothesis lower_final_sigma : lower final_sigma = [final_sigma].
  Hypothesis lower_small_sigma : lower small_sigma = [small_sigma].

  Definition low_fixed (d : N) : Prop := lower d = [d] /\ d <> capital_sigma.

  (* the output consists of the two small sigmas and of outputs of `lower` *)
  Lemma lower_go_Forall (P : N -> Prop) l : P final_sigma -> P small_sigma ->
    Forall (fun c => Forall P (lower c)) l -> forall before, Forall P (lower_go lower cased ign before l).
  Proof.
    intros Hf Hs. induction 1 as [|c r Hc _ IH]; intros before; [constructor|].
    cbn [lower_go]. apply Forall_app; split; [|apply IH].
    destruct (c =? capital_sigma); [|exact Hc].
    constructor; [|constructor]. destruct (_ && _); assumption.
  Qed.

  Lemma lower_go_id l : Forall low_fixed l -> forall before, lower_go lower cased ign before l = l.
  Proof.
    induction 1 as [|c r [Hc Hn] _ IH]; intros before; [reflexivity|].
    cbn [lower_go]. rewrite (proj2 (N.eqb_neq c capital_sigma) Hn), Hc. cbn [app]. f_equal. apply IH.
  Qed.

  Theorem downcase_with_idem s :
    downcase_with lower cased ign (downcase_with lower cased ign s) = downcase_with lower cased ign s.
  Proof.
    unfold downcase_with, downcase_cps.
    rewrite chars_str by (apply lower_go_Forall;
      [reflexivity | reflexivity | eapply Forall_impl; [exact lower_scalar | apply chars_all_scalar]]).
    f_equal. apply lower_go_id, lower_go_Forall.
    - split; [exact lower_final_sigma | discriminate].
    - split; [exact lower_small_sigma | discriminate].
    - apply Forall_forall. intros c _. apply Forall_forall. exact (lower_stable c).
  Qed.
End DowncaseIdem.

Lemma upper_map_eq : upper_map = build_map upper_entries.
Proof. vm_cast_no_check (eq_refl upper_map). Qed.
Lemma lower_map_eq : lower_map = build_map lower_entries.
Proof. vm_cast_no_check (eq_refl lower_map). Qed.

(* a code point is left alone or mapped to the right-hand side of an entry *)
Lemma map_cp_cases l c : map_cp (build_map l) c = [c] \/ In (c, map_cp (build_map l) c) l.
Proof.
  destruct c as [|p]; [left; reflexivity|]. unfold map_cp.
  induction l as [|[[|q] w] l IH]; cbn [build_map fold_right fst snd]; try fold (build_map l).
  - left. rewrite PositiveMap.gempty. reflexivity.
  - destruct IH; [left | right; right]; assumption.
  - destruct (Pos.eq_dec p q) as [->|Hne].
    + rewrite PositiveMap.gss. right. left. reflexivity.
    + rewrite PositiveMap.gso by exact Hne. destruct IH; [left | right; right]; assumption.
Qed.

(* what is evaluated on the tables: every code point on a right-hand side is left alone by the mapping f and
   passes the test ok *)
Definition entries_stable (ok : N -> bool) (f : N -> list N) (l : list (N * list N)) : bool :=
  forallb (fun e => forallb (fun d => bytes_eqb (f d) [d] && ok d) (snd e)) l.

Lemma upper_entries_stable : entries_stable is_scalar_cp upper_cp upper_entries = true.
Proof. vm_compute. reflexivity. Qed.
Lemma lower_entries_stable :
  entries_stable (fun d => is_scalar_cp d && negb (d =? capital_sigma)) lower_cp lower_entries = true.
Proof. vm_compute. reflexivity. Qed.

(* an output d of such a table is the unmapped input itself or stands in an entry *)
Lemma table_stable ok l m c d : m = build_map l -> entries_stable ok (map_cp m) l = true -> In d (map_cp m c) ->
  map_cp m d = [d] /\ (d = c \/ ok d = true).
Proof.
  intros -> H Hd. destruct (map_cp_cases l c) as [E|E].
  - rewrite E in Hd. destruct Hd as [<-|[]]. split; [exact E | left; reflexivity].
  - unfold entries_stable in H. rewrite forallb_forall in H. specialize (H _ E). cbn [snd] in H.
    rewrite forallb_forall in H. apply H, andb_true_iff in Hd as [H1%bytes_eqb_eq H2].
    split; [exact H1 | right; exact H2].
Qed.

Lemma upper_cp_stable c d : In d (upper_cp c) -> upper_cp d = [d].
Proof. intros Hd. apply (table_stable _ _ _ c d upper_map_eq upper_entries_stable Hd). Qed.

Lemma upper_cp_scalar c : is_scalar_cp c = true -> all_scalar (upper_cp c).
Proof.
  intros Hc. apply Forall_forall. intros d Hd.
  destruct (table_stable _ _ _ c d upper_map_eq upper_entries_stable Hd) as [_ [->|H]]; assumption.
Qed.

(* capital sigma is not its own lowercase, so it is no unmapped input either *)
Lemma lower_cp_stable c d : In d (lower_cp c) -> lower_cp d = [d] /\ d <> capital_sigma.
Proof.
  intros Hd. destruct (table_stable _ _ _ c d lower_map_eq lower_entries_stable Hd) as [H K].
  split; [exact H|]. intros ->. destruct K as [_|K]; [vm_compute in H | vm_compute in K]; discriminate.
Qed.

Lemma lower_cp_scalar c : is_scalar_cp c = true -> all_scalar (lower_cp c).
Proof.
  intros Hc. apply Forall_forall. intros d Hd.
  destruct (table_stable _ _ _ c d lower_map_eq lower_entries_stable Hd) as [_ [->|[H _]%andb_true_iff]];
    assumption.
Qed.

Theorem upcase_idem s : upcase (upcase s) = upcase s.
Proof. apply upcase_with_idem; [exact upper_cp_scalar | exact upper_cp_stable]. Qed.

Theorem downcase_idem s : downcase (downcase s) = downcase s.
Proof.
  apply downcase_with_idem;
    [exact lower_cp_scalar | exact lower_cp_stable | vm_compute; reflexivity | vm_compute; reflexivity].
Qed.

Definition all_ws (l : list N) : Prop := Forall (fun c => is_ws c = true) l.
Definition no_ws_ends (l : list N) : Prop :=
  (forall c r, l = c :: r -> is_ws c = false) /\ (forall c r, l = r ++ [c] -> is_ws c = false).

Lemma drop_while_spec {A} (f : A -> bool) l :
  exists pre, l = pre ++ drop_while f l /\ Forall (fun c => f c = true) pre
              /\ (forall c r, drop_while f l = c :: r -> f c = false).
Proof.
  induction l as [|x l (pre & E & Hp & Hh)].
  - exists []. repeat split; [constructor | discriminate].
  - cbn [drop_while]. destruct (f x) eqn:Fx.
    + exists (x :: pre). repeat split; [cbn [app]; f_equal; exact E | constructor; assumption | exact Hh].
    + exists []. repeat split; [constructor | intros c r [= <- _]; exact Fx].
Qed.

Lemma trim_spec l : exists pre suf, l = pre ++ trim l ++ suf /\ all_ws pre /\ all_ws suf /\ no_ws_ends (trim l).
Proof.
  unfold trim, trim_start, trim_end.
  destruct (drop_while_spec is_ws l) as (pre & E1 & Hpre & Hhead).
  set (m := drop_while is_ws l) in *.
  destruct (drop_while_spec is_ws (rev m)) as (sufr & E2 & Hsuf & Hlast).
  set (t := drop_while is_ws (rev m)) in *.
  assert (Em : m = rev t ++ rev sufr) by (rewrite <- (rev_involutive m), E2; apply rev_app_distr).
  exists pre, (rev sufr). repeat split.
  - rewrite E1 at 1. rewrite Em at 1. reflexivity.
  - exact Hpre.
  - apply Forall_rev. exact Hsuf.
  - intros c r H. apply (Hhead c (r ++ rev sufr)). rewrite Em, H. reflexivity.
  - intros c r H. apply (Hlast c (rev r)). rewrite <- (rev_involutive t), H. apply rev_app_distr.
Qed.

Theorem strip_ws_spec s : exists pre t suf,
  chars s = pre ++ t ++ suf /\ strip_ws s = str t /\ all_ws pre /\ all_ws suf /\ no_ws_ends t
  /\ utf8_lossy s = str pre ++ strip_ws s ++ str suf.
Proof.
  destruct (trim_spec (chars s)) as (pre & suf & E & Hp & Hs & Hn).
  exists pre, (trim (chars s)), suf. repeat split; try assumption; try apply Hn.
  rewrite <- str_chars. rewrite E at 1. unfold strip_ws, str. rewrite !utf8_of_cps_app. reflexivity.
Qed.

Lemma drop_while_none {A} (f : A -> bool) l : (forall c r, l = c :: r -> f c = false) -> drop_while f l = l.
Proof. destruct l as [|x l]; intros H; [reflexivity|]. cbn [drop_while]. rewrite (H x l eq_refl). reflexivity. Qed.

Lemma trim_fixed l : no_ws_ends l -> trim l = l.
Proof.
  intros [Hh Hl]. unfold trim, trim_start, trim_end. rewrite (drop_while_none _ l Hh).
  rewrite drop_while_none; [apply rev_involutive|].
  intros c r H. apply (Hl c (rev r)). rewrite <- (rev_involutive l), H. reflexivity.
Qed.

Theorem strip_ws_idem s : strip_ws (strip_ws s) = strip_ws s.
Proof.
  destruct (strip_ws_spec s) as (pre & t & suf & E & Es & _ & _ & Hn & _).
  pose proof (chars_all_scalar s) as Hs. rewrite E in Hs. apply Forall_app, proj2, Forall_app, proj1 in Hs.
  rewrite Es. unfold strip_ws at 1. rewrite chars_str, trim_fixed by assumption. reflexivity.
Qed.

Lemma is_prefix_iff p s : is_prefix p s = true <-> exists t, s = p ++ t.
Proof.
  revert s; induction p as [|x p IH]; intros s; cbn [is_prefix].
  - split; [intros _; exists s; reflexivity | reflexivity].
  - destruct s as [|y s].
    + split; [discriminate | intros [t H]; discriminate].
    + rewrite andb_true_iff, N.eqb_eq, IH. split.
      * intros [-> [t ->]]. exists t. reflexivity.
      * intros [t [= -> ->]]. split; [reflexivity | exists t; reflexivity].
Qed.

Lemma is_prefix_app p t : is_prefix p (p ++ t) = true.
Proof. apply is_prefix_iff. exists t. reflexivity. Qed.

Lemma is_prefix_skipn p s : is_prefix p s = true -> s = p ++ skipn (length p) s.
Proof. intros [t ->]%is_prefix_iff. rewrite skipn_app, skipn_all, Nat.sub_diag. reflexivity. Qed.

(* find_sub returns the first occurrence of p (p does not occur ending inside b ++ p minus its last byte), and
   None only when there is none *)
Lemma find_sub_spec p s :
  match find_sub p s with
  | Some (b, a) => s = b ++ p ++ a /\ forall b1 b2, b = b1 ++ b2 -> b2 <> [] -> is_prefix p (b2 ++ p ++ a) = false
  | None => forall b a, s <> b ++ p ++ a
  end.
Proof.
  induction s as [|c r IH]; cbn [find_sub]; destruct (is_prefix p _) eqn:E.
  1, 3: split; [exact (is_prefix_skipn _ _ E) | intros [|? ?] [|? ?] ? ?; try discriminate; contradiction].
  - intros b a H. symmetry in H. apply app_eq_nil in H as [_ H]. rewrite <- H, is_prefix_app in E. discriminate.
  - destruct (find_sub p r) as [[b a]|].
    + destruct IH as [-> IH]. split; [reflexivity|]. intros [|x b1] b2 Hb Hn.
      * cbn [app] in Hb. subst b2. exact E.
      * injection Hb as _ Hb. exact (IH b1 b2 Hb Hn).
    + intros [|x b] a H.
      * cbn [app] in H. rewrite H, is_prefix_app in E. discriminate.
      * injection H as _ H. exact (IH b a H).
Qed.

Lemma find_sub_some p s b a : find_sub p s = Some (b, a) -> s = b ++ p ++ a.
Proof. intros H. pose proof (find_sub_spec p s) as S. rewrite H in S. apply S. Qed.

Theorem starts_with_cs_spec s p : starts_with_cs s p = true <-> exists t, s = p ++ t.
Proof.
  unfold starts_with_cs. destruct (Nat.ltb_spec (length s) (length p)) as [E|_]; [|apply is_prefix_iff].
  split; [discriminate|]. intros [t ->]. rewrite app_length in E. lia.
Qed.

Lemma is_suffix_iff p s : is_suffix p s = true <-> exists t, s = t ++ p.
Proof.
  unfold is_suffix. rewrite is_prefix_iff. split.
  - intros [t H]. exists (rev t). rewrite <- (rev_involutive s), H, rev_app_distr, rev_involutive. reflexivity.
  - intros [t ->]. exists (rev t). apply rev_app_distr.
Qed.

Lemma is_infix_iff p s : is_infix p s = true <-> exists a b, s = a ++ p ++ b.
Proof.
  unfold is_infix. pose proof (find_sub_spec p s) as S. destruct (find_sub p s) as [[b a]|].
  - split; [intros _; exists b, a; apply S | reflexivity].
  - split; [discriminate | intros (a & b & E); destruct (S a b E)].
Qed.

Lemma join_bytes_cons sep p ps : ps <> [] -> join_bytes sep (p :: ps) = p ++ sep ++ join_bytes sep ps.
Proof. destruct ps; [contradiction | reflexivity]. Qed.

Lemma splitn_ne_nonempty fuel n p s : 1 <= n -> splitn_ne fuel n p s <> [].
Proof.
  intros Hn. destruct fuel; cbn [splitn_ne]; [discriminate|].
  destruct (N.eqb_spec n 0); [lia|].
  destruct (n =? 1); [discriminate|]. destruct (find_sub p s) as [[b a]|]; discriminate.
Qed.

Lemma join_splitn_ne fuel : forall n p s, 1 <= n -> join_bytes p (splitn_ne fuel n p s) = s.
Proof.
  induction fuel as [|f IH]; intros n p s Hn; cbn [splitn_ne]; [reflexivity|].
  destruct (N.eqb_spec n 0); [lia|]. destruct (N.eqb_spec n 1); [reflexivity|].
  destruct (find_sub p s) as [[b a]|] eqn:F; [|reflexivity].
  rewrite join_bytes_cons by (apply splitn_ne_nonempty; lia).
  rewrite IH by lia. symmetry. apply find_sub_some; exact F.
Qed.

Lemma join_empty_concat l : join_bytes [] l = concat l.
Proof.
  induction l as [|x [|y l] IH]; [reflexivity | apply eq_sym, app_nil_r |].
  change (join_bytes [] (x :: y :: l)) with (x ++ [] ++ join_bytes [] (y :: l)). rewrite IH. reflexivity.
Qed.

Lemma take_n_firstn {A} (n : N) (l : list A) : take_n n l = firstn (N.to_nat n) l.
Proof.
  revert n; induction l as [|x l IH]; intros n; cbn [take_n]; [destruct (N.to_nat n); reflexivity|].
  destruct (N.eqb_spec n 0) as [->|E]; [reflexivity|].
  replace (N.to_nat n) with (S (N.to_nat (n - 1))) by lia. cbn [firstn]. f_equal. apply IH.
Qed.

Lemma concat_char_pieces v : valid_utf8 v = true -> concat (char_pieces v) = v.
Proof.
  intros H. unfold char_pieces. rewrite <- flat_map_concat_map. apply (utf8_reencode v H).
Qed.

Lemma join_split_empty n v : 1 <= n -> valid_utf8 v = true -> join_bytes [] (split_empty n v) = v.
Proof.
  intros Hn Hv. unfold split_empty. rewrite join_empty_concat.
  destruct (N.eqb_spec n 0); [lia|].
  set (all := [] :: char_pieces v ++ [[]]).
  assert (Hall : concat all = v).
  { unfold all. cbn [concat app]. rewrite concat_app. cbn [concat]. rewrite !app_nil_r. apply concat_char_pieces; exact Hv. }
  destruct (N.of_nat (length all) <=? n); [exact Hall|].
  rewrite take_n_firstn, concat_app. cbn [concat]. rewrite app_nil_r, <- concat_app, firstn_skipn. exact Hall.
Qed.

Theorem join_split s d limit : (1 <= limit)%Z ->
  join_bytes (utf8_lossy d) (split_str s d limit) = utf8_lossy s.
Proof.
  intros Hl. unfold split_str.
  assert (Hn : 1 <= limit_of limit) by (unfold limit_of; destruct (Z.ltb_spec limit 0); lia).
  destruct (utf8_lossy d) as [|x p] eqn:Ed.
  - apply join_split_empty; [exact Hn | apply valid_lossy].
  - apply join_splitn_ne; exact Hn.
Qed.

Theorem join_split_valid s d limit : (1 <= limit)%Z -> valid_utf8 s = true -> valid_utf8 d = true ->
  join_bytes d (split_str s d limit) = s.
Proof.
  intros Hl Hs Hd. pose proof (join_split s d limit Hl) as H.
  rewrite (lossy_valid d Hd), (lossy_valid s Hs) in H. exact H.
Qed.

Lemma splitn_ne_pieces fuel : forall n p s, p <> [] ->
  Forall (fun x => length x <= length s)%nat (splitn_ne fuel n p s).
Proof.
  induction fuel as [|f IH]; intros n p s Hp; cbn [splitn_ne]; [repeat constructor|].
  destruct (n =? 0); [constructor|]. destruct (n =? 1); [repeat constructor|].
  destruct (find_sub p s) as [[b a]|] eqn:F; [|repeat constructor].
  apply find_sub_some in F as ->. rewrite !app_length. constructor; [lia|].
  eapply Forall_impl; [|apply IH; exact Hp]. cbn beta. lia.
Qed.

Theorem strlen_utf8 cps : all_scalar cps -> strlen (utf8_of_cps cps) = Z.of_nat (length cps).
Proof. intros H. unfold strlen. fold (str cps). rewrite chars_str by exact H. reflexivity. Qed.

Lemma utf8_of_cp_length c : (1 <= length (utf8_of_cp c))%nat.
Proof.
  unfold utf8_of_cp. destruct (c <? 128); [cbn; lia|]. destruct (c <? 2048); [cbn; lia|].
  destruct (c <? 65536); cbn; lia.
Qed.

Lemma str_length_ge l : (length l <= length (str l))%nat.
Proof.
  induction l as [|c l IH]; [cbn; lia|].
  unfold str in *. rewrite utf8_of_cps_cons, app_length. cbn [length]. pose proof (utf8_of_cp_length c). lia.
Qed.

(* the comparison of byte lengths that truncate makes decides whether chars were cut off *)
Lemma str_firstn_shorter k l : (length (str (firstn k l)) <? length (str l))%nat = (k <? length l)%nat.
Proof.
  rewrite <- (firstn_skipn k l) at 2. unfold str. rewrite utf8_of_cps_app, app_length.
  destruct (Nat.ltb_spec k (length l)) as [E|E].
  - pose proof (str_length_ge (skipn k l)) as H. unfold str in H. rewrite skipn_length in H. apply Nat.ltb_lt. lia.
  - rewrite (skipn_all2 l E). apply Nat.ltb_ge. cbn. lia.
Qed.

Definition nchars (s : bytes) : N := N.of_nat (length (chars s)).

Theorem truncate_spec s limit x :
  let n := limit_of limit in
  (nchars s <= n -> truncate_str s limit x = utf8_lossy s)
  /\ (n < nchars s -> truncate_str s limit x = str (firstn (N.to_nat n) (chars s)) ++ utf8_lossy x).
Proof.
  cbn zeta. unfold truncate_str, nchars. fold (chars s).
  rewrite take_n_firstn, <- (str_chars s), str_firstn_shorter.
  destruct (Nat.ltb_spec (N.to_nat (limit_of limit)) (length (chars s))) as [E|E]; split; intros H;
    (reflexivity || lia).
Qed.

Theorem truncate_len s limit x : nchars (truncate_str s limit x) <= limit_of limit + nchars x.
Proof.
  destruct (truncate_spec s limit x) as [H1 H2]. cbn zeta in *.
  destruct (N.le_gt_cases (nchars s) (limit_of limit)) as [Hle|Hgt].
  - rewrite (H1 Hle). unfold nchars in *. rewrite chars_lossy. lia.
  - rewrite (H2 Hgt). unfold nchars.
    rewrite chars_str_app by (apply Forall_firstn_skipn, chars_all_scalar). rewrite app_length, firstn_length. lia.
Qed.

Lemma nth_error_firstn {A} (l : list A) : forall n i, (i < n)%nat -> nth_error (firstn n l) i = nth_error l i.
Proof.
  induction l as [|x l IH]; intros n i H; [destruct n; reflexivity|].
  destruct n; [lia|]. destruct i; [reflexivity|]. cbn [firstn nth_error]. apply IH. lia.
Qed.

Lemma nth_error_skipn {A} (l : list A) : forall n i, nth_error (skipn n l) i = nth_error l (n + i).
Proof.
  induction l as [|x l IH]; intros n i; [destruct n, i; reflexivity|].
  destruct n; [reflexivity|]. cbn [skipn Nat.add nth_error]. apply IH.
Qed.

Definition norm_idx (i len : Z) : Z := if (i <? 0)%Z then (i + len)%Z else i.

(* the range is empty or out of bounds exactly when the guard fails; an end past the length is clamped *)
Lemma slice_range_spec start end_ len :
  let s := norm_idx start len in
  let e := match end_ with Some e => norm_idx e len | None => len end in
  slice_range start end_ len =
  if ((0 <=? s) && (s <=? len) && (s <=? e))%Z then Some (s, Z.min e len) else None.
Proof.
  cbn zeta. unfold slice_range. fold (norm_idx start len).
  set (s := norm_idx start len). set (e := match end_ with Some _ => _ | None => len end).
  rewrite !Z.ltb_antisym.
  destruct (0 <=? s)%Z; [|reflexivity]. destruct (s <=? len)%Z; [|reflexivity].
  destruct (s <=? e)%Z; [|reflexivity].
  destruct (Z.leb_spec e len); cbn [negb orb andb]; do 2 f_equal; lia.
Qed.

Theorem slice_spec {A} (l : list A) (start : Z) (end_ : option Z) :
  let len := Z.of_nat (length l) in
  let s := norm_idx start len in
  let e := match end_ with Some e => norm_idx e len | None => len end in
  if ((0 <=? s) && (s <=? len) && (s <=? e))%Z
  then exists r, slice_list l start end_ = Some r
                 /\ Z.of_nat (length r) = (Z.min e len - s)%Z
                 /\ forall i, (i < length r)%nat -> nth_error r i = nth_error l (Z.to_nat s + i)
  else slice_list l start end_ = None.
Proof.
  intros len s e. unfold slice_list. rewrite slice_range_spec. fold len s e.
  destruct ((0 <=? s) && (s <=? len) && (s <=? e))%Z eqn:G; [|reflexivity].
  rewrite !andb_true_iff, !Z.leb_le in G. eexists. split; [reflexivity|].
  assert (Hlen : length (firstn (Z.to_nat (Z.min e len - s)) (skipn (Z.to_nat s) l)) = Z.to_nat (Z.min e len - s))
    by (rewrite firstn_length, skipn_length; lia).
  rewrite Hlen. split; [lia|].
  intros i Hi. rewrite nth_error_firstn by exact Hi. apply nth_error_skipn.
Qed.

Lemma chunks_go_spec fuel : forall n s, (0 < n)%nat -> (length s <= fuel)%nat ->
  concat (chunks_go fuel n s) = s /\ Forall (fun c => 1 <= length c <= n)%nat (chunks_go fuel n s).
Proof.
  induction fuel as [|f IH]; intros n s Hn Hl; (destruct s as [|c r]; [split; [reflexivity | constructor]|]).
  - cbn in Hl. lia.
  - cbn [chunks_go concat].
    destruct (IH n (skipn n (c :: r)) Hn) as [E F]; [rewrite skipn_length; cbn [length] in *; lia|].
    rewrite E. split; [apply firstn_skipn|]. constructor; [rewrite firstn_length; cbn [length]; lia | exact F].
Qed.

Theorem chunks_spec b n : (1 <= n)%Z ->
  exists ps, fn_chunks (VBytes b) (VInt n) = ROk (VArr (map VBytes ps)) /\ concat ps = b
             /\ Forall (fun c => 1 <= Z.of_nat (length c) <= n)%Z ps.
Proof.
  intros Hn. unfold fn_chunks. rewrite (proj2 (Z.ltb_ge n 1) Hn).
  set (k := Z.to_nat (Z.min n (Z.of_nat (length b) + 1))).
  destruct (chunks_go_spec (length b) k b) as [E F]; [unfold k; lia | lia |].
  eexists. split; [reflexivity|]. split; [exact E|].
  eapply Forall_impl; [|exact F]. cbn beta. unfold k. lia.
Qed.

Definition ws_cps : list N :=
  [9; 10; 11; 12; 13; 32; 133; 160; 5760; 8192; 8193; 8194; 8195; 8196; 8197; 8198; 8199; 8200; 8201; 8202;
   8232; 8233; 8239; 8287; 12288].

Lemma orb_true_elim' a b : a || b = true -> a = true \/ b = true.
Proof. apply orb_true_iff. Qed.

Definition s_of (l : list N) : bytes := utf8_of_cps l.

(* Two inputs on which the implementation departs from "lowercase both, then search".
   contains("ΑΣΑ", "ΑΣ"): found case-sensitively, not found case-insensitively (final sigma) *)
Lemma ci_final_sigma_witness :
  let s := s_of [913; 931; 913] in let p := s_of [913; 931] in
  contains_cs s p = true /\ contains_ci s p = false
  /\ ends_with_cs p (s_of [931]) = true /\ ends_with_ci p (s_of [931]) = false.
Proof. vm_compute. repeat split. Qed.

(* starts_with("K" (U+212A), "kk", case_sensitive: false) *)
Lemma starts_with_ci_zip_witness :
  let s := s_of [8490] in let p := s_of [107; 107] in
  valid_utf8 s = true /\ valid_utf8 p = true /\ starts_with_ci s p = true
  /\ is_prefix (downcase p) (downcase s) = false /\ (length (chars p) > length (chars s))%nat.
Proof. vm_compute. repeat split; lia. Qed.
