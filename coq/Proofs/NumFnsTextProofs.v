(* to_float / parse_float on the decimal text of an integer: the model's correctly rounded decimal parser reads the digits
   of any i64 z back as `z as f64`, so to_float (to_string z) = to_float z for every i64.  Closed, no real numbers. *)
From Coq Require Import List NArith ZArith Bool Lia.
From Coq Require Import Floats.SpecFloat.
From VRL Require Import Base.Bytes Base.Value Model.ConvRes Model.Arith Model.IntText Model.NumFns.
From VRL Require Import Proofs.ArithProofs Proofs.IntTextProofs Proofs.NumFnsProofs.
Import ListNotations.
Local Open Scope Z_scope.

(* below radix 10 the letters (10 and up) are no digits: only '0'..'9' remain *)
Lemma is_dig_of_digit c d : to_digit 10 c = Some d -> is_dig c = true /\ d = Z.of_N c - 48.
Proof. exact (to_digit_dec_test c d). Qed.

Lemma uval_span s : forall a v, uval 10 s a = Some v -> span_digits s = (s, []) /\ digits_val a s = v.
Proof.
  induction s as [|c s IH]; intros a v H; cbn [uval] in H.
  - inversion H. split; reflexivity.
  - destruct (to_digit 10 c) as [d|] eqn:D; [|discriminate].
    destruct (is_dig_of_digit c d D) as [Hd ->]. destruct (IH _ _ H) as [Hs Hv].
    cbn [span_digits digits_val]. rewrite Hd, Hs. split; [reflexivity | exact Hv].
Qed.

Lemma strip_zeros_cons c r : c <> 48%N -> strip_zeros (c :: r) = c :: r.
Proof.
  intros Hc%N.eqb_neq. cbn [strip_zeros]. rewrite match_48, Hc. reflexivity.
Qed.

Lemma strip_zeros_spec s : digits_val 0 (strip_zeros s) = digits_val 0 s /\ (length (strip_zeros s) <= length s)%nat.
Proof.
  induction s as [|c r [IH1 IH2]]; [split; reflexivity|].
  destruct (N.eq_dec c 48) as [->|Hc].
  - cbn [strip_zeros length]. split; [exact IH1 | lia].
  - rewrite strip_zeros_cons by exact Hc. split; reflexivity.
Qed.

(* digits only, read with sign `neg`; at most 300 of them, since dec_to_f64 answers infinity from 310 digits on *)
Lemma parse_number_digits neg s n : s <> [] -> (length s <= 300)%nat -> uval 10 s 0 = Some n ->
  parse_number neg s =
  Some (if n =? 0 then S754_zero neg else binary_normalize 53 1024 (cond_Zopp neg n) 0 neg).
Proof.
  intros Hne Hlen Hu. destruct (uval_span s 0 n Hu) as [Hs Hv]. destruct (strip_zeros_spec s) as [Hst Hsl].
  unfold parse_number. rewrite Hs, app_nil_r. rewrite Hv in Hst.
  destruct s as [|c0 s0]; [congruence|]. set (s := c0 :: s0) in *.
  destruct (strip_zeros s) as [|c1 r1].
  - cbn in Hst. rewrite <- Hst. reflexivity.
  - rewrite Hst. unfold dec_to_f64. cbn [length] in *. set (nd := Z.of_nat (S (length r1))).
    assert (Hnd : 0 < nd <= 300) by lia.
    replace (0 - Z.of_nat 0) with 0 by reflexivity.
    replace (310 <=? nd + 0) with false by (symmetry; apply Z.leb_gt; lia).
    replace (nd + 0 <=? -324) with false by (symmetry; apply Z.leb_gt; lia).
    cbn [Z.leb Z.compare]. rewrite Z.pow_0_r, Z.mul_1_r.
    destruct (Z.eqb_spec n 0) as [->|Hn]; [destruct neg; reflexivity | reflexivity].
Qed.

(* ... with an optional '-' in front: a digit is not a sign, so parse_f64 takes the whole of an unsigned string as the number *)
Lemma parse_f64_digits (neg : bool) ds n : ds <> [] -> (length ds <= 300)%nat -> uval 10 ds 0 = Some n ->
  parse_f64 (if neg then 45%N :: ds else ds) =
  Some (if n =? 0 then S754_zero neg else binary_normalize 53 1024 (cond_Zopp neg n) 0 neg).
Proof.
  intros Hne Hlen Hu. pose proof (parse_number_digits neg ds n Hne Hlen Hu) as Hpn.
  destruct ds as [|c0 r0]; [congruence|]. unfold parse_f64. destruct neg.
  - cbn [N.eqb Pos.eqb orb]. rewrite Hpn. reflexivity.
  - cbn [uval] in Hu. destruct (to_digit 10 c0) as [d0|] eqn:D0; [|discriminate].
    destruct (to_digit_not_sign 10 c0 d0 D0) as [H43%N.eqb_neq H45%N.eqb_neq].
    rewrite H43, H45. cbn [orb]. rewrite Hpn. reflexivity.
Qed.

Lemma parse_f64_int_text z s : ConvRes.in_i64 z = true -> int_to_string z = ROk s -> parse_f64 s = Some (of_i64 z).
Proof.
  intros Hz Hs. apply in_i64_arith in Hz. unfold Arith.in_i64, two63 in Hz. unfold int_to_string in Hs.
  destruct (digits_loop 64 10 (Z.abs z) []) as [ds|] eqn:Hd; [|discriminate]. injection Hs as <-.
  (* ds: at most 64 digits, not empty, of value |z| *)
  pose proof (pow64_bound 10 ltac:(lia)) as Hp.
  destruct (digits_spec 10 ltac:(lia) 64%nat (Z.abs z) [] ltac:(lia) ltac:(lia)) as (ds' & P & Hds & Hne & Hv).
  rewrite app_nil_r, Hd in Hds. injection Hds as <-.
  pose proof (digits_loop_length 10 _ _ _ _ Hd) as Hlen. cbn [length] in Hlen.
  specialize (Hv 0). rewrite Z.mul_0_l, Z.add_0_l in Hv.
  etransitivity; [apply (parse_f64_digits (z <? 0) ds _ Hne ltac:(lia) Hv) | destruct z; reflexivity].
Qed.

Theorem to_float_int_text fmt_f64 fmt_ts z : ConvRes.in_i64 z = true ->
  exists s, to_string fmt_f64 fmt_ts (VInt z) = ROk (VBytes s)
            /\ to_float (VBytes s) = to_float (VInt z)
            /\ parse_float (VBytes s) = to_float (VInt z).
Proof.
  intros Hz. destruct (int_text_roundtrip fmt_f64 fmt_ts z Hz) as (s & Hs & _).
  exists s. split; [exact Hs|].
  unfold to_string in Hs. destruct (int_to_string z) as [s0| | |] eqn:Hi; try discriminate. injection Hs as ->.
  unfold to_float, parse_float, bytes_to_float.
  rewrite (parse_f64_int_text z s Hz Hi), (of_i64_not_nan z), (or_zero_id _ (of_i64_not_nan z)). split; reflexivity.
Qed.
