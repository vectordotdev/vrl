(* C15: accepted programs leave read-only (recursive) paths unchanged. *)
From Coq Require Import List Bool.
From VRL Require Import Base.Bytes Base.Value Model.ValueCrud Model.Expr Model.Eval Model.Info Model.ReadOnly
  Proofs.ValueCrudProofs Proofs.InfoProofs.
Import ListNotations.

(* q and P name separate locations: field-only, neither a prefix of the other *)
Definition sep (q P : path) : Prop :=
  fields_only q = true /\ fields_only P = true /\ is_prefix q P = false /\ is_prefix P q = false.

Lemma fields_only_all p : fields_only p = all_fields p.
Proof. induction p as [|[k|i] p IH]; cbn; auto. Qed.

Lemma rm_frame q : forall c P r c',
  sep q P -> rm c q false = Some (r, c') -> get c' P = get c P.
Proof.
  induction q as [|[f|i] q IH]; intros c P r c' [Hq [HP [H1 H2]]] Hrm; cbn in Hq; try discriminate.
  destruct P as [|[g|j] P]; cbn in HP, H1, H2; try discriminate.
  cbn [rm] in Hrm. destruct c as [?|?|?|?|?|?|m|a|]; try discriminate.
  destruct q as [|s q'].
  - destruct (obj_get m f) as [old|] eqn:Ef; try discriminate. inversion Hrm; subst.
    cbn [get]. destruct (bytes_eqb_spec f g) as [->|Hne]; [discriminate|].
    rewrite obj_get_remove_other by congruence. reflexivity.
  - destruct (obj_get m f) as [c1|] eqn:Ef; try discriminate.
    destruct (rm c1 (s :: q') false) as [[prev c1']|] eqn:Er; try discriminate.
    inversion Hrm; subst. cbn [andb get].
    destruct (bytes_eqb_spec f g) as [<-|Hne].
    + rewrite bytes_eqb_refl in H2. rewrite obj_get_set_same, Ef. exact (IH c1 P r c1' (conj Hq (conj HP (conj H1 H2))) Er).
    + rewrite obj_get_set_other by congruence. reflexivity.
Qed.

Lemma remove_frame v q P :
  sep q P -> get (snd (remove v q false)) P = get v P.
Proof.
  intros H. unfold remove. destruct q as [|s q].
  - destruct H as [_ [_ [H1 _]]]. cbn in H1. discriminate.
  - destruct (rm v (s :: q) false) as [[prev v']|] eqn:E; cbn [snd]; auto.
    eapply rm_frame; eauto.
Qed.

Lemma insert_frame_sep v q P x : sep q P -> get (insert v q x) P = get v P.
Proof.
  intros [Hq [HP [H1 H2]]]. apply insert_frame_fields; rewrite <- ?fields_only_all; auto.
Qed.

(* the relation carried through evaluation: the location (pfx, P) keeps its value.  It tolerates
   writes and non-compacting deletions at locations separate from P. *)
Definition keeps (pfx : prefix) (P : path) (s s' : state) : Prop :=
  get (tval s' pfx) P = get (tval s pfx) P.

Lemma keeps_target pfx P s s' : ev s' = ev s -> md s' = md s -> keeps pfx P s s'.
Proof. intros He Hm. unfold keeps. destruct pfx; cbn; congruence. Qed.

Lemma keeps_get pfx P s pfx' p : keeps pfx P s (snd (t_get s pfx' p)).
Proof. unfold t_get. destruct (pop_fault s). apply keeps_target; reflexivity. Qed.

Lemma keeps_insert pfx P s pfx' p v : (pfx' = pfx -> sep p P) -> keeps pfx P s (t_insert s pfx' p v).
Proof.
  intros H. unfold t_insert, keeps. destruct (pop_fault s) as [[|] fs]; destruct pfx', pfx; try reflexivity;
    cbn [with_target tval ev md]; apply insert_frame_sep, H; reflexivity.
Qed.

Lemma keeps_remove pfx P s pfx' p c :
  (pfx' = pfx -> sep p P /\ c = false) -> keeps pfx P s (snd (t_remove s pfx' p c)).
Proof.
  intros H. unfold t_remove, keeps. destruct (pop_fault s) as [[|] fs]; [destruct pfx', pfx; reflexivity|].
  destruct (remove (tval s pfx') p c) as [r v'] eqn:E. cbn [snd].
  (* under the other prefix nothing changes; under the same one, the frame law of remove *)
  destruct pfx', pfx; try reflexivity; destruct (H eq_refl) as [Hs ->];
    change v' with (snd (r, v')); rewrite <- E; exact (remove_frame _ _ _ Hs).
Qed.

Theorem run_keeps F binop es s pfx P :
  (forall q, In (pfx, q) (assigns_l es) -> sep q P) ->
  (forall c q, In (Some c, (pfx, q)) (queries_l es) -> sep q P /\ c = false) ->
  get (tval (snd (run F binop es s)) pfx) P = get (tval s pfx) P.
Proof.
  intros HA HQ.
  apply (run_T (keeps pfx P)
           (fun q => fst (snd q) = pfx -> forall c, fst q = Some c -> sep (snd (snd q)) P /\ c = false)
           (fun a => fst a = pfx -> sep (snd a) P)
           (fun s s' He Hm _ => keeps_target pfx P s s' He Hm)
           (fun s1 s2 s3 H1 H2 => eq_trans H2 H1)
           (fun s pfx' p _ => keeps_get pfx P s pfx' p)
           (fun s pfx' p v H => keeps_insert pfx P s pfx' p v H)
           (fun s pfx' p c H => keeps_remove pfx P s pfx' p c (fun E => H E c eq_refl)));
    apply Forall_forall.
  - intros [o [pfx' q]] Hin E c Ho. cbn in *. subst. exact (HQ c q Hin).
  - intros [pfx' q] Hin E. cbn in *. subst. exact (HA q Hin).
Qed.

Lemma starts_with_prefix p pre : starts_with p pre = is_prefix pre p.
Proof.
  revert p; induction pre as [|s pre IH]; intros [|t p]; cbn; auto.
  rewrite IH, (seg_eqb_sym t s). reflexivity.
Qed.

Lemma not_read_only_sep cfg r q :
  In r cfg -> ro_rec r = true -> fields_only q = true -> fields_only (ro_p r) = true ->
  is_read_only cfg (ro_pfx r) q = false -> sep q (ro_p r).
Proof.
  intros Hin Hrec Hq HP Hro.
  destruct (starts_with (ro_p r) q || starts_with q (ro_p r)) eqn:E.
  - (* then r itself makes q read-only *)
    apply not_true_iff_false in Hro. destruct Hro. apply existsb_exists. exists r. split; [exact Hin|].
    rewrite Hrec, E. destruct (ro_pfx r); reflexivity.
  - apply orb_false_iff in E as [Ha Hb]. rewrite starts_with_prefix in Ha, Hb. repeat split; auto.
Qed.

Theorem accepted_keeps_recursive_read_only F binop cfg es s r :
  ro_accepts cfg es = true -> no_compact_del es = true ->
  In r cfg -> ro_rec r = true -> fields_only (ro_p r) = true ->
  (forall w, In w (writes es) -> fields_only (snd w) = true) ->
  get (tval (snd (run F binop es s)) (ro_pfx r)) (ro_p r) = get (tval s (ro_pfx r)) (ro_p r).
Proof.
  intros Hacc Hnc Hin Hrec HP Hw.
  unfold ro_accepts in Hacc. rewrite forallb_forall in Hacc.
  assert (Hsep : forall q, In (ro_pfx r, q) (writes es) -> sep q (ro_p r)).
  { intros q Hi. apply (not_read_only_sep cfg r q); auto.
    - apply (Hw _ Hi).
    - apply negb_true_iff, (Hacc _ Hi). }
  apply run_keeps.
  - intros q Hq. apply Hsep, in_or_app. auto.
  - intros c q Hq. split.
    + apply Hsep, in_or_app. right. apply in_flat_map.
      exists (Some c, (ro_pfx r, q)). split; [exact Hq|left; reflexivity].
    + unfold no_compact_del in Hnc. rewrite forallb_forall in Hnc. specialize (Hnc _ Hq).
      destruct c; [discriminate|reflexivity].
Qed.
