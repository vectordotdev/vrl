(* Round trips of the protobuf wire primitives of Model/Proto.v: varint, zigzag, fixed width, keys,
   length-delimited payloads, and whole record sequences. *)
From Coq Require Import List NArith ZArith Bool Arith Lia.
From VRL Require Import Base.Bytes Model.Proto.
Import ListNotations.

Local Open Scope N_scope.

Lemma pow2_7_mul i : 2 ^ (7 * (i + 1)) = 128 * 2 ^ (7 * i).
Proof. replace (7 * (i + 1)) with (7 + 7 * i) by lia. apply N.pow_add_r. Qed.

(* group i of 10: the groups before it have contributed acc, n is what is left of the 64 bits *)
Lemma varint_f_roundtrip : forall (fuel : nat) (i acc n : N) (rest : bytes),
  i + N.of_nat fuel = 10 -> i <= 9 -> n < 2 ^ (64 - 7 * i) ->
  decode_varint_f fuel i acc (encode_varint_f fuel n ++ rest) = Some (acc + n * 2 ^ (7 * i), rest).
Proof.
  induction fuel as [|f IH]; intros i acc n rest Hi Hle; [lia|]. intros Hn.
  assert (H9 : i = 9 -> n < 2) by (intros ->; exact Hn).
  cbn [encode_varint_f decode_varint_f]. destruct (N.ltb_spec n 128) as [E|E]; cbn [app].
  - rewrite (proj2 (N.ltb_lt _ _) E), N.mod_small by exact E.
    destruct (N.eqb_spec i 9) as [E9|_]; [|reflexivity].
    rewrite (proj2 (N.leb_gt 2 n) (H9 E9)). reflexivity.
  - rewrite (proj2 (N.ltb_ge _ _) (N.le_add_l 128 _)).
    replace (n mod 128 + 128) with (n mod 128 + 1 * 128) by lia. rewrite N.mod_add, N.mod_mod by lia.
    rewrite IH, pow2_7_mul; [|lia|lia|].
    + do 2 f_equal. pose proof (N.div_mod n 128 ltac:(lia)). nia.
    + apply N.div_lt_upper_bound; [lia|].
      replace (64 - 7 * i) with (7 + (64 - 7 * (i + 1))) in Hn by lia. rewrite N.pow_add_r in Hn. exact Hn.
Qed.

Theorem varint_roundtrip n rest :
  n < 2 ^ 64 -> decode_varint (encode_varint n ++ rest) = Some (n, rest).
Proof.
  intros H. unfold decode_varint, encode_varint.
  rewrite varint_f_roundtrip by (cbn; lia). do 2 f_equal. cbn. lia.
Qed.

Lemma encode_varint_f_length fuel n : (1 <= fuel)%nat -> (1 <= length (encode_varint_f fuel n) <= fuel)%nat.
Proof.
  revert n. induction fuel as [|f IH]; intros n H; [lia|].
  cbn [encode_varint_f]. destruct (n <? 128); cbn [length]; [lia|].
  destruct f as [|f']; [cbn; lia|]. specialize (IH (n / 128) ltac:(lia)). lia.
Qed.

Lemma encode_varint_length n : (1 <= length (encode_varint n) <= 10)%nat.
Proof. apply encode_varint_f_length. lia. Qed.

Local Open Scope Z_scope.

Theorem zigzag_roundtrip z : unzigzag (zigzag z) = z.
Proof.
  unfold zigzag, unzigzag. destruct (Z.ltb_spec z 0).
  - replace (Z.to_N (-2 * z - 1)) with (1 + 2 * Z.to_N (- z - 1))%N by lia.
    rewrite N.even_add_mul_2. cbn [N.even].
    replace (1 + 2 * Z.to_N (- z - 1) + 1)%N with (Z.to_N (- z) * 2)%N by lia.
    rewrite N.div_mul by lia. lia.
  - replace (Z.to_N (2 * z)) with (Z.to_N z * 2)%N by lia.
    rewrite N.even_mul, N.div_mul, orb_true_r by lia. lia.
Qed.

Lemma pow2_split bits : 0 < bits -> 2 ^ bits = 2 * 2 ^ (bits - 1).
Proof. intros Hb. rewrite <- Z.pow_succ_r by lia. f_equal. lia. Qed.

Lemma zigzag_bound bits z : 0 < bits -> - 2 ^ (bits - 1) <= z < 2 ^ (bits - 1) -> (zigzag z < 2 ^ Z.to_N bits)%N.
Proof.
  intros Hb Hz. unfold zigzag.
  pose proof (pow2_split bits Hb) as Hp.
  assert (Hc : Z.of_N (2 ^ Z.to_N bits) = 2 ^ bits) by (rewrite N2Z.inj_pow, Z2N.id by lia; reflexivity).
  destruct (Z.ltb_spec z 0); lia.
Qed.

Local Open Scope N_scope.

Theorem le_roundtrip : forall (n : nat) (v : N), v < 256 ^ N.of_nat n -> le_val (le_bytes n v) = v.
Proof.
  induction n as [|n IH]; intros v H.
  - cbn in *. lia.
  - cbn [le_bytes le_val]. rewrite IH.
    + pose proof (N.div_mod v 256 ltac:(lia)). lia.
    + apply N.div_lt_upper_bound; [lia|].
      rewrite Nat2N.inj_succ, N.pow_succ_r' in H. exact H.
Qed.

Lemma le_bytes_length n v : length (le_bytes n v) = n.
Proof. revert v; induction n; intros v; cbn; auto. Qed.

Lemma le_val_bound : forall b, wf_bytes b = true -> le_val b < 256 ^ N.of_nat (length b).
Proof.
  induction b as [|x b IH]; intros H; [cbn; lia|].
  apply wf_bytes_cons in H. destruct H as [Hx Hb].
  specialize (IH Hb). cbn [le_val length]. rewrite Nat2N.inj_succ, N.pow_succ_r'. nia.
Qed.

(* the bytes themselves come back, not only the number (wire data -> number -> wire data) *)
Theorem le_bytes_val : forall b, wf_bytes b = true -> le_bytes (length b) (le_val b) = b.
Proof.
  induction b as [|x b IH]; intros H; [reflexivity|].
  apply wf_bytes_cons in H. destruct H as [Hx Hb].
  cbn [le_val length le_bytes]. rewrite (N.mul_comm 256).
  rewrite N.mod_add, N.div_add, N.mod_small, N.div_small, N.add_0_l, IH by (assumption || lia). reflexivity.
Qed.

Lemma take_app (a r : bytes) : take (length a) (a ++ r) = Some (a, r).
Proof.
  unfold take. rewrite app_length, (proj2 (Nat.ltb_ge _ _)) by lia.
  rewrite firstn_app, skipn_app, firstn_all, skipn_all, Nat.sub_diag, app_nil_r. reflexivity.
Qed.

Theorem key_roundtrip num wt rest :
  1 <= num -> num < 2 ^ 29 -> wt <= 5 ->
  decode_key (encode_key num wt ++ rest) = POk (num, wt, rest).
Proof.
  intros H1 H2 Hw. unfold decode_key, encode_key. rewrite (N.add_comm (num * 8)).
  change (2 ^ 29) with 536870912 in H2.
  rewrite varint_roundtrip by (change (2 ^ 64) with 18446744073709551616; lia).
  rewrite N.mod_add, N.div_add, N.mod_small, N.div_small by lia.
  rewrite (proj2 (N.ltb_ge _ _)), (proj2 (N.ltb_ge _ _)), (proj2 (N.eqb_neq _ _)) by lia. reflexivity.
Qed.

(* a wire value a writer can produce *)
Definition wf_wval (w : wval) : Prop :=
  match w with
  | WVarint n => n < 2 ^ 64
  | WF64 b => length b = 8%nat
  | WF32 b => length b = 4%nat
  | WLen b => N.of_nat (length b) < 2 ^ 64
  end.

Theorem wval_roundtrip w rest :
  wf_wval w -> decode_wval (wire_type w) (ser_wval w ++ rest) = POk (w, rest).
Proof.
  destruct w as [n|b|b|b]; cbn [wf_wval wire_type ser_wval]; intros H; unfold decode_wval; cbn [N.eqb Pos.eqb].
  - rewrite varint_roundtrip by exact H. reflexivity.
  - rewrite <- H, take_app. reflexivity.
  - rewrite <- app_assoc, varint_roundtrip by exact H. rewrite Nat2N.id, take_app. reflexivity.
  - rewrite <- H, take_app. reflexivity.
Qed.

Corollary len_delim_roundtrip b rest :
  N.of_nat (length b) < 2 ^ 64 ->
  decode_wval 2 (encode_varint (N.of_nat (length b)) ++ b ++ rest) = POk (WLen b, rest).
Proof. intros H. rewrite app_assoc. exact (wval_roundtrip (WLen b) rest H). Qed.

Definition wf_record (r : record) : Prop := 1 <= fst r /\ fst r < 2 ^ 29 /\ wf_wval (snd r).

(* Reading back a concatenation of non-empty chunks one at a time, with the length as fuel: the loop of
   parse_records_f and of dec_packed_f, given what the loop does on one chunk. *)
Section Chunks.
  Context {A : Type} (ser : A -> bytes) (ok : A -> Prop) (loop : nat -> bytes -> pres (list A)).
  Hypothesis loop_nil : forall fuel, loop fuel [] = POk [].
  Hypothesis loop_chunk : forall fuel x rest, ok x ->
    loop (S fuel) (ser x ++ rest) = pbind (loop fuel rest) (fun xs => POk (x :: xs)).
  Hypothesis ser_nonempty : forall x, ok x -> (1 <= length (ser x))%nat.

  Lemma chunks_roundtrip xs : Forall ok xs ->
    forall fuel, (length (concat (map ser xs)) <= fuel)%nat -> loop fuel (concat (map ser xs)) = POk xs.
  Proof.
    induction 1 as [|x xs Hx _ IH]; intros fuel Hlen; [apply loop_nil|].
    cbn [map concat] in *. rewrite app_length in Hlen. pose proof (ser_nonempty x Hx).
    destruct fuel as [|fuel]; [lia|]. rewrite loop_chunk, IH by (assumption || lia). reflexivity.
  Qed.
End Chunks.

Lemma wire_type_le5 w : wire_type w <= 5.
Proof. destruct w; cbn; lia. Qed.

Lemma parse_records_f_chunk fuel r rest : wf_record r ->
  parse_records_f (S fuel) (ser_record r ++ rest) = pbind (parse_records_f fuel rest) (fun rs => POk (r :: rs)).
Proof.
  destruct r as [num w]. intros (H1 & H2 & Hw).
  assert (E : decode_key (ser_record (num, w) ++ rest) = POk (num, wire_type w, ser_wval w ++ rest)).
  { unfold ser_record. rewrite <- app_assoc. apply key_roundtrip; [exact H1 | exact H2 | apply wire_type_le5]. }
  (* the input is not empty, since a key is read from it *)
  cbn [parse_records_f]. destruct (ser_record (num, w) ++ rest); [discriminate E|].
  rewrite E. cbn [pbind]. rewrite wval_roundtrip by exact Hw. reflexivity.
Qed.

Theorem records_roundtrip rs : Forall wf_record rs -> parse_records (ser_records rs) = POk rs.
Proof.
  intros H. apply (chunks_roundtrip ser_record wf_record parse_records_f); [| | | exact H | apply Nat.le_refl].
  - destruct fuel; reflexivity.
  - intros fuel r rest. apply parse_records_f_chunk.
  - intros r _. unfold ser_record. rewrite app_length. pose proof (encode_varint_length (fst r * 8 + wire_type (snd r))).
    unfold encode_key. lia.
Qed.
