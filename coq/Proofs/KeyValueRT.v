(* C24 — the whole-object round trip of Model/KeyValue.v (on top of Proofs/KeyValueProofs.v). *)
From Coq Require Import List NArith Bool Lia Arith Sorted.
From VRL Require Import Base.Bytes Model.KeyValue Proofs.ListFacts Proofs.SortedInsert Proofs.KeyValueProofs.
Import ListNotations.
Local Open Scope N_scope.

Section Join.
  Variables (kvd fd : str).

  (* the fields after the first one, each preceded by the field delimiter *)
  Fixpoint tail_of (r : list (str * str)) : str :=
    match r with
    | [] => []
    | kv :: r' => fd ++ encode_field kvd (fst kv) (snd kv) ++ tail_of r'
    end.

  Definition join_fields (o : list (str * str)) : str :=
    match o with
    | [] => []
    | kv :: r => encode_field kvd (fst kv) (snd kv) ++ tail_of r
    end.

  Lemma encode_fields_tail r : fd ++ encode_fields kvd fd r = tail_of r ++ fd.
  Proof.
    induction r as [|kv r IH]; [apply app_nil_r|]. unfold encode_fields in *. cbn [flat_map tail_of].
    rewrite <- !app_assoc, IH. reflexivity.
  Qed.

  Lemma ends_with_unfold s suf :
    ends_with s suf = if str_eqb s suf then true else match s with [] => false | _ :: r => ends_with r suf end.
  Proof. destruct s; reflexivity. Qed.

  Lemma ends_with_app x suf : ends_with (x ++ suf) suf = true.
  Proof.
    induction x as [|c x IH].
    - cbn [app]. rewrite ends_with_unfold, bytes_eqb_refl. reflexivity.
    - rewrite ends_with_unfold. destruct (str_eqb ((c :: x) ++ suf) suf); auto.
  Qed.

  (* to_string writes the delimiter after every field and cuts the last one off again *)
  Lemma to_string_join o : o <> [] -> to_string kvd fd o = join_fields o.
  Proof.
    destruct o as [|kv r]; [congruence|]. intros _. unfold to_string.
    replace (encode_fields kvd fd (kv :: r)) with (join_fields (kv :: r) ++ fd).
    - rewrite ends_with_app. apply firstn_app_sub.
    - unfold encode_fields. cbn [flat_map join_fields]. rewrite <- !app_assoc. f_equal. symmetry. apply encode_fields_tail.
  Qed.
End Join.

Lemma map_insert_last m k v : Forall (fun e => key_lt (fst e) k) m -> map_insert k v m = m ++ [(k, v)].
Proof.
  induction 1 as [|[k' v'] m Hk _ IH]; [reflexivity|]. unfold key_lt in Hk. cbn [map_insert app fst] in *.
  rewrite (bytes_cmp_antisym k' k), Hk, IH. reflexivity.
Qed.

Lemma sorted_keys_Sorted o : sorted_keys o = true -> Sorted key_lt (map fst o).
Proof.
  apply adjacent_Sorted. intros k v k' v' l. unfold key_lt.
  change (sorted_keys ((k, v) :: (k', v') :: l))
    with (match bytes_cmp k k' with Lt => sorted_keys ((k', v') :: l) | _ => false end).
  destruct (bytes_cmp k k'); try discriminate. auto.
Qed.

Lemma build_map_sorted o : sorted_keys o = true -> build_map (as_parsed o) = as_parsed o.
Proof.
  intros H. apply (fold_step_Sorted pval (fun m kv => map_insert (fst kv) (snd kv) m)).
  - intros m [k v]. apply map_insert_last.
  - unfold as_parsed. rewrite map_map. apply sorted_keys_Sorted, H.
Qed.

Section Loop.
  Variables (kc : N) (kvd' : str) (fc : N) (fd' : str).
  Local Notation kvd := (kc :: kvd').
  Local Notation fd := (fc :: fd').
  Hypothesis Hkc : is_sptab kc = false.
  Hypothesis Hfd : fd_ok fc fd'.

  Definition kv_entry_ok (kv : str * str) : Prop := str_ok [kc; fc] (fst kv) /\ str_ok [fc] (snd kv).

  Lemma tail_shape r : ends_field fd (tail_of kvd fd r).
  Proof. destruct r; [left; reflexivity | right; eexists; reflexivity]. Qed.

  Lemma length_tail r : (length r <= length (tail_of kvd fd r))%nat.
  Proof.
    induction r as [|kv r IH]; [cbn; lia|]. cbn [tail_of]. rewrite !app_length. cbn [length]. lia.
  Qed.

  Lemma sep_loop_enc ws sk r : forall fuel acc,
    Forall kv_entry_ok r -> (length r < fuel)%nat ->
    sep_loop kvd fd ws sk fuel (tail_of kvd fd r) acc = LDone [] (acc ++ as_parsed r).
  Proof.
    induction r as [|kv r IH]; intros fuel acc Hok Hf; (destruct fuel; [cbn in Hf; lia|]); cbn [sep_loop tail_of].
    - rewrite pfd_nil by discriminate. cbn. rewrite app_nil_r. reflexivity.
    - inversion Hok as [|? ? [Hk Hv] Hr]; subst.
      rewrite pfd_self by (try apply (field_no_space _ _ _ _ _ Hk); exact Hfd).
      rewrite (parse_kv_enc kc kvd' fc fd' Hkc Hfd ws sk (fst kv) (snd kv) _ Hk Hv (tail_shape r)).
      rewrite (proj2 (Nat.eqb_neq _ _)) by (rewrite !app_length; cbn [length]; lia).
      rewrite IH, <- app_assoc by (cbn [length] in Hf; auto; lia). destruct kv; reflexivity.
  Qed.

  Lemma parse_line_enc ws sk o :
    o <> [] -> Forall kv_entry_ok o ->
    parse_line kvd fd ws sk (join_fields kvd fd o) = LDone [] (as_parsed o).
  Proof.
    destruct o as [|kv r]; [congruence|]. intros _ Hok. inversion Hok as [|? ? [Hk Hv] Hr]; subst.
    unfold parse_line. cbn [join_fields].
    rewrite (parse_kv_enc kc kvd' fc fd' Hkc Hfd ws sk (fst kv) (snd kv) _ Hk Hv (tail_shape r)).
    apply sep_loop_enc; [exact Hr|]. rewrite app_length. pose proof (length_tail r). lia.
  Qed.
End Loop.

Lemma safe_entry_ok kc kvd' fc fd' o :
  nonempty_strings o = true -> kv_safe (kc :: kvd') (fc :: fd') o = true ->
  Forall (kv_entry_ok kc fc) o.
Proof.
  intros Hne Hs. unfold kv_safe in Hs. rewrite !andb_true_iff, !negb_true_iff in Hs. destruct Hs as [[[Hb Hn] Hq] Hd].
  apply Forall_forall. intros [a b] Hin.
  pose proof (fun f H => proj1 (existsb_false_iff f o) H _ Hin) as E. apply E in Hb, Hn, Hq, Hd.
  apply (proj1 (forallb_forall _ _) Hne) in Hin. clear E Hne.
  unfold kv_entry_ok. cbn [fst snd has_head_of] in *. rewrite andb_true_iff, !negb_true_iff in Hin.
  rewrite !orb_false_iff in *.
  (* for each of the two strings: non-empty, no newline, and once it is unquoted the guards `unq _ &&` of the
     other three classes are true, leaving their bodies false *)
  split; (split; [intros ->; destruct Hin; discriminate | split; [tauto|]]); intros U; rewrite U in *;
    cbn [andb] in *; rewrite ?orb_false_iff in *; repeat split; try tauto.
  - intros h [<-|[<-|[]]]; tauto.
  - intros h [<-|[]]; tauto.
Qed.

Theorem kv_roundtrip kvd fd ws sk o :
  good_delims kvd fd = true -> o <> [] -> sorted_keys o = true -> nonempty_strings o = true ->
  kv_safe kvd fd o = true ->
  parse_key_value kvd fd ws sk (to_string kvd fd o) = POk (as_parsed o).
Proof.
  intros Hg Hne Hs Hn Hsafe.
  destruct (good_delims_spec kvd fd Hg) as (kc & kvd' & fc & fd' & -> & -> & Hkc & Hfd).
  unfold parse_key_value. rewrite to_string_join by auto.
  rewrite (parse_line_enc kc kvd' fc fd' Hkc Hfd ws sk o Hne (safe_entry_ok _ _ _ _ _ Hn Hsafe)).
  cbn [trim trim_start trim_end rev is_nil app]. rewrite build_map_sorted by auto. reflexivity.
Qed.

(* logfmt: "=" / " ", lenient, standalone keys; the delimiter class is empty there *)
Definition logfmt_safe (o : list (str * str)) : bool :=
  negb (known_backslash o) && negb (known_newline o) && negb (known_squote o).

Lemma unq_no_eq_sp s : unq s = true -> has c_eq s = false /\ has c_sp s = false.
Proof.
  intros U. split; apply has_false_iff; intros x Hx; destruct (proj1 (unq_spec s) U x Hx) as (W & _ & E); auto.
  intros ->. discriminate W.
Qed.

Lemma logfmt_no_delim_class o : known_delim [c_eq] [c_sp] o = false.
Proof.
  unfold known_delim. destruct (existsb _ o) eqn:E; auto.
  apply existsb_exists in E as (kv & _ & H). cbn [has_head_of] in H.
  apply orb_true_iff in H as [H|H]; apply andb_true_iff in H as [U H]; destruct (unq_no_eq_sp _ U) as [A B];
    rewrite ?A, ?B in H; discriminate.
Qed.
