(* What the type-soundness proofs of C01 / C02 need of values and kinds: the value-level operations keep
   values well-formed, an array or object built from members of the listed kinds is a member of the kind
   type_info builds from them, and a well-formed value is a member of its own kind. *)
From Coq Require Import List ZArith Lia.
From VRL Require Import Base.Bytes Base.Value Model.ValueCrud Model.Kind Model.KindDomains Model.Eval Model.TypeInfo
  Proofs.KindBasics Proofs.KindInsertProofs.
Import ListNotations.

Lemma wf_obj_set m k x : wf_value (VObj m) = true -> wf_value x = true -> wf_value (VObj (obj_set m k x)) = true.
Proof.
  rewrite !wf_obj_iff. intros [Hs Hall] Hx. split; [apply obj_set_sorted, Hs|].
  intros g w Hin. destruct (in_obj_set_sorted _ _ _ Hs _ _ Hin) as [[_ ->]|[_ Hin']]; eauto.
Qed.

Lemma wf_nil_obj : wf_value (VObj []) = true.
Proof. reflexivity. Qed.

Lemma in_list_set {A} (l : list A) : forall n x y, In y (list_set l n x) -> y = x \/ In y l.
Proof.
  induction l as [|z l IH]; intros n x y Hin; cbn in *; [contradiction|].
  destruct n; cbn in Hin.
  - destruct Hin as [->|H]; auto.
  - destruct Hin as [->|H]; auto. destruct (IH _ _ _ H); auto.
Qed.

Lemma in_arr_set a i x y : In y (arr_set a i x) -> y = x \/ y = VNull \/ In y a.
Proof.
  unfold arr_set. destruct (0 <=? i)%Z.
  - destruct (Nat.leb (length a) (Z.to_nat i)).
    + rewrite !in_app_iff. intros [H|[H|H]]; auto.
      * apply repeat_spec in H. auto.
      * destruct H as [->|[]]; auto.
    + intros H. destruct (in_list_set _ _ _ _ H); auto.
  - destruct (Nat.ltb (length a) (Z.to_nat (- i))).
    + intros [->|H]; auto. rewrite in_app_iff in H. destruct H as [H|H]; auto. apply repeat_spec in H. auto.
    + intros H. destruct (in_list_set _ _ _ _ H); auto.
Qed.

Lemma wf_arr_set a i x : wf_value (VArr a) = true -> wf_value x = true -> wf_value (VArr (arr_set a i x)) = true.
Proof.
  rewrite !wf_arr_iff. intros Ha Hx y Hin. destruct (in_arr_set _ _ _ _ Hin) as [->|[->|H]]; auto.
Qed.

Lemma wf_obj_get m f w : wf_value (VObj m) = true -> obj_get m f = Some w -> wf_value w = true.
Proof. rewrite wf_obj_iff. intros [_ Hall] Hg. eapply Hall, obj_get_in, Hg. Qed.

Lemma wf_arr_get a i w : wf_value (VArr a) = true -> arr_get a i = Some w -> wf_value w = true.
Proof.
  rewrite wf_arr_iff. unfold arr_get. destruct (arr_index (length a) i); [|discriminate].
  intros Ha Hn. eapply Ha, nth_error_In, Hn.
Qed.

Lemma wf_get p : forall v w, wf_value v = true -> get v p = Some w -> wf_value w = true.
Proof.
  induction p as [|[f|i] p IH]; intros v w Hv Hg; cbn in Hg.
  - inversion Hg; subst; auto.
  - destruct v; try discriminate. destruct (obj_get kvs f) as [c|] eqn:E; [|discriminate].
    eapply IH; [|eauto]. eapply wf_obj_get; eauto.
  - destruct v; try discriminate. destruct (arr_get vs i) as [c|] eqn:E; [|discriminate].
    eapply IH; [|eauto]. eapply wf_arr_get; eauto.
Qed.

Lemma wf_ins x : wf_value x = true -> forall p slot,
  (forall v, slot = Some v -> wf_value v = true) -> wf_value (ins slot p x) = true.
Proof.
  intros Hx. induction p as [|[f|i] p IH]; intros slot Hs; cbn [ins]; auto.
  - assert (wf_value (VObj match slot with Some (VObj m) => m | _ => [] end) = true) as Hm
      by (destruct slot as [[]|]; auto).
    apply wf_obj_set; auto. apply IH. intros v Hv. eapply wf_obj_get; eauto.
  - assert (wf_value (VArr match slot with Some (VArr a) => a | _ => [] end) = true) as Ha
      by (destruct slot as [[]|]; auto).
    apply wf_arr_set; auto. apply IH. intros v Hv. eapply wf_arr_get; eauto.
Qed.

Lemma wf_insert v p x : wf_value v = true -> wf_value x = true -> wf_value (insert v p x) = true.
Proof. intros Hv Hx. apply wf_ins; auto. intros w [= <-]. exact Hv. Qed.

Lemma wf_or_null o : (forall v, o = Some v -> wf_value v = true) -> wf_value (or_null o) = true.
Proof. destruct o; cbn; auto. Qed.

Fixpoint indexed_from {A} (l : list A) (i : nat) : list (nat * A) :=
  match l with [] => [] | x :: r => (i, x) :: indexed_from r (S i) end.

Lemma aget_indexed_from {A} (l : list A) : forall i n,
  aget Nat.eqb (indexed_from l i) n = if Nat.ltb n i then None else nth_error l (n - i).
Proof.
  induction l as [|x l IH]; intros i n; cbn [indexed_from aget].
  - destruct (Nat.ltb n i); auto. destruct (n - i); reflexivity.
  - destruct (Nat.eqb_spec i n) as [->|Hne].
    + rewrite Nat.ltb_irrefl, Nat.sub_diag. reflexivity.
    + rewrite IH. destruct (Nat.ltb_spec n i), (Nat.ltb_spec n (S i)); try lia; auto.
      replace (n - i) with (S (n - S i)) by lia. reflexivity.
Qed.

Lemma keys_indexed_from {A} (l : list A) : forall i n, In n (map fst (indexed_from l i)) -> i <= n < i + length l.
Proof.
  induction l as [|x l IH]; intros i n Hin; cbn in *; [contradiction|].
  destruct Hin as [<-|H]; [lia|]. specialize (IH _ _ H). lia.
Qed.

Lemma arr_kind_eq ks : arr_kind ks = k_array (mkC (indexed_from ks 0) (UExact k_undefined)).
Proof.
  unfold arr_kind. do 2 f_equal. generalize 0. induction ks as [|x ks IH]; intros i; cbn; auto. rewrite IH. reflexivity.
Qed.

Lemma unknown_kind_closed {K} (l : list (K * kind)) : unknown_kind (mkC l (UExact k_undefined)) = k_undefined.
Proof. reflexivity. Qed.

Lemma forall2_nth {A B} (R : A -> B -> Prop) l1 l2 : Forall2 R l1 l2 -> forall i,
  match nth_error l1 i, nth_error l2 i with Some a, Some b => R a b | None, None => True | _, _ => False end.
Proof. induction 1 as [|a b l1 l2 Hab _ IH]; intros [|i]; cbn; auto. apply IH. Qed.

(* an array whose elements are members of the listed kinds, one by one *)
Lemma member_arr_kind vs ks : Forall2 (fun v k => member v k = true) vs ks -> member (VArr vs) (arr_kind ks) = true.
Proof.
  intros H. rewrite arr_kind_eq, member_arr. cbn [arr_of k_array].
  apply arr_ok_intro; intros i; pose proof (forall2_nth _ _ _ H i) as Hi;
    unfold coll_at; cbn [known]; rewrite aget_indexed_from; cbn; rewrite Nat.sub_0_r.
  - intros x Hn. rewrite Hn in Hi. destruct (nth_error ks i); tauto.
  - intros Hl. apply nth_error_None in Hl. rewrite Hl in Hi. destruct (nth_error ks i); [contradiction | reflexivity].
Qed.

(* an object and a map of kinds with the same keys, the values members of the kinds *)
Definition obj_rel (m : obj) (ks : list (bytes * kind)) : Prop :=
  forall key, match obj_get m key, aget bytes_eqb ks key with
              | Some w, Some k => member w k = true
              | None, None => True
              | _, _ => False
              end.

Lemma obj_rel_member m ks : obj_sorted m = true -> obj_rel m ks ->
  member (VObj m) (k_object (mkC ks (UExact k_undefined))) = true.
Proof.
  intros Hs Hr. rewrite member_obj. cbn [obj_of k_object].
  apply obj_ok_intro; intros f; pose proof (Hr f) as H; unfold coll_at; cbn [known].
  - intros w Hin. rewrite (sorted_in_get _ Hs _ _ Hin) in H. destruct (aget bytes_eqb ks f); tauto.
  - intros Hf. rewrite Hf in H. destruct (aget bytes_eqb ks f); [contradiction | reflexivity].
Qed.

Lemma obj_rel_set m ks key w k : obj_rel m ks -> member w k = true ->
  obj_rel (obj_set m key w) (aset bytes_cmp ks key k).
Proof.
  intros Hr Hm key'. rewrite (aget_aset bytes_eqb bytes_cmp bytes_eqb_eq bytes_cmp_eq).
  destruct (bytes_eqb key key') eqn:E.
  - apply bytes_eqb_eq in E; subst. rewrite obj_get_set_same. auto.
  - rewrite obj_get_set_other by (apply bytes_eqb_neq in E; congruence). apply Hr.
Qed.

(* kind_of_value on collections, its inner loops written with map *)
Lemma kind_of_obj kvs :
  kind_of_value (VObj kvs) = k_object (mkC (map (fun kv => (fst kv, kind_of_value (snd kv))) kvs) (UExact k_undefined)).
Proof. reflexivity. Qed.

Lemma kind_of_arr vs : kind_of_value (VArr vs) = arr_kind (map kind_of_value vs).
Proof.
  cbn [kind_of_value]. unfold arr_kind. do 2 f_equal. generalize 0.
  induction vs as [|x r IH]; intros i; cbn; auto; rewrite IH; reflexivity.
Qed.

Lemma member_kind_of_value : forall v, wf_value v = true -> member v (kind_of_value v) = true.
Proof.
  induction v using value_ind'; intros Hwf; try reflexivity.
  - apply wf_obj_iff in Hwf. destruct Hwf as [Hs Hall]. rewrite Forall_forall in H.
    rewrite kind_of_obj. apply obj_rel_member; auto.
    intros f. rewrite (aget_map_val bytes_eqb kind_of_value).
    change (aget bytes_eqb kvs f) with (obj_get kvs f).   (* the same fixpoint *)
    destruct (obj_get kvs f) as [w|] eqn:E; cbn; auto.
    apply obj_get_in in E. apply (H (f, w) E). eapply Hall, E.
  - rewrite wf_arr_iff in Hwf. rewrite kind_of_arr. apply member_arr_kind.
    induction H as [|x r Hx _ IH]; constructor.
    + apply Hx, Hwf; left; auto.
    + apply IH; intros y Hy; apply Hwf; right; exact Hy.
Qed.
