(* Closed (axiom-free) facts about the model of the numeric stdlib functions, Model/NumFns.v:
     abs on integers (the wrap at i64::MIN), the exact (sign, mantissa, exponent) models of
     f64::floor / ceil / round and of `f64 as i64`, parse_int / to_int after to_string on every i64.
   Everything here is integer arithmetic on mantissas; no real numbers, no Flocq. *)
From Coq Require Import List NArith ZArith Bool Lia Zpower.
From Coq Require Import Floats.SpecFloat.
From VRL Require Import Base.Value Model.ConvRes Model.Arith Model.IntText Model.NumFns.
From VRL Require Import Proofs.ArithProofs Proofs.IntTextProofs.
Import ListNotations.
Local Open Scope Z_scope.

Lemma in_i64_arith z : ConvRes.in_i64 z = true <-> Arith.in_i64 z.
Proof.
  unfold ConvRes.in_i64, i64_min, i64_max, Arith.in_i64, two63. rewrite andb_true_iff, !Z.leb_le. lia.
Qed.

Lemma or_zero_id f : f_is_nan f = false -> or_zero f = f.
Proof. destruct f; try discriminate; reflexivity. Qed.

Lemma abs_int z : abs_fn (VInt z) = ROk (VInt (wrapping_abs z)).
Proof. reflexivity. Qed.

(* i64::wrapping_abs (/repo b0e107f): the minimum integer wraps to itself *)
Lemma abs_int_min : abs_fn (VInt i64_min) = ROk (VInt i64_min).
Proof. reflexivity. Qed.

Lemma wrapping_abs_spec z : ConvRes.in_i64 z = true ->
  wrapping_abs z = if z =? i64_min then i64_min else Z.abs z.
Proof.
  intros Hz. apply in_i64_arith in Hz. destruct (Z.eqb_spec z i64_min) as [->|Hne]; [reflexivity|].
  apply wrap64_id. unfold Arith.in_i64, two63, i64_min in *. lia.
Qed.

Lemma abs_other v : (match v with VInt _ | VFloat _ => False | _ => True end) -> abs_fn v = RErr.
Proof. destruct v; cbn; tauto. Qed.

Lemma mod_int_zero a : mod_fn (VInt a) (VInt 0) = RErr.
Proof. reflexivity. Qed.

Lemma digits2_pos_bounds p : 2 ^ (Zpos (digits2_pos p) - 1) <= Zpos p < 2 ^ (Zpos (digits2_pos p)).
Proof.
  induction p as [p IH|p IH|]; cbn [digits2_pos]; [| |cbn; lia];
    rewrite Pos2Z.inj_succ; replace (Z.succ (Zpos (digits2_pos p)) - 1) with (Z.succ (Zpos (digits2_pos p) - 1)) by lia;
    rewrite !Z.pow_succ_r by lia; lia.
Qed.

Lemma digits2_pos_le p n : 0 <= n -> Zpos (digits2_pos p) <= n <-> Zpos p < 2 ^ n.
Proof.
  intros Hn. pose proof (digits2_pos_bounds p) as [Hlo Hhi]. split; intros H.
  - eapply Z.lt_le_trans; [exact Hhi|]. apply Z.pow_le_mono_r; lia.
  - assert (Zpos (digits2_pos p) - 1 < n) by (apply (Z.pow_lt_mono_r_iff 2); lia). lia.
Qed.

Lemma digits2_pos_shift k p : digits2_pos (shift_pos k p) = (digits2_pos p + k)%positive.
Proof.
  unfold shift_pos. revert p. induction k using Pos.peano_ind; intros p.
  - cbn. lia.
  - rewrite Pos.iter_succ. cbn [digits2_pos]. rewrite IHk. lia.
Qed.

Lemma Zpos_shift_pos k p : Zpos (shift_pos k p) = Zpos p * 2 ^ Zpos k.
Proof. rewrite shift_pos_correct. change (Z.pow_pos 2 k) with (2 ^ Zpos k). lia. Qed.

Lemma small_int_spec s n : 0 <= n < 2 ^ 53 ->
  f_int_value (sf_of_small_int s n) = Some (cond_Zopp s n)
  /\ valid_binary fprec femax (sf_of_small_int s n) = true
  /\ match sf_of_small_int s n with S754_zero s' | S754_finite s' _ _ => s' = s | _ => False end.
Proof.
  intros [Hn0 Hn]. destruct n as [|p|p]; [destruct s; repeat split; reflexivity| |lia].
  apply (digits2_pos_le p 53) in Hn; [|lia].
  unfold sf_of_small_int. cbn [Zdigits2]. destruct (53 - Zpos (digits2_pos p)) as [|k|k] eqn:E; [| |lia].
  - split; [|split; [|reflexivity]].
    + cbn [f_int_value Z.leb Z.compare]. rewrite Z.pow_0_r, Z.mul_1_r. reflexivity.
    + cbn [valid_binary]. unfold bounded, canonical_mantissa, fexp, emin.
      replace (Zpos (digits2_pos p)) with 53 by lia. reflexivity.
  - split; [|split; [|reflexivity]].
    + cbn [f_int_value]. replace (Zpos (digits2_pos p) - 53) with (Zneg k) by lia.
      cbn [Z.leb Z.compare Z.opp]. rewrite Zpos_shift_pos.
      assert (0 < 2 ^ Zpos k) by (apply Z.pow_pos_nonneg; lia).
      rewrite Z.mod_mul by lia. cbn [Z.eqb]. rewrite Z.div_mul by lia. reflexivity.
    + cbn [valid_binary]. unfold bounded, canonical_mantissa, fexp, emin.
      rewrite digits2_pos_shift, Pos2Z.inj_add.
      replace (Zpos (digits2_pos p) + Zpos k + (Zpos (digits2_pos p) - 53)) with (Zpos (digits2_pos p)) by lia.
      apply andb_true_iff. split; [apply Zeq_is_eq_bool | apply Z.leb_le]; lia.
Qed.

(* m = D q + r with D = 2^(-e), the setting of everything below the binary point *)
Lemma scale_divmod m e : e < 0 ->
  2 <= 2 ^ (- e) /\ m = 2 ^ (- e) * (m / 2 ^ (- e)) + m mod 2 ^ (- e) /\ 0 <= m mod 2 ^ (- e) < 2 ^ (- e).
Proof.
  intros He. assert (2 ^ 1 <= 2 ^ (- e)) by (apply Z.pow_le_mono_r; lia).
  split; [assumption|]. split; [apply Z.div_mod | apply Z.mod_pos_bound]; lia.
Qed.

(* the magnitude chosen is at most q + 1 <= m, so stays below 2^53 *)
Lemma rint_mag_bound k s m e : e < 0 -> Zpos m < 2 ^ 53 ->
  0 <= rint_mag k s (Zpos m / 2 ^ (- e)) (Zpos m mod 2 ^ (- e)) (2 ^ (- e)) < 2 ^ 53.
Proof.
  intros He Hm. destruct (scale_divmod (Zpos m) e He) as (HD & Hdm & Hr).
  set (D := 2 ^ (- e)) in *. set (q := Zpos m / D) in *. set (r := Zpos m mod D) in *.
  assert (0 <= q) by (apply Z.div_pos; lia). clearbody D q r.
  assert (q + 1 <= Zpos m) by nia. unfold rint_mag. destruct k, s, (r =? 0), (D <=? 2 * r); lia.
Qed.

(* The result of floor / ceil / round on a finite x = M / D (M = +-m, D = 2^(-e), e < 0) is the float whose exact value is
   the integer n with  floor: n <= x < n + 1;  ceil: n - 1 < x <= n;  round: |x - n| <= 1/2, ties away from zero.
   All inequalities multiplied by D. *)
Theorem f_rint_spec k s m e : e < 0 -> Zpos m < 2 ^ 53 ->
  exists n, f_int_value (f_rint k (S754_finite s m e)) = Some n
    /\ valid_binary fprec femax (f_rint k (S754_finite s m e)) = true
    /\ let M := cond_Zopp s (Zpos m) in
       let D := 2 ^ (- e) in
       match k with
       | KFloor => n * D <= M < (n + 1) * D
       | KCeil => (n - 1) * D < M <= n * D
       | KRound => 2 * Z.abs (M - n * D) <= D /\ (2 * Z.abs (M - n * D) = D -> Z.abs M < Z.abs (n * D))
       end.
Proof.
  intros He Hm. destruct (small_int_spec s _ (rint_mag_bound k s m e He Hm)) as (Hv & Hval & _).
  destruct (scale_divmod (Zpos m) e He) as (HD & Hdm & Hr).
  unfold f_rint. replace (0 <=? e) with false by (symmetry; apply Z.leb_gt; exact He).
  set (D := 2 ^ (- e)) in *. set (q := Zpos m / D) in *. set (r := Zpos m mod D) in *.
  exists (cond_Zopp s (rint_mag k s q r D)). split; [exact Hv|]. split; [exact Hval|].
  clearbody D q r. clear Hv Hval. cbv zeta. unfold rint_mag.
  destruct k, s; cbn [cond_Zopp]; try destruct (Z.eqb_spec r 0); try destruct (Z.leb_spec D (2 * r)); nia.
Qed.

Lemma f_rint_integer k s m e : 0 <= e -> f_rint k (S754_finite s m e) = S754_finite s m e.
Proof. intros He. unfold f_rint. apply Z.leb_le in He. rewrite He. reflexivity. Qed.

Lemma f_rint_special k f : (match f with S754_finite _ _ _ => False | _ => True end) -> f_rint k f = f.
Proof. destruct f; cbn; tauto. Qed.

(* ceil(-0.5) = -0.0, round(-0.2) = -0.0 *)
Lemma f_rint_sign k s m e : Zpos m < 2 ^ 53 ->
  match f_rint k (S754_finite s m e) with
  | S754_zero s' | S754_finite s' _ _ => s' = s
  | _ => False
  end.
Proof.
  intros Hm. unfold f_rint. destruct (Z.leb_spec 0 e) as [He|He]; [reflexivity|].
  apply small_int_spec, rint_mag_bound; assumption.
Qed.

Lemma valid_mantissa_bound s m e : valid_binary fprec femax (S754_finite s m e) = true -> Zpos m < 2 ^ 53.
Proof.
  intros Hv. cbn [valid_binary] in Hv. unfold bounded, canonical_mantissa in Hv.
  apply andb_true_iff in Hv. destruct Hv as [Hc _]. apply Zeq_bool_eq in Hc.
  unfold fexp, emin in Hc. apply (digits2_pos_le m 53); lia.
Qed.

Lemma f_rint_valid k x : valid_binary fprec femax x = true -> valid_binary fprec femax (f_rint k x) = true.
Proof.
  intros Hv. destruct x as [s|s| |s m e]; try exact Hv.
  destruct (Z.leb_spec 0 e) as [He|He].
  - rewrite f_rint_integer by exact He. exact Hv.
  - destruct (f_rint_spec k s m e He (valid_mantissa_bound s m e Hv)) as (n & _ & Hvalid & _). exact Hvalid.
Qed.

Lemma f_rint_finite k x : valid_binary fprec femax x = true -> f_is_finite x = true -> f_is_finite (f_rint k x) = true.
Proof.
  intros Hv Hf. destruct x as [s|s| |s m e]; try exact Hf.
  pose proof (f_rint_sign k s m e (valid_mantissa_bound s m e Hv)) as H.
  destruct (f_rint k (S754_finite s m e)); try contradiction; reflexivity.
Qed.

Lemma f_to_i64_range f : ConvRes.in_i64 (f_to_i64 f) = true.
Proof.
  apply in_i64_arith. unfold Arith.in_i64, two63.
  destruct f as [s|s| |s m e]; cbn [f_to_i64]; try destruct s; unfold i64_min, i64_max; lia.
Qed.

(* inside the i64 range the conversion truncates towards zero: with x = M / D,  |n| <= |x| < |n| + 1 and n x >= 0 *)
Theorem f_to_i64_trunc s m e :
  let M := cond_Zopp s (Zpos m * (if 0 <=? e then 2 ^ e else 1)) in
  let D := if 0 <=? e then 1 else 2 ^ (- e) in
  let n := f_to_i64 (S754_finite s m e) in
  Z.abs M < 2 ^ 63 * D ->
  Z.abs n * D <= Z.abs M < (Z.abs n + 1) * D /\ 0 <= n * M.
Proof.
  cbv zeta. unfold f_to_i64. destruct (Z.leb_spec 0 e) as [He|He]; intros H; unfold i64_min, i64_max.
  - set (a := Zpos m * 2 ^ e) in *.
    assert (0 < a) by (apply Z.mul_pos_pos; [lia | apply Z.pow_pos_nonneg; lia]).
    destruct s; cbn [cond_Zopp] in *; nia.
  - rewrite Z.mul_1_r in *. destruct (scale_divmod (Zpos m) e He) as (HD & Hdm & Hr).
    set (D := 2 ^ (- e)) in *. set (q := Zpos m / D) in *. set (r := Zpos m mod D) in *.
    assert (0 <= q) by (apply Z.div_pos; lia).
    assert (q < 2 ^ 63) by (destruct s; cbn [cond_Zopp] in H; nia).
    (* no saturation *)
    replace (Z.max _ _) with (if s then - q else q) by (destruct s; lia).
    clearbody q r D. destruct s; cbn [cond_Zopp] in *; nia.
Qed.

Lemma int_to_string_format z : int_to_string z = format_radix z 10.
Proof. unfold int_to_string, format_radix. reflexivity. Qed.

(* to_string on an integer never fails, and both integer parsers read the text back: every i64, i64::MIN included *)
Theorem int_text_roundtrip fmt_f64 fmt_ts z : ConvRes.in_i64 z = true ->
  exists s, to_string fmt_f64 fmt_ts (VInt z) = ROk (VBytes s)
            /\ parse_int (VBytes s) None = ROk (VInt z)
            /\ to_int (VBytes s) = ROk (VInt z).
Proof.
  intros Hz. destruct (format_radix_roundtrip 10 z ltac:(lia) Hz) as (s & Hs & Hp).
  destruct (int_roundtrip_default z Hz) as (s' & Hs' & Hp').
  unfold format_int_opt, format_int in Hs'. cbn [Z.leb Z.compare andb] in Hs'. rewrite Hs in Hs'. injection Hs' as <-.
  exists s. unfold to_string, to_int, parse_i64. rewrite int_to_string_format, Hs, Hp. auto.
Qed.
