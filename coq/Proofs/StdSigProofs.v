(* C03: the modelled stdlib functions (Model/EvalInst.v F_inst) against the table of declared signatures
   (Model/StdSig.v sigs), row by row and constructor by constructor of value. *)
From Coq Require Import List NArith ZArith String Lia.
From VRL Require Import Base.Value Model.EvalInst Model.StdSig.
Import ListNotations.
Local Open Scope string_scope.

(* F_inst name by name: the chain of name comparisons is evaluated here, once, with the argument still a variable *)
Lemma F_inst_string v : F_inst (nm "string") [v] = match v with VBytes _ => Some v | _ => None end.
Proof. reflexivity. Qed.
Lemma F_inst_int v : F_inst (nm "int") [v] = match v with VInt _ => Some v | _ => None end.
Proof. reflexivity. Qed.
Lemma F_inst_bool v : F_inst (nm "bool") [v] = match v with VBool _ => Some v | _ => None end.
Proof. reflexivity. Qed.
Lemma F_inst_array v : F_inst (nm "array") [v] = match v with VArr _ => Some v | _ => None end.
Proof. reflexivity. Qed.
Lemma F_inst_object v : F_inst (nm "object") [v] = match v with VObj _ => Some v | _ => None end.
Proof. reflexivity. Qed.
Lemma F_inst_is_null v : F_inst (nm "is_null") [v] = Some (VBool (match v with VNull => true | _ => false end)).
Proof. reflexivity. Qed.
Lemma F_inst_is_string v : F_inst (nm "is_string") [v] = Some (VBool (match v with VBytes _ => true | _ => false end)).
Proof. reflexivity. Qed.
Lemma F_inst_length v :
  F_inst (nm "length") [v] =
  match v with
  | VBytes b => Some (VInt (Z.of_nat (List.length b)))
  | VArr a => Some (VInt (Z.of_nat (List.length a)))
  | VObj m => Some (VInt (Z.of_nat (List.length m)))
  | _ => None
  end.
Proof. reflexivity. Qed.

(* every modelled function honours its declared signature:
   - a returned value's kind is in the declared return kinds;
   - an argument whose kind the parameter lists, for a function typed infallible, never fails;
   - an argument whose kind the parameter does not list is an error (never a value). *)
Theorem modelled_functions_honour_signatures :
  forall sg v, In sg sigs ->
    (forall r, F_inst (nm (s_name sg)) [v] = Some r -> in_mask r (s_return sg) = true) /\
    (s_infallible_when_typed sg = true -> in_mask v (s_param sg) = true -> F_inst (nm (s_name sg)) [v] <> None) /\
    (in_mask v (s_param sg) = false -> F_inst (nm (s_name sg)) [v] = None).
Proof.
  intros sg v Hin. cbn [sigs In] in Hin.
  destruct Hin as [<-|[<-|[<-|[<-|[<-|[<-|[<-|[<-|[]]]]]]]]]; cbn [s_name s_param s_return s_infallible_when_typed].
  1: rewrite F_inst_string. 2: rewrite F_inst_int. 3: rewrite F_inst_bool. 4: rewrite F_inst_array.
  5: rewrite F_inst_object. 6: rewrite F_inst_is_null. 7: rewrite F_inst_is_string. 8: rewrite F_inst_length.
  (* a row of the table against a constructor of value: each conjunct is closed or refuted by evaluating the masks *)
  all: destruct v; (split; [intros r H|split; intros]); try discriminate; try reflexivity.
  all: injection H as <-; reflexivity.
Qed.

(* the type assertions fail exactly on the wrong kind: "a wrong runtime type returns an error" *)
Theorem type_assertions_exact :
  forall v,
    (F_inst (nm "string") [v] = None <-> kind_bit v <> K_BYTES) /\
    (F_inst (nm "int") [v] = None <-> kind_bit v <> K_INTEGER) /\
    (F_inst (nm "bool") [v] = None <-> kind_bit v <> K_BOOLEAN) /\
    (F_inst (nm "array") [v] = None <-> kind_bit v <> K_ARRAY) /\
    (F_inst (nm "object") [v] = None <-> kind_bit v <> K_OBJECT).
Proof.
  intros v. rewrite F_inst_string, F_inst_int, F_inst_bool, F_inst_array, F_inst_object.
  destruct v; repeat split; intros H; try discriminate; try reflexivity; elim H; reflexivity.
Qed.
