(* Facts about `i64 as f64` (of_i64 = SpecFloat.binary_normalize 53 1024 z 0 false) that need the real-number
   semantics of binary64: obtained from Flocq 4.1 (BinarySingleNaN.binary_normalize_correct, Beqb_correct) through
   PrimFloat.binary_normalize_equiv, which identifies Coq's SpecFloat.binary_normalize with Flocq's.
   These lemmas depend on the four axioms of Coq's classical real numbers that Flocq uses
   (ClassicalDedekindReals.sig_not_dec, sig_forall_dec, functional_extensionality_dep, Classical_Prop.classic);
   nothing else in the C10/C11 development does. *)
From Coq Require Import ZArith Reals Lia Lra Floats Bool.
From Flocq Require Import Core.Core IEEE754.BinarySingleNaN IEEE754.PrimFloat.
From VRL Require Import Model.Arith.
Local Open Scope Z_scope.

Definition Bof (z : Z) : binary_float prec emax := binary_normalize prec emax Hprec Hmax mode_NE z 0 false.

Lemma of_i64_Bof z : of_i64 z = B2SF (Bof z).
Proof. unfold of_i64, Bof. apply (binary_normalize_equiv z 0 false). Qed.

Notation rnd := (round radix2 (fexp prec emax) (round_mode mode_NE)).

Lemma F2R_int z : F2R (Float radix2 z 0) = IZR z.
Proof. unfold F2R. cbn. ring. Qed.

Lemma gen_bpow e : (-1074 <= e <= 1023) -> generic_format radix2 (fexp prec emax) (bpow radix2 e).
Proof.
  intros H. apply generic_format_bpow'. apply fexp_correct. exact Hprec.
  unfold fexp, emin, prec, emax. lia.
Qed.

Lemma Bof_correct z : Z.abs z <= 2 ^ 63 ->
  B2R (Bof z) = rnd (IZR z) /\ is_finite (Bof z) = true.
Proof.
  intros Hz. pose proof (binary_normalize_correct prec emax Hprec Hmax mode_NE z 0 false) as H.
  cbv zeta in H. rewrite F2R_int in H. fold (Bof z) in H.
  rewrite Rlt_bool_true in H. { tauto. }
  apply Rle_lt_trans with (bpow radix2 63).
  - apply abs_round_le_generic. apply fexp_correct; exact Hprec. apply valid_rnd_round_mode.
    apply gen_bpow; lia.
    rewrite <- abs_IZR. change (bpow radix2 63) with (IZR (2 ^ 63)). apply IZR_le. exact Hz.
  - apply bpow_lt. unfold emax. lia.
Qed.

(* integers of magnitude at most 2^53 are binary64 numbers *)
Lemma gen_small_int z : Z.abs z <= 2 ^ 53 -> generic_format radix2 (fexp prec emax) (IZR z).
Proof.
  intros Hz. destruct (Z.eq_dec (Z.abs z) (2 ^ 53)) as [E|NE].
  - apply generic_format_abs_inv. rewrite <- abs_IZR, E. apply (gen_bpow 53). lia.
  - apply (generic_format_FLT radix2 (3 - emax - prec) prec).
    apply (FLT_spec radix2 (3 - emax - prec) prec (IZR z) (Float radix2 z 0)).
    + symmetry. apply F2R_int.
    + cbn [Fnum]. change (radix2 ^ prec) with (2 ^ 53). lia.
    + cbn [Fexp]. unfold emax, prec. lia.
Qed.

Lemma Bof_exact z : Z.abs z <= 2 ^ 53 -> B2R (Bof z) = IZR z /\ is_finite (Bof z) = true.
Proof.
  intros Hz. destruct (Bof_correct z ltac:(lia)) as [H1 H2]. split; auto.
  rewrite H1. apply round_generic. apply valid_rnd_round_mode. apply gen_small_int. exact Hz.
Qed.

(* on integers of magnitude at most 2^53 the conversion is injective: == is exact there *)
Lemma f_eq_small a b : Z.abs a <= 2 ^ 53 -> Z.abs b <= 2 ^ 53 -> f_eq (of_i64 a) (of_i64 b) = (a =? b).
Proof.
  intros Ha Hb. destruct (Bof_exact a Ha) as [Ra Fa]. destruct (Bof_exact b Hb) as [Rb Fb].
  unfold f_eq. rewrite !of_i64_Bof. change (SFeqb (B2SF (Bof a)) (B2SF (Bof b))) with (Beqb (Bof a) (Bof b)).
  rewrite (Beqb_correct _ _ _ _ Fa Fb), Ra, Rb.
  destruct (Z.eqb_spec a b) as [->|NE].
  - apply Req_bool_true. reflexivity.
  - apply Req_bool_false. intros E. apply eq_IZR in E. contradiction.
Qed.

Lemma of_i64_nonzero z : Z.abs z <= 2 ^ 63 -> z <> 0 -> f_is_zero (of_i64 z) = false.
Proof.
  intros Hz Hnz. destruct (Bof_correct z Hz) as [H1 H2].
  assert (B2R (Bof z) <> 0%R) as Hne.
  { rewrite H1. intros E.
    assert (bpow radix2 0 <= Rabs (rnd (IZR z)))%R as H.
    { apply abs_round_ge_generic. apply fexp_correct; exact Hprec. apply valid_rnd_round_mode.
      apply gen_bpow; lia. rewrite <- abs_IZR. change (bpow radix2 0) with (IZR 1). apply IZR_le. lia. }
    rewrite E, Rabs_R0 in H. cbn in H. lra. }
  rewrite of_i64_Bof. destruct (Bof z); cbn in *; try reflexivity. contradiction Hne. reflexivity.
Qed.
