(* C21: from parse_value/print_value to the VRL functions parse_json / encode_json
   (lossy UTF-8 conversion of the text, BOM stripping, trailing whitespace, fuel), the recursion limit, and the
   float-free corollary. *)
From Coq Require Import List NArith ZArith Bool Lia.
From Coq Require Import Floats.SpecFloat.
From VRL Require Import Base.Bytes Base.Value Model.Json Proofs.JsonTextProofs Proofs.JsonNumProofs Proofs.JsonProofs.
Import ListNotations.
Local Open Scope N_scope.

Lemma ascii_repeat n : ascii (repeat 32 n).
Proof. induction n; cbn [repeat]; constructor; [lia | assumption]. Qed.

Lemma ascii_sep pretty first ind : ascii (sep pretty first ind).
Proof.
  unfold sep, indent. destruct pretty, first; try apply ascii_app; try apply ascii_repeat;
    repeat constructor; lia.
Qed.

Lemma ascii_close pretty ind : ascii (close pretty ind).
Proof. unfold close, indent. destruct pretty; [constructor; [lia | apply ascii_repeat] | constructor]. Qed.

Lemma ascii_colon pretty : ascii (colon pretty).
Proof. destruct pretty; repeat constructor; lia. Qed.

Lemma ascii_print_u n : ascii (print_u n).
Proof.
  unfold print_u. eapply Forall_impl; [|apply digit_chars_map, Forall_rev, lsd_digits].
  intros c Hc. cbn beta in Hc. lia.
Qed.

Lemma ascii_print_int z : ascii (print_int z).
Proof.
  destruct z; cbn [print_int]; [repeat constructor; lia | apply ascii_print_u |].
  constructor; [lia | apply ascii_print_u].
Qed.

Lemma strip_boms_head c r : c <> 239 -> strip_boms (c :: r) = c :: r.
Proof.
  intros Hc. destruct r as [|b [|d r']]; try reflexivity.
  cbn [strip_boms]. apply N.eqb_neq in Hc. rewrite Hc. reflexivity.
Qed.

Section Top.
  Variable ff : spec_float -> bytes.
  Variable ft : Z -> bytes.
  Notation fok := (fok ff).

  Definition U8 (v : value) : Prop := forall pretty ind, utf8_ok (print_value ff ft pretty ind v) = true.

  Lemma elems_utf8 l : Forall (fun x => jrep fok x = true /\ U8 x) l ->
    forall pretty ind first, utf8_ok (print_elems ff ft pretty ind first l) = true.
  Proof.
    induction 1 as [|x l [_ Hx] _ IH]; intros pretty ind first; cbn [print_elems].
    - rewrite utf8_ok_app by apply ascii_utf8_ok, ascii_close. reflexivity.
    - rewrite utf8_ok_app by apply ascii_utf8_ok, ascii_sep. rewrite utf8_ok_app by apply Hx. apply IH.
  Qed.

  Lemma members_utf8 l : Forall (fun kv => utf8_ok (fst kv) = true /\ jrep fok (snd kv) = true /\ U8 (snd kv)) l ->
    forall pretty ind first, utf8_ok (print_members ff ft pretty ind first l) = true.
  Proof.
    induction 1 as [|[k x] l (Hk & _ & Hx) _ IH]; intros pretty ind first; cbn [print_members fst snd] in *.
    - rewrite utf8_ok_app by apply ascii_utf8_ok, ascii_close. reflexivity.
    - rewrite utf8_ok_app by apply ascii_utf8_ok, ascii_sep.
      rewrite utf8_ok_app by apply print_string_utf8, Hk.
      rewrite utf8_ok_app by apply ascii_utf8_ok, ascii_colon. rewrite utf8_ok_app by apply Hx. apply IH.
  Qed.

  Lemma print_utf8 : forall v, jrep fok v = true -> U8 v.
  Proof.
    apply jrep_ind; unfold U8.
    - intros b Hb pretty ind. cbn [print_value]. rewrite (lossy_id b Hb). apply print_string_utf8, Hb.
    - intros z _ pretty ind. apply ascii_utf8_ok, ascii_print_int.
    - intros f Hfin Hf pretty ind. cbn [print_value]. rewrite Hfin. apply ascii_utf8_ok, (fok_spec ff f Hf).
    - intros [] pretty ind; reflexivity.
    - reflexivity.
    - intros vs IH pretty ind. rewrite print_arr_eq. apply (elems_utf8 _ IH).
    - intros kvs _ IH pretty ind. rewrite print_obj_eq. apply (members_utf8 _ IH).
  Qed.

  (* the printed text is valid UTF-8 and does not begin with a BOM: parse_json sees it as it is *)
  Lemma parse_json_print pretty v :
    jrep fok v = true -> parse_json (encode_json ff ft pretty v) = parse_doc (print_value ff ft pretty 0 v).
  Proof.
    intros Hj. unfold parse_json, encode_json. rewrite (lossy_id _ (print_utf8 v Hj pretty 0%nat)).
    pose proof (print_starts ff ft pretty 0%nat v [] Hj) as Hs. rewrite app_nil_r in Hs.
    destruct (print_value ff ft pretty 0 v) as [|c r]; [discriminate|].
    rewrite strip_boms_head by apply (starts_cons c r Hs). reflexivity.
  Qed.

  (* parse_json (encode_json v): equal up to one ulp on floats whose text is read back within one ulp *)
  Theorem roundtrip_close pretty v :
    jrep fok v = true -> vdepth v < 128 ->
    exists v', parse_json (encode_json ff ft pretty v) = Some v' /\ value_close v v' = true.
  Proof.
    intros Hj Hd. rewrite parse_json_print by exact Hj. unfold parse_doc.
    set (txt := print_value ff ft pretty 0 v).
    destruct (rt_all ff ft v Hj pretty 0%nat (S (length txt + length txt)) 128 []) as (v' & Hp & Hc);
      [fold txt; lia | exact Hd | reflexivity |].
    fold txt in Hp. rewrite app_nil_r in Hp. rewrite Hp. exists v'. split; [reflexivity | exact Hc].
  Qed.

  (* remaining_depth starts at 128: 128 or more arrays around anything are printed but not read back *)
  Theorem depth_limit pretty v0 n :
    let v := Nat.iter (S n) (fun x => VArr [x]) v0 in
    jrep fok v = true -> 128 <= N.of_nat (S n) -> parse_json (encode_json ff ft pretty v) = None.
  Proof.
    intros v Hj Hn. rewrite parse_json_print by exact Hj. unfold parse_doc.
    rewrite <- (app_nil_r (print_value _ _ _ _ _)). subst v. rewrite nest_rejected by exact Hn. reflexivity.
  Qed.
End Top.

Definition no_float : spec_float -> bool := fun _ => false.

Definition CloseEq (v : value) : Prop := forall v', value_close v v' = true -> v' = v.

Lemma scalar_close_eq a b : value_eqb a b = true -> b = a.
Proof. intros H. apply value_eqb_eq in H. congruence. Qed.

Lemma list_close_eq l : Forall (fun x => jrep no_float x = true /\ CloseEq x) l ->
  forall l', list_close l l' = true -> l' = l.
Proof.
  induction 1 as [|x l [_ Hx] _ IH]; intros [|x' l'] Hc; try discriminate; [reflexivity|].
  cbn [list_close] in Hc. apply andb_true_iff in Hc as [Hcx Hcl].
  rewrite (Hx x' Hcx), (IH l' Hcl). reflexivity.
Qed.

Lemma pairs_close_eq l :
  Forall (fun kv => utf8_ok (fst kv) = true /\ jrep no_float (snd kv) = true /\ CloseEq (snd kv)) l ->
  forall l', pairs_close l l' = true -> l' = l.
Proof.
  induction 1 as [|[k x] l (_ & _ & Hx) _ IH]; intros [|[k' x'] l'] Hc; try discriminate; [reflexivity|].
  cbn [pairs_close] in Hc. rewrite !andb_true_iff, bytes_eqb_eq in Hc. destruct Hc as [[-> Hcx] Hcl].
  rewrite (Hx x' Hcx), (IH l' Hcl). reflexivity.
Qed.

Lemma close_eq : forall v, jrep no_float v = true -> CloseEq v.
Proof.
  apply jrep_ind; unfold CloseEq; try (intros; apply scalar_close_eq; assumption).
  - discriminate.
  - intros vs IH [] Hc; try discriminate. rewrite close_arr_eq in Hc. f_equal. apply (list_close_eq _ IH), Hc.
  - intros kvs _ IH [] Hc; try discriminate. rewrite close_obj_eq in Hc. f_equal. apply (pairs_close_eq _ IH), Hc.
Qed.

(* representability is monotone in the float predicate; in particular a float-free representable value is
   representable whatever the float printer is *)
Lemma jrep_mono fok1 fok2 : (forall f, fok1 f = true -> fok2 f = true) ->
  forall v, jrep fok1 v = true -> jrep fok2 v = true.
Proof.
  intros Hf. apply jrep_ind; cbn [jrep]; auto.
  - intros f -> H. exact (Hf f H).
  - intros vs IH. apply forallb_forall. rewrite Forall_forall in IH. intros x Hx. apply IH, Hx.
  - intros kvs -> IH. change (jrep_pairs fok2 kvs = true).
    induction IH as [|[k x] l (Hk & _ & Hx) _ IH]; [reflexivity|].
    cbn [jrep_pairs fst snd] in *. rewrite Hk, Hx. exact IH.
Qed.

Theorem roundtrip_exact ff ft pretty v :
  jrep no_float v = true -> vdepth v < 128 ->
  parse_json (encode_json ff ft pretty v) = Some v.
Proof.
  intros Hj Hd.
  assert (Hj' : jrep (fok ff) v = true) by (apply (jrep_mono no_float); [discriminate | exact Hj]).
  destruct (roundtrip_close ff ft pretty v Hj' Hd) as (v' & Hp & Hc).
  rewrite Hp. f_equal. apply close_eq; assumption.
Qed.
