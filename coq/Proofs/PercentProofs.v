(* Proofs for Model/Percent.v. *)
From Coq Require Import List NArith Bool.
From VRL Require Import Base.Bytes Model.Base16 Model.CodecUtf8 Model.Percent Proofs.CodecProofs Proofs.StrUtf8.
Import ListNotations.
Local Open Scope N_scope.

Lemma pct_encode_cons set c r :
  pct_encode set (c :: r)
  = (if should_encode set c then [37; hex_upper (c / 16); hex_upper (c mod 16)] else [c]) ++ pct_encode set r.
Proof. reflexivity. Qed.

Lemma pct_decode_triplet c t :
  c < 256 -> pct_decode (37 :: hex_upper (c / 16) :: hex_upper (c mod 16) :: t) = c :: pct_decode t.
Proof.
  intros Hc. cbn [pct_decode N.eqb Pos.eqb].
  rewrite !unhex_hex_upper, div_mul_mod by (discriminate || apply mod16_lt || apply div16_lt, Hc). reflexivity.
Qed.

Lemma pct_decode_literal c t : c <> 37 -> pct_decode (c :: t) = c :: pct_decode t.
Proof. intros H. cbn [pct_decode]. apply N.eqb_neq in H. rewrite H. reflexivity. Qed.

Lemma pct_decode_percent_literal t : starts_two_hex t = false -> pct_decode (37 :: t) = 37 :: pct_decode t.
Proof.
  intros H. cbn [pct_decode]. cbn [N.eqb Pos.eqb].
  destruct t as [|h [|l r']]; try reflexivity.
  cbn [starts_two_hex] in H. unfold is_hex in H.
  destruct (unhex h), (unhex l); try reflexivity. discriminate.
Qed.

(* two leading hex digits in the encoder's output are two leading hex digits of its input *)
Lemma starts_two_hex_encode set r : starts_two_hex (pct_encode set r) = true -> starts_two_hex r = true.
Proof.
  destruct r as [|h [|l r']].
  - cbn. discriminate.
  - cbn [pct_encode flat_map app]. destruct (should_encode set h); cbn [app starts_two_hex]; try discriminate.
  - rewrite !pct_encode_cons.
    destruct (should_encode set h).
    + cbn [app starts_two_hex]. change (is_hex 37) with false. discriminate.
    + destruct (should_encode set l).
      * cbn [app starts_two_hex]. change (is_hex 37) with false. rewrite andb_false_r. discriminate.
      * cbn [app starts_two_hex]. auto.
Qed.

Theorem pct_roundtrip set s :
  wf_bytes s = true -> (set_contains set 37 = true \/ no_triplet s = true) ->
  pct_decode (pct_encode set s) = s.
Proof.
  induction s as [|c r IH]; intros Hwf Hside; [reflexivity|].
  apply wf_bytes_cons in Hwf as [Hc Hr].
  assert (IH' : pct_decode (pct_encode set r) = r).
  { apply IH; [exact Hr|]. destruct Hside as [H|H]; [left; exact H | right].
    cbn [no_triplet] in H. apply andb_true_iff in H. apply H. }
  rewrite pct_encode_cons. destruct (should_encode set c) eqn:Es; cbn [app].
  - rewrite (pct_decode_triplet c _ Hc), IH'. reflexivity.
  - destruct (N.eq_dec c 37) as [->|Hne]; [|rewrite (pct_decode_literal c _ Hne), IH'; reflexivity].
    (* a literal '%': only possible when the set lacks it, and then s has no %XX here *)
    apply orb_false_iff in Es as [_ Es]. destruct Hside as [H|H]; [congruence|].
    cbn [no_triplet N.eqb Pos.eqb andb] in H. apply andb_true_iff in H as [H _]. apply negb_true_iff in H.
    rewrite pct_decode_percent_literal, IH'; [reflexivity|].
    destruct (starts_two_hex (pct_encode set r)) eqn:E; [|reflexivity].
    apply starts_two_hex_encode in E. congruence.
Qed.

Theorem percent_roundtrip set s :
  wf_bytes s = true -> valid_utf8 s = true ->
  (set_contains set 37 = true \/ no_triplet s = true) ->
  exists e, encode_percent set s = ROk e /\ decode_percent e = ROk s.
Proof.
  intros Hwf Hv Hside. exists (pct_encode set s). unfold encode_percent, decode_percent.
  rewrite (lossy_valid s Hv). split; [reflexivity|].
  rewrite (pct_roundtrip set s Hwf Hside). rewrite (lossy_valid s Hv). reflexivity.
Qed.

(* for the six sets without '%', the literal statement fails: "%41" comes back as "A" *)
Lemma percent_refuted_every_set_without_percent set :
  set_contains set 37 = false ->
  encode_percent set [37; 52; 49] = ROk [37; 52; 49] /\ decode_percent [37; 52; 49] = ROk [65].
Proof. destruct set; vm_compute; intros H; try discriminate; split; reflexivity. Qed.
