(* C32: proofs about the grok model (Model/Grok.v):
   - the backtracking matcher lists exactly the splits of the declarative reading, each with its captures; match_rule
     answers with one of them and with "no match" only if there is none (that it is the first in priority order is
     its definition, not a theorem here);
   - escaping of literal text is complete;
   - alias expansion cannot run out of fuel, and a reference to an alias under expansion is rejected. *)
From Coq Require Import List NArith Bool Lia PeanoNat.
From VRL Require Import Base.Bytes Base.Value Model.Grok Proofs.ListFacts.
Import ListNotations.
Local Open Scope list_scope.

Section piece_ind_nested.
  Variable P : piece -> Prop.
  Hypothesis HLit : forall c, P (PLit c).
  Hypothesis HOpt : forall k, P (POpt k).
  Hypothesis HRep : forall k m g, P (PRep k m g).
  Hypothesis HBnd : P PBnd.
  Hypothesis HGrp : forall cap ps, Forall P ps -> P (PGrp cap ps).

  Fixpoint piece_ind' (x : piece) : P x :=
    match x with
    | PLit c => HLit c
    | POpt k => HOpt k
    | PRep k m g => HRep k m g
    | PBnd => HBnd
    | PGrp cap ps =>
        HGrp cap ps ((fix fl (l : list piece) : Forall P l :=
                        match l with
                        | [] => Forall_nil _
                        | y :: r => Forall_cons y (piece_ind' y) (fl r)
                        end) ps)
    end.
End piece_ind_nested.

(* the local fixpoints inside run_piece and mpiece are convertible with run_list and mlist *)
Lemma run_piece_grp cap ps caps p s :
  run_piece (PGrp cap ps) caps p s =
  map (fun a : alt =>
         let '(c1, p1, s1) := a in
         match cap with
         | Some g => ((g, firstn (List.length s - List.length s1) s) :: c1, p1, s1)
         | None => (c1, p1, s1)
         end) (run_list ps caps p s).
Proof. reflexivity. Qed.

Lemma mpiece_grp cap ps p w n cs :
  mpiece (PGrp cap ps) p w n cs <->
  exists c0, mlist ps p w n c0 /\ cs = match cap with Some g => (g, w) :: c0 | None => c0 end.
Proof. reflexivity. Qed.

Lemma last_of_app p a b : last_of p (a ++ b) = last_of (last_of p a) b.
Proof. revert p. induction a as [|c a IH]; intros p; cbn; auto. Qed.

Lemma hd_opt_app w s : hd_opt (w ++ s) = nextc w (hd_opt s).
Proof. destruct w; reflexivity. Qed.

Lemma down_from_In hi : forall lo n, In n (down_from hi lo) <-> (lo <= n <= hi)%nat.
Proof.
  induction hi as [|h IH]; intros lo n; cbn [down_from].
  - destruct (Nat.eqb_spec lo 0); cbn; [subst; lia|]. split; [tauto|lia].
  - destruct (Nat.leb_spec lo (S h)); [|split; [cbn; tauto|lia]].
    destruct (Nat.eqb_spec lo (S h)).
    + subst. cbn. split; [intros [E|[]]; lia|intros; left; lia].
    + cbn [In]. rewrite IH. lia.
Qed.

Lemma lengths_In g lo hi n : In n (lengths g lo hi) <-> (lo <= n <= hi)%nat.
Proof. unfold lengths. destruct g; [|rewrite <- in_rev]; apply down_from_In. Qed.

(* the longest run of the class at the head of a text is at least as long as a prefix iff the prefix is in the class *)
Lemma take_cls_prefix k w s : (List.length w <= take_cls k (w ++ s))%nat <-> forallb (in_cls k) w = true.
Proof.
  induction w as [|c r IH]; cbn; [split; [reflexivity|lia]|].
  destruct (in_cls k c); cbn; [rewrite <- IH; lia|split; [lia|discriminate]].
Qed.

(* an alternative (c1, p1, s1) reached from (caps, p, s) is right for the reading M when the text consumed and the
   captures put on top of caps satisfy M *)
Definition alt_ok (M : option N -> bytes -> option N -> list (nat * bytes) -> Prop)
    (caps : list (nat * bytes)) (p : option N) (s : bytes) (a : alt) : Prop :=
  let '(c1, p1, s1) := a in
  exists w cs, s = w ++ s1 /\ M p w (hd_opt s1) cs /\ c1 = cs ++ caps /\ p1 = last_of p w.

Definition Exact (x : piece) : Prop := forall caps p s a, In a (run_piece x caps p s) <-> alt_ok (mpiece x) caps p s a.

Lemma exact_list ps : Forall Exact ps ->
  forall caps p s a, In a (run_list ps caps p s) <-> alt_ok (mlist ps) caps p s a.
Proof.
  induction 1 as [|y r Hy _ IH]; intros caps p s [[ca pa] sa]; cbn [run_list mlist alt_ok].
  - split.
    + intros [[= <- <- <-]|[]]. exists [], []. auto.
    + intros (w & cs & -> & [-> ->] & -> & ->). left; reflexivity.
  - rewrite in_flat_map. split.
    + intros ([[c1 p1] s1] & H1 & H2). apply Hy in H1. apply IH in H2.
      destruct H1 as (w1 & cs1 & -> & M1 & -> & ->). destruct H2 as (w2 & cs2 & -> & M2 & -> & ->).
      rewrite hd_opt_app in M1. exists (w1 ++ w2), (cs2 ++ cs1). rewrite <- !app_assoc, last_of_app. repeat split.
      exists w1, w2, cs1, cs2. auto.
    + intros (w & cs & -> & (w1 & w2 & c1 & c2 & -> & -> & M1 & M2) & -> & ->).
      exists (c1 ++ caps, last_of p w1, w2 ++ sa). rewrite <- !app_assoc, last_of_app. split.
      * apply Hy. exists w1, c1. rewrite hd_opt_app. auto.
      * apply IH. exists w2, c2. auto.
Qed.

Theorem run_exact x : Exact x.
Proof.
  (* two cases for each kind of piece: an alternative the matcher lists (Hin) is a split; a split (M) is listed *)
  induction x using piece_ind'; intros caps p s [[c1 p1] s1]; cbn [alt_ok];
    (split; [intros Hin|intros (w & cs & -> & M & -> & ->)]).
  - cbn [run_piece] in Hin. destruct s as [|d r]; [destruct Hin|].
    destruct (N.eqb_spec d c) as [->|]; [|destruct Hin]. destruct Hin as [[= <- <- <-]|[]].
    exists [c], []. cbn. auto.
  - destruct M as [-> ->]. cbn. rewrite N.eqb_refl. left; reflexivity.
  - (* opt: the one-character alternative when the class matches, and in every case the empty one *)
    cbn [run_piece] in Hin. destruct s as [|d r]; [|destruct (in_cls k d) eqn:Ek; [destruct Hin as [[= <- <- <-]|Hin]|]].
    2: { exists [d], []. cbn. repeat split; auto. right. exists d. auto. }
    all: destruct Hin as [[= <- <- <-]|[]]; exists [], []; cbn; auto.
  - destruct M as [[->|(c & -> & Hc)] ->]; cbn.
    + destruct s1 as [|d r]; [left; reflexivity|]. destruct (in_cls k d); [right; left|left]; reflexivity.
    + rewrite Hc. left; reflexivity.
  - (* rep: a length the engine tries is at most the longest run of the class *)
    cbn [run_piece] in Hin. apply in_map_iff in Hin. destruct Hin as (n & [= <- <- <-] & Hn).
    apply lengths_In in Hn. destruct Hn as [Hlo Hhi].
    exists (firstn n s), []. cbn [mpiece app]. repeat split.
    + symmetry. apply firstn_skipn.
    + apply (take_cls_prefix k _ (skipn n s)). rewrite firstn_skipn, firstn_length. lia.
    + intros -> C. destruct s; [cbn in Hhi; lia|]. destruct n; [lia|discriminate C].
  - destruct M as (Hf & Hm & ->). cbn [run_piece app].
    apply in_map_iff. exists (List.length w). split.
    + rewrite firstn_app_exact, skipn_app_exact. reflexivity.
    + apply lengths_In. split; [|apply take_cls_prefix; exact Hf].
      destruct m; [|lia]. destruct w; [exfalso; apply Hm; auto|cbn; lia].
  - cbn [run_piece] in Hin. destruct (bnd p (hd_opt s)) eqn:Eb; [|destruct Hin].
    destruct Hin as [[= <- <- <-]|[]]. exists [], []. cbn. auto.
  - destruct M as (-> & Hb & ->). cbn. rewrite Hb. left; reflexivity.
  - (* grp: the captured text is the part the group consumed *)
    rewrite run_piece_grp in Hin. apply in_map_iff in Hin. destruct Hin as ([[c0 p0] s0] & E & Hin).
    apply (exact_list ps H) in Hin. destruct Hin as (w & cs & -> & M & -> & ->). rewrite firstn_app_sub in E.
    destruct cap as [g|]; injection E as <- <- <-; [exists w, ((g, w) :: cs)|exists w, cs]; repeat split; apply mpiece_grp; eauto.
  - apply mpiece_grp in M. destruct M as (c0 & M & ->). rewrite run_piece_grp.
    apply in_map_iff. exists (c0 ++ caps, last_of p w, s1). split; [rewrite firstn_app_sub; destruct cap; reflexivity|].
    apply (exact_list ps H). exists w, c0. auto.
Qed.

(* the backtracking enumerates exactly the splits of a prefix of the text, each with its captures *)
Corollary run_list_exact ps caps p s a : In a (run_list ps caps p s) <-> alt_ok (mlist ps) caps p s a.
Proof. apply exact_list, Forall_forall. intros x _. apply run_exact. Qed.

Lemma match_rule_some ps t caps : match_rule ps t = Some caps -> exists p, In (caps, p, []) (run_list ps [] None t).
Proof.
  unfold match_rule. destruct (filter _ _) as [|[[c p] s] r] eqn:E; [discriminate|]. intros [= <-].
  pose proof (in_eq ((c, p, s) : alt) r) as H. rewrite <- E in H. apply filter_In in H.
  destruct H as [Hin Hs]. destruct s; [eauto|discriminate].
Qed.

Lemma match_rule_none ps t c p : match_rule ps t = None -> ~ In (c, p, []) (run_list ps [] None t).
Proof.
  unfold match_rule. destruct (filter _ _) as [|a r] eqn:E; [|discriminate]. intros _ Hin.
  eapply in_nil. rewrite <- E. apply filter_In. split; [exact Hin|reflexivity].
Qed.

Theorem match_rule_sound ps t caps : match_rule ps t = Some caps -> mlist ps None t None caps.
Proof.
  intros H. apply match_rule_some in H. destruct H as [p Hin].
  apply run_list_exact in Hin. destruct Hin as (w & cs & E & M & -> & _). rewrite app_nil_r in *. subst. exact M.
Qed.

Theorem match_rule_complete ps t : matches ps t -> match_rule ps t <> None.
Proof.
  intros [cs M] Hn. apply (match_rule_none _ _ cs (last_of None t) Hn).
  apply run_list_exact. exists t, cs. rewrite !app_nil_r. auto.
Qed.

Lemma esc_cons c r : esc (c :: r) = (if is_punct c then [BSL; c] else [c]) ++ esc r.
Proof. reflexivity. Qed.

Lemma esc_hd_not_lbr s : hd_opt (esc s) <> Some LBR.
Proof.
  destruct s as [|c r]; [discriminate|]. rewrite esc_cons. destruct (is_punct c) eqn:E; [discriminate|].
  intros [= ->]. discriminate E.
Qed.

Lemma scan_plain fuel c r ts :
  scan fuel r = Some ts -> (c <> PCT \/ hd_opt r <> Some LBR) -> scan (S fuel) (c :: r) = Some (TChr c :: ts).
Proof.
  intros H Hc. cbn [scan]. rewrite H. destruct (N.eqb_spec c PCT); [|reflexivity].
  destruct r as [|c2 r2]; [reflexivity|]. destruct (N.eqb_spec c2 LBR); [|reflexivity].
  exfalso. destruct Hc as [Hc|Hc]; [congruence|]. apply Hc. subst. reflexivity.
Qed.

(* a backslash is never followed by `{` (it is followed by the escaped character, then by what esc puts next),
   and a `%` only occurs escaped: no %{ is found *)
Lemma scan_esc s : forall fuel, (List.length (esc s) < fuel)%nat -> scan fuel (esc s) = Some (map TChr (esc s)).
Proof.
  induction s as [|c r IH]; intros fuel Hf.
  - destruct fuel; [cbn in Hf; lia|reflexivity].
  - rewrite esc_cons in *. destruct (is_punct c) eqn:Ep; cbn [app List.length map] in *.
    + destruct fuel as [|[|f2]]; try lia. apply scan_plain; [|left; discriminate].
      apply scan_plain; [apply IH; lia|right; apply esc_hd_not_lbr].
    + destruct fuel as [|f1]; [lia|]. apply scan_plain; [apply IH; lia|].
      left. intros ->. discriminate Ep.
Qed.

Lemma comp_toks_esc al rec s : forall cx,
  comp_toks al rec (map TChr (esc s)) cx =
  Some (inl (mkCtx (rev (map PLit s) ++ c_pieces cx) (c_fields cx) (c_stack cx))).
Proof.
  induction s as [|c r IH]; intros cx.
  - destruct cx; reflexivity.
  - rewrite esc_cons. cbn [map rev]. rewrite <- app_assoc. destruct (is_punct c) eqn:Ep; cbn [app map comp_toks].
    + rewrite N.eqb_refl, Ep, IH. reflexivity.
    + destruct (N.eqb_spec c BSL) as [->|_]; [discriminate Ep|]. rewrite Ep, IH. reflexivity.
Qed.

Theorem compile_literal al s : compile_rule al (esc s) = Some (inl (map PLit s, [])).
Proof.
  unfold compile_rule, scan_text. rewrite scan_esc by lia. cbn [comp]. rewrite comp_toks_esc.
  cbn [c_pieces c_fields]. rewrite app_nil_r, rev_involutive. reflexivity.
Qed.

Lemma mlist_lit s : forall p w n cs, mlist (map PLit s) p w n cs <-> w = s /\ cs = [].
Proof.
  induction s as [|c r IH]; intros p w n cs; cbn [map mlist]; [tauto|]. split.
  - intros (w1 & w2 & c1 & c2 & -> & -> & [-> ->] & M2). apply IH in M2. destruct M2 as [-> ->]. auto.
  - intros [-> ->]. exists [c], r, [], []. repeat split; auto. apply IH. auto.
Qed.

Theorem literal_matches s t : matches (map PLit s) t <-> t = s.
Proof.
  unfold matches. split.
  - intros [cs M]. apply mlist_lit in M. tauto.
  - intros E. exists []. apply mlist_lit. auto.
Qed.

Theorem literal_exec s t : match_rule (map PLit s) t = if bytes_eqb t s then Some [] else None.
Proof.
  destruct (match_rule (map PLit s) t) as [caps|] eqn:M.
  - apply match_rule_sound, mlist_lit in M. destruct M as [-> ->]. rewrite bytes_eqb_refl. reflexivity.
  - destruct (bytes_eqb t s) eqn:E; [|reflexivity]. apply bytes_eqb_eq in E.
    destruct (match_rule_complete (map PLit s) t); [apply literal_matches; exact E|exact M].
Qed.

Lemma alias_get_hd k v r : alias_get ((k, v) :: r) k = Some v.
Proof. cbn. rewrite bytes_eqb_refl. reflexivity. Qed.

Lemma alias_get_tl k k' v r : bytes_eqb k k' = false -> alias_get ((k', v) :: r) k = alias_get r k.
Proof. intros E. cbn. rewrite E. reflexivity. Qed.

Lemma alias_get_In al k v : alias_get al k = Some v -> In k (map fst al).
Proof.
  induction al as [|[k' v'] r IH]; [discriminate|]. destruct (bytes_eqb k k') eqn:E.
  - apply bytes_eqb_eq in E. subst. left; reflexivity.
  - rewrite alias_get_tl by exact E. right; auto.
Qed.

Lemma on_stack_false st k : on_stack st k = false -> ~ In k st.
Proof.
  intros H Hin. enough (on_stack st k = true) by congruence.
  apply existsb_exists. exists k. split; [exact Hin|apply bytes_eqb_refl].
Qed.

(* the invariant of the alias stack: distinct names of aliases, hence never longer than the alias list *)
Definition stack_ok (al : list (bytes * bytes)) (st : list bytes) : Prop := NoDup st /\ incl st (map fst al).

Lemma stack_ok_push al st k def :
  stack_ok al st -> alias_get al k = Some def -> on_stack st k = false -> stack_ok al (k :: st).
Proof.
  intros [Hn Hi] Ha Ho. split.
  - constructor; [apply on_stack_false; exact Ho|exact Hn].
  - intros x [<-|Hx]; [eapply alias_get_In; exact Ha|auto].
Qed.

Lemma stack_ok_length al st : stack_ok al st -> (List.length st <= List.length al)%nat.
Proof. intros [Hn Hi]. rewrite <- (map_length fst al). apply NoDup_incl_length; assumption. Qed.

(* No branch of the compiler produces EFuel itself: every step has the shape below and hands on the errors of r. *)
Lemma bind_no_fuel {A B} (r : cres A) (k : A -> cres B) :
  r <> Some (inr EFuel) -> (forall a, k a <> Some (inr EFuel)) ->
  match r with None => None | Some (inr e) => Some (inr e) | Some (inl a) => k a end <> Some (inr EFuel).
Proof. intros Hr Hk. destruct r as [[a|e]|]; [apply Hk|congruence|discriminate]. Qed.

Lemma mk_filter_no_fuel f : mk_filter f <> Some (inr EFuel).
Proof.
  destruct f as [name [[k|s]|]]; unfold mk_filter; repeat (destruct (bytes_eqb name _); [discriminate|]);
    destruct (existsb _ _); discriminate.
Qed.

(* so EFuel can only come from `rec`, which is only called with the alias stack extended by a name that was not on it *)
Lemma comp_toks_no_fuel al rec st :
  stack_ok al st ->
  (forall dts cx', stack_ok al (c_stack cx') -> (List.length st < List.length (c_stack cx'))%nat ->
                   rec dts cx' <> Some (inr EFuel)) ->
  forall n ts cx, (List.length ts <= n)%nat -> c_stack cx = st -> comp_toks al rec ts cx <> Some (inr EFuel).
Proof.
  intros Hst Hrec. induction n as [|n IH]; intros ts cx Hlen Hcx.
  - destruct ts; [discriminate|cbn in Hlen; lia].
  - destruct ts as [|[c|inner] r]; [discriminate| |]; cbn [List.length] in Hlen; cbn [comp_toks].
    + destruct (c =? BSL)%N.
      * destruct r as [|[d|i2] r']; try discriminate.
        destruct (is_punct d); [|discriminate]. apply IH; [cbn in Hlen; lia|exact Hcx].
      * destruct (is_punct c); [discriminate|]. apply IH; [lia|exact Hcx].
    + destruct (parse_pat inner) as [p|]; [|discriminate]. apply bind_no_fuel.
      * destruct (p_dest p) as [[path [f|]]|]; try discriminate.
        apply bind_no_fuel; [apply mk_filter_no_fuel|discriminate].
      * intros fields1. destruct (alias_get al (p_name p)) as [def|] eqn:Ea.
        -- destruct (on_stack (c_stack cx) (p_name p)) eqn:Eo; [discriminate|].
           destruct (scan_text def) as [dts|]; [|discriminate]. rewrite Hcx in *. apply bind_no_fuel.
           ++ apply Hrec; [exact (stack_ok_push al st _ def Hst Ea Eo)|cbn; lia].
           ++ intros cx'. apply IH; [lia|reflexivity].
        -- destruct (library (p_name p)) as [[ps implicit]|]; [|discriminate]. apply IH; [lia|exact Hcx].
Qed.

Theorem comp_no_fuel al : forall fuel ts cx,
  stack_ok al (c_stack cx) -> (List.length al < fuel + List.length (c_stack cx))%nat ->
  comp al fuel ts cx <> Some (inr EFuel).
Proof.
  induction fuel as [|f IH]; intros ts cx Hst Hlen.
  - apply stack_ok_length in Hst. lia.
  - cbn [comp]. apply (comp_toks_no_fuel al (comp al f) (c_stack cx) Hst) with (n := List.length ts); auto.
    intros dts cx' Hst' Hl. apply IH; [exact Hst'|lia].
Qed.

(* the branch of comp_toks (parse_alias) taken by a reference to an alias whose expansion is in progress: the error names
   the outermost alias; cycle_self and cycle_two below run the whole pipeline into it *)
Lemma comp_toks_on_stack al rec inner rest cx p def :
  parse_pat inner = Some p -> p_dest p = None ->
  alias_get al (p_name p) = Some def -> on_stack (c_stack cx) (p_name p) = true ->
  comp_toks al rec (TPat inner :: rest) cx = Some (inr (ECircular (last (c_stack cx) (p_name p)))).
Proof.
  intros Hp Hd Ha Ho. cbn [comp_toks]. rewrite Hp, Hd, Ha, Ho. reflexivity.
Qed.

(* the names the pattern grammar reads to their end (take_ident_ident): identifiers that are not keywords *)
Definition ident (a : bytes) : Prop :=
  (exists c r, a = c :: r /\ is_ident_start c = true) /\ forallb is_ident_char a = true /\ kw a = false.

Definition ref (a : bytes) : bytes := PCT :: LBR :: a ++ [RBR].

Lemma ident_char_plain c : is_ident_char c = true -> (c =? RBR)%N = false /\ (c =? BSL)%N = false /\ (c =? QUO)%N = false.
Proof.
  intros H. repeat split; apply N.eqb_neq; intros E; subst c; discriminate H.
Qed.

Lemma scan_inner_ident a : forallb is_ident_char a = true ->
  forall fuel acc rest, (List.length a < fuel)%nat -> (a <> [] \/ acc <> []) ->
    scan_inner fuel (a ++ RBR :: rest) acc = Some (Some (rev acc ++ a, rest)).
Proof.
  induction a as [|c r IH]; intros Hf fuel acc rest Hl Hne.
  - destruct fuel; [cbn in Hl; lia|]. cbn [app scan_inner]. rewrite N.eqb_refl.
    destruct acc; [destruct Hne; congruence|]. rewrite app_nil_r. reflexivity.
  - cbn [forallb] in Hf. apply andb_true_iff in Hf. destruct Hf as [Hc Hr].
    destruct (ident_char_plain c Hc) as [E1 [E2 E3]].
    destruct fuel; [cbn in Hl; lia|]. cbn [app scan_inner]. rewrite E1, E2, E3.
    rewrite IH; auto; [|cbn in Hl; lia|right; discriminate].
    cbn [rev]. rewrite <- app_assoc. reflexivity.
Qed.

Lemma scan_ref a : ident a -> scan_text (ref a) = Some [TPat a].
Proof.
  intros [[c [r [Ea Hs]]] [Hf Hk]]. unfold scan_text, ref. cbn [List.length scan]. rewrite !N.eqb_refl.
  rewrite scan_inner_ident; auto; [rewrite app_length; cbn; lia|left; subst; discriminate].
Qed.

Lemma span_all f a : forallb f a = true -> span f a = (a, []).
Proof. induction a as [|c r IH]; cbn; auto. intros H. apply andb_true_iff in H. destruct H as [H1 H2]. rewrite H1, IH; auto. Qed.

Lemma take_ident_ident a : ident a -> take_ident a = Some (a, []).
Proof.
  intros [[c [r [Ea Hs]]] [Hf Hk]]. subst a. unfold take_ident. rewrite Hs.
  rewrite (span_all is_ident_char (c :: r) Hf). rewrite Hk. reflexivity.
Qed.

Lemma parse_pat_ident a : ident a -> parse_pat a = Some (mkPat a None).
Proof.
  intros Ha. unfold parse_pat. cbn [take_dotted]. rewrite take_ident_ident by auto. reflexivity.
Qed.

(* a rule that is one reference to an alias: rejected if the alias is under expansion, otherwise an error of the
   alias's own reference comes back unchanged *)
Lemma ref_on_stack al rec a def cx : ident a -> alias_get al a = Some def -> on_stack (c_stack cx) a = true ->
  comp_toks al rec [TPat a] cx = Some (inr (ECircular (last (c_stack cx) a))).
Proof. intros Ha Hal Ho. apply (comp_toks_on_stack al rec a [] cx (mkPat a None) def); auto using parse_pat_ident. Qed.

Lemma ref_step al rec a b cx e : ident a -> ident b -> alias_get al a = Some (ref b) -> on_stack (c_stack cx) a = false ->
  rec [TPat b] (mkCtx [] (c_fields cx) (a :: c_stack cx)) = Some (inr e) -> comp_toks al rec [TPat a] cx = Some (inr e).
Proof.
  intros Ha Hb Hal Ho Hr. cbn [comp_toks]. rewrite parse_pat_ident by exact Ha. cbn [p_dest p_name].
  rewrite Hal, Ho, scan_ref, Hr by exact Hb. reflexivity.
Qed.

Lemma comp_is_comp_toks al fuel : exists rec, comp al fuel = comp_toks al rec.
Proof. destruct fuel; eexists; reflexivity. Qed.

Theorem cycle_self al a : ident a -> alias_get al a = Some (ref a) ->
  compile_rule al (ref a) = Some (inr (ECircular a)).
Proof.
  intros Ha Hal. unfold compile_rule. rewrite scan_ref by exact Ha. cbn [comp].
  destruct (comp_is_comp_toks al (List.length al)) as [rec ->].
  rewrite (ref_step al _ a a _ (ECircular a)); auto.
  apply (ref_on_stack al rec a (ref a)); auto. cbn. rewrite bytes_eqb_refl. reflexivity.
Qed.

Theorem cycle_two a b : ident a -> ident b -> a <> b ->
  compile_rule [(a, ref b); (b, ref a)] (ref a) = Some (inr (ECircular a)).
Proof.
  intros Ha Hb Hab. assert (Eba : bytes_eqb b a = false) by (apply bytes_eqb_neq; auto).
  unfold compile_rule. rewrite scan_ref by exact Ha. cbn [List.length comp].
  (* a is expanded, then b inside it; the second reference to a finds the stack [b; a] *)
  rewrite (ref_step _ _ a b _ (ECircular a)); auto using alias_get_hd.
  apply (ref_step _ _ b a); auto.
  - rewrite alias_get_tl by exact Eba. apply alias_get_hd.
  - cbn. rewrite Eba. reflexivity.
  - apply (ref_on_stack _ _ a (ref b)); auto using alias_get_hd. cbn. rewrite bytes_eqb_refl. apply orb_true_r.
Qed.

Lemma upper_shifted c : is_upper c = true -> is_upper (c + 32) = false.
Proof. unfold is_upper. rewrite andb_true_iff, andb_false_iff, !N.leb_le, !N.leb_gt. lia. Qed.

Lemma lower_shifted c : is_lower c = true -> is_lower (c - 32) = false.
Proof. unfold is_lower. rewrite andb_true_iff, andb_false_iff, !N.leb_le, !N.leb_gt. lia. Qed.

Lemma to_lower_idem c : to_lower (to_lower c) = to_lower c.
Proof. unfold to_lower. destruct (is_upper c) eqn:E; [rewrite upper_shifted by exact E|rewrite E]; reflexivity. Qed.

Lemma to_upper_idem c : to_upper (to_upper c) = to_upper c.
Proof. unfold to_upper. destruct (is_lower c) eqn:E; [rewrite lower_shifted by exact E|rewrite E]; reflexivity. Qed.

Lemma map_to_lower_idem s : map to_lower (map to_lower s) = map to_lower s.
Proof. rewrite map_map. apply map_ext, to_lower_idem. Qed.

Lemma map_to_upper_idem s : map to_upper (map to_upper s) = map to_upper s.
Proof. rewrite map_map. apply map_ext, to_upper_idem. Qed.

(* the case filters on ASCII text (anything else is outside the fragment) *)
Lemma lower_filter s : is_ascii s = true -> apply_filter (VBytes s) FLower = FVal (VBytes (map to_lower s)).
Proof. intros Ha. cbn. rewrite Ha. reflexivity. Qed.

Lemma upper_filter s : is_ascii s = true -> apply_filter (VBytes s) FUpper = FVal (VBytes (map to_upper s)).
Proof. intros Ha. cbn. rewrite Ha. reflexivity. Qed.
