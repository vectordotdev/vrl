(* Proofs about Model/Flatten.v: unflatten (flatten o) = o for every object whose keys are separator-safe and
   whose nested objects are non-empty.  The flattened list of an object is the concatenation of one block per
   entry; the entries of a block are exactly those whose key splits off that entry's key at the first separator,
   so grouping by first component recovers the blocks, in whatever order the entries come. *)
From Coq Require Import List NArith Bool Lia Permutation.
From Coq Require FinFun.
From VRL Require Import Base.Bytes Base.Value Model.ConvRes Model.Flatten.
From VRL Require Import Proofs.ListFacts Proofs.ObjMapFacts.
Import ListNotations.

Definition starts_with (p s : bytes) : bool :=
  match strip_prefix p s with Some _ => true | None => false end.

(* the separator does not start inside the key: neither within the key nor straddling its end *)
Fixpoint no_early (sep k : bytes) : bool :=
  match k with
  | [] => true
  | _ :: k' => negb (starts_with sep (k ++ sep)) && no_early sep k'
  end.

Lemma strip_prefix_app p r : strip_prefix p (p ++ r) = Some r.
Proof. induction p as [|c p IH]; cbn; [reflexivity|]. rewrite N.eqb_refl. exact IH. Qed.

Lemma strip_prefix_app_none p : forall a b, strip_prefix p (a ++ b) = None -> strip_prefix p a = None.
Proof.
  induction p as [|c p IH]; intros [|d a] b H; cbn in *; try discriminate; [reflexivity|].
  destruct (c =? d)%N; [exact (IH a b H) | reflexivity].
Qed.

Lemma strip_prefix_none_app p : forall a r,
  strip_prefix p a = None -> length p <= length a -> strip_prefix p (a ++ r) = None.
Proof.
  induction p as [|c p IH]; intros a r H L; cbn in *; [discriminate|].
  destruct a as [|d a]; cbn in *; [lia|].
  destruct (c =? d)%N; [apply IH; [exact H | lia] | reflexivity].
Qed.

Lemma strip_prefix_eq p : forall s r, strip_prefix p s = Some r -> s = p ++ r.
Proof.
  induction p as [|c p IH]; intros s r H; cbn in *.
  - inversion H; reflexivity.
  - destruct s as [|d s]; [discriminate|]. destruct (c =? d)%N eqn:E; [|discriminate].
    apply N.eqb_eq in E. subst. f_equal. apply IH; exact H.
Qed.

Lemma split_once_eq sep : forall s h r, split_once sep s = Some (h, r) -> s = h ++ sep ++ r.
Proof.
  induction s as [|c s IH]; intros h r H; cbn [split_once] in H;
    (destruct (strip_prefix sep _) eqn:E; [injection H as <- <-; exact (strip_prefix_eq _ _ _ E)|]); [discriminate|].
  destruct (split_once sep s) as [[a b]|]; [|discriminate]. injection H as <- <-. cbn [app]. f_equal. exact (IH _ _ eq_refl).
Qed.

Lemma no_early_cons sep c k : no_early sep (c :: k) = true ->
  strip_prefix sep ((c :: k) ++ sep) = None /\ strip_prefix sep (c :: k) = None /\ no_early sep k = true.
Proof.
  cbn [no_early]. unfold starts_with. rewrite andb_true_iff, negb_true_iff. intros [Hn Hk].
  destruct (strip_prefix sep ((c :: k) ++ sep)) eqn:E; [discriminate|].
  eauto using strip_prefix_app_none.
Qed.

Lemma split_once_key sep k : sep <> [] -> no_early sep k = true ->
  forall r, split_once sep (k ++ sep ++ r) = Some (k, r).
Proof.
  intros Hs. induction k as [|c k IH]; intros Hk r.
  - destruct sep as [|s0 sep]; [congruence|].
    cbn [app split_once strip_prefix]. rewrite N.eqb_refl, strip_prefix_app. reflexivity.
  - apply no_early_cons in Hk as (E & _ & Hk).
    apply strip_prefix_none_app with (r := r) in E; [|rewrite app_length; lia].
    rewrite <- app_assoc in E. cbn [app] in *. cbn [split_once]. rewrite E, (IH Hk r). reflexivity.
Qed.

Lemma split_once_none sep k : sep <> [] -> no_early sep k = true -> split_once sep k = None.
Proof.
  intros Hs. induction k as [|c k IH]; intros Hk.
  - destruct sep; [congruence | reflexivity].
  - apply no_early_cons in Hk as (_ & E & Hk). cbn [split_once]. rewrite E, (IH Hk). reflexivity.
Qed.

Lemma split_all_key sep k r fuel : sep <> [] -> no_early sep k = true ->
  split_all (S fuel) sep (k ++ sep ++ r) = k :: split_all fuel sep r.
Proof. intros Hs Hk. cbn [split_all]. rewrite split_once_key by assumption. reflexivity. Qed.

Lemma split_all_leaf sep k fuel : sep <> [] -> no_early sep k = true -> split_all fuel sep k = [k].
Proof. intros Hs Hk. destruct fuel; cbn [split_all]; [reflexivity|]. rewrite split_once_none by assumption. reflexivity. Qed.

(* the objects the theorem is about: keys separator-safe, every nested object (reached through objects)
   non-empty and key-sorted; arrays and scalars are leaves and unconstrained *)
Fixpoint wf_val (sep : bytes) (v : value) {struct v} : bool :=
  match v with
  | VObj m =>
      negb (match m with [] => true | _ => false end) && obj_sorted m
      && (fix go (l : list entry) : bool :=
            match l with
            | [] => true
            | (k, x) :: l' => no_early sep k && wf_val sep x && go l'
            end) m
  | _ => true
  end.

Fixpoint wf_entries (sep : bytes) (m : list entry) : bool :=
  match m with
  | [] => true
  | (k, x) :: l' => no_early sep k && wf_val sep x && wf_entries sep l'
  end.

Definition flat_ok (sep : bytes) (m : obj) : bool := obj_sorted m && wf_entries sep m.

Lemma wf_entries_cons sep k x m :
  wf_entries sep ((k, x) :: m) = true <-> no_early sep k = true /\ wf_val sep x = true /\ wf_entries sep m = true.
Proof. cbn [wf_entries]. rewrite !andb_true_iff. tauto. Qed.

Lemma wf_val_obj sep m :
  wf_val sep (VObj m) = true <-> m <> [] /\ obj_sorted m = true /\ wf_entries sep m = true.
Proof.
  assert (E : wf_val sep (VObj m) = negb (match m with [] => true | _ => false end) && obj_sorted m && wf_entries sep m).
  { cbn [wf_val]. f_equal. induction m as [|[k x] m IH]; [reflexivity|]. cbn [wf_entries]. rewrite <- IH. reflexivity. }
  rewrite E, !andb_true_iff, negb_true_iff. destruct m; intuition congruence.
Qed.

Lemma wf_entries_in sep m k x : wf_entries sep m = true -> In (k, x) m -> no_early sep k = true /\ wf_val sep x = true.
Proof.
  induction m as [|[k' x'] m IH]; intros H Hin; [destruct Hin|].
  apply wf_entries_cons in H as (Hk & Hx & Hm). destruct Hin as [[= <- <-]|Hin]; auto.
Qed.

Definition is_obj (v : value) : bool := match v with VObj _ => true | _ => false end.

Lemma obj_or_leaf v : (exists m, v = VObj m) \/ is_obj v = false.
Proof. destruct v; eauto. Qed.

(* induction on an entry list that also descends into the nested objects *)
Lemma entries_ind (P : list entry -> Prop) :
  P [] -> (forall k v m, (forall m', v = VObj m' -> P m') -> P m -> P ((k, v) :: m)) -> forall m, P m.
Proof.
  intros Hnil Hcons.
  enough (H : forall v m, v = VObj m -> P m) by (intros m; exact (H _ m eq_refl)).
  induction v using value_ind'; try discriminate. intros m [= <-].
  induction H as [|[k x] m Hx _ IH]; [exact Hnil | exact (Hcons k x m Hx IH)].
Qed.

Definition pre (p : bytes) (e : entry) : entry := (p ++ fst e, snd e).
(* what one entry of the object contributes *)
Definition block (sep : bytes) (kv : entry) : list entry := flat_val sep [] (fst kv) (fst kv) (snd kv).

Lemma flat_val_obj sep nk k m :
  flat_val sep [] nk k (VObj m) = flat_map (fun kx => flat_val sep [] (nk ++ sep ++ fst kx) (fst kx) (snd kx)) m.
Proof.
  cbn [flat_val mem_bytes]. induction m as [|[k' x] m IH]; [reflexivity|]. cbn [flat_map fst snd]. rewrite <- IH. reflexivity.
Qed.

Lemma flat_list_cons sep kv m : flat_list sep [] (kv :: m) = block sep kv ++ flat_list sep [] m.
Proof. destruct kv; reflexivity. Qed.

Lemma flat_list_flat_map sep m : flat_list sep [] m = flat_map (block sep) m.
Proof. induction m as [|kv m IH]; [reflexivity|]. rewrite flat_list_cons, IH. reflexivity. Qed.

Lemma flat_val_prefix sep v : forall p nk k, flat_val sep [] (p ++ nk) k v = map (pre p) (flat_val sep [] nk k v).
Proof.
  induction v using value_ind'; intros p nk k; try reflexivity.
  rewrite !flat_val_obj. induction H as [|[k' x] m Hx Hm IH]; [reflexivity|].
  cbn [flat_map fst snd]. rewrite map_app. rewrite <- IH. f_equal.
  cbn [snd] in Hx. rewrite <- Hx. rewrite <- app_assoc. reflexivity.
Qed.

Lemma block_obj sep k m : block sep (k, VObj m) = map (pre (k ++ sep)) (flat_list sep [] m).
Proof.
  unfold block. cbn [fst snd]. rewrite flat_val_obj, flat_list_flat_map.
  induction m as [|[k' x] m IH]; [reflexivity|]. cbn [flat_map fst snd]. rewrite map_app, <- IH. f_equal.
  unfold block. cbn [fst snd]. rewrite <- flat_val_prefix. rewrite <- app_assoc. reflexivity.
Qed.

Lemma block_leaf sep k v : is_obj v = false -> block sep (k, v) = [(k, v)].
Proof. destruct v; cbn; congruence. Qed.

Lemma flat_list_leaves sep : forall m e, In e (flat_list sep [] m) -> is_obj (snd e) = false.
Proof.
  induction m as [|k v m IHv IHm] using entries_ind; intros e Hin; [destruct Hin|].
  rewrite flat_list_cons in Hin. apply in_app_or in Hin as [Hin|Hin]; [|exact (IHm e Hin)].
  destruct (obj_or_leaf v) as [[m' ->]|O].
  - rewrite block_obj in Hin. apply in_map_iff in Hin as (e' & <- & Hin). exact (IHv m' eq_refl e' Hin).
  - rewrite block_leaf in Hin by exact O. destruct Hin as [<-|[]]. exact O.
Qed.

(* a well-formed value yields at least one entry: empty objects occur only below arrays *)
Lemma block_length sep k v : wf_val sep v = true -> 1 <= length (block sep (k, v)).
Proof.
  unfold block. cbn [fst snd]. generalize k at 1 as nk. revert k.
  induction v using value_ind'; intros k nk Hw; try reflexivity.
  rewrite flat_val_obj. apply wf_val_obj in Hw as (Hne & _ & Hw).
  destruct kvs as [|[k' x] m]; [congruence|]. apply wf_entries_cons in Hw as (_ & Hx & _).
  inversion H as [|? ? IH _]; subst. cbn [flat_map]. rewrite app_length. specialize (IH k' (nk ++ sep ++ k') Hx). cbn [fst snd] in *. lia.
Qed.

Lemma flat_list_length sep m : wf_entries sep m = true -> length m <= length (flat_list sep [] m).
Proof.
  induction m as [|[k v] m IH]; intros Hw; [reflexivity|]. apply wf_entries_cons in Hw as (_ & Hv & Hm).
  rewrite flat_list_cons, app_length. pose proof (block_length sep k v Hv). specialize (IH Hm). cbn [length]. lia.
Qed.

(* what split_entry makes of the entries of one block *)
Definition block_triples (sep : bytes) (kv : entry) : list triple :=
  match snd kv with
  | VObj m => map (fun e => (fst kv, Some (fst e), snd e)) (flat_list sep [] m)
  | _ => [(fst kv, None, snd kv)]
  end.

Lemma block_triples_leaf sep k v : is_obj v = false -> block_triples sep (k, v) = [(k, None, v)].
Proof. destruct v; cbn; congruence. Qed.

Lemma split_block sep k x : sep <> [] -> no_early sep k = true ->
  map (split_entry sep) (block sep (k, x)) = block_triples sep (k, x).
Proof.
  intros Hs Hk. destruct (obj_or_leaf x) as [[m ->]|O].
  - rewrite block_obj. unfold block_triples. cbn [fst snd]. rewrite map_map.
    apply map_ext. intros [key y]. unfold split_entry, pre. cbn [fst snd].
    rewrite <- app_assoc, (split_once_key sep k Hs Hk key). reflexivity.
  - rewrite block_leaf, block_triples_leaf by exact O. unfold split_entry. cbn [fst snd map].
    rewrite (split_once_none sep k Hs Hk). reflexivity.
Qed.

Lemma block_triples_head sep kv t : In t (block_triples sep kv) -> t_head t = fst kv.
Proof.
  unfold block_triples. destruct (snd kv); intros Hin;
    try (destruct Hin as [<-|[]]; reflexivity).
  apply in_map_iff in Hin as (e & <- & _). reflexivity.
Qed.

Definition all_triples (sep : bytes) (m : list entry) : list triple := flat_map (block_triples sep) m.

Lemma split_flat_list sep m : sep <> [] -> wf_entries sep m = true ->
  map (split_entry sep) (flat_list sep [] m) = all_triples sep m.
Proof.
  intros Hs. induction m as [|[k x] m IH]; intros Hw; [reflexivity|].
  apply wf_entries_cons in Hw as (Hk & _ & Hm).
  rewrite flat_list_cons, map_app, split_block, IH by assumption. reflexivity.
Qed.

Lemma group_block sep h kv :
  group_of h (block_triples sep kv) = if bytes_eqb (fst kv) h then block_triples sep kv else [].
Proof. apply filter_const. intros t Hin. rewrite (block_triples_head sep kv t Hin). reflexivity. Qed.

Lemma group_cons sep h kv m :
  group_of h (all_triples sep (kv :: m)) = group_of h (block_triples sep kv) ++ group_of h (all_triples sep m).
Proof. apply filter_app. Qed.

Lemma group_absent sep h m : ~ In h (map fst m) -> group_of h (all_triples sep m) = [].
Proof.
  induction m as [|kv m IH]; intros Hn; [reflexivity|].
  rewrite group_cons, group_block, IH by (intros Hin; apply Hn; right; exact Hin).
  rewrite (proj2 (bytes_eqb_neq _ _)); [reflexivity|]. intros E. apply Hn. left; exact E.
Qed.

Lemma group_all sep m : NoDup (map fst m) -> forall h v, In (h, v) m ->
  group_of h (all_triples sep m) = block_triples sep (h, v).
Proof.
  induction m as [|[k x] m IH]; intros Hnd h v Hin; [destruct Hin|].
  cbn [map fst] in Hnd. apply NoDup_cons_iff in Hnd as [Hk Hnd].
  rewrite group_cons, group_block. cbn [fst]. destruct Hin as [[= -> ->]|Hin].
  - rewrite bytes_eqb_refl, group_absent by exact Hk. apply app_nil_r.
  - rewrite (proj2 (bytes_eqb_neq k h)); [apply IH; assumption|].
    intros ->. apply Hk. exact (in_map fst _ _ Hin).
Qed.

Lemma all_triples_heads sep m : sep <> [] -> wf_entries sep m = true ->
  forall h, In h (map t_head (all_triples sep m)) <-> In h (map fst m).
Proof.
  intros Hs Hw h. unfold all_triples. rewrite !in_map_iff. split.
  - intros (t & <- & Hin). apply in_flat_map in Hin as (kv & Hm & Hin). exists kv.
    rewrite (block_triples_head sep kv t Hin). auto.
  - intros ([k x] & <- & Hm). destruct (wf_entries_in sep m k x Hw Hm) as [Hk Hx].
    pose proof (block_length sep k x Hx) as L. rewrite <- (map_length (split_entry sep)), split_block in L by assumption.
    destruct (block_triples sep (k, x)) as [|t l] eqn:E; [inversion L|].
    exists t. split.
    + apply (block_triples_head sep (k, x)). rewrite E. left; reflexivity.
    + apply in_flat_map. exists (k, x). rewrite E. split; [exact Hm | left; reflexivity].
Qed.

Lemma perm_filter {A} (P : A -> bool) l l' : Permutation l l' -> Permutation (filter P l) (filter P l').
Proof.
  induction 1 as [| x l l' _ IH | x y l | l l' l'' _ IH1 _ IH2]; cbn [filter].
  - constructor.
  - destruct (P x); [apply perm_skip|]; exact IH.
  - destruct (P x), (P y); try reflexivity. apply perm_swap.
  - etransitivity; eauto.
Qed.

Lemma perm_rest_entries g g' : Permutation g g' -> Permutation (rest_entries g) (rest_entries g').
Proof.
  induction 1 as [| [[h o] v] l l' _ IH | [[h1 o1] v1] [[h2 o2] v2] l | l l' l'' _ IH1 _ IH2]; cbn [rest_entries].
  - constructor.
  - destruct o; [apply perm_skip|]; exact IH.
  - destruct o1, o2; try reflexivity. apply perm_swap.
  - etransitivity; eauto.
Qed.

Lemma rest_entries_some h l : rest_entries (map (fun e : entry => (h, Some (fst e), snd e)) l) = l.
Proof. induction l as [|[k x] l IH]; [reflexivity|]. cbn [map rest_entries fst snd]. rewrite IH. reflexivity. Qed.

Lemma mem_bytes_in k l : mem_bytes k l = true <-> In k l.
Proof.
  induction l as [|x l IH]; cbn [mem_bytes In]; [split; [discriminate | tauto]|].
  rewrite orb_true_iff, IH, bytes_eqb_eq. tauto.
Qed.

Lemma nodup_bytes_in l x : In x (nodup_bytes l) <-> In x l.
Proof.
  induction l as [|y l IH]; [tauto|]. cbn [nodup_bytes]. destruct (mem_bytes y l) eqn:M.
  - rewrite IH. apply mem_bytes_in in M. split; [intros H; right; exact H | intros [<-|H]; assumption].
  - cbn [In]. rewrite IH. tauto.
Qed.

Lemma nodup_bytes_nodup l : NoDup (nodup_bytes l).
Proof.
  induction l as [|y l IH]; [constructor|]. cbn [nodup_bytes]. destruct (mem_bytes y l) eqn:M; [exact IH|].
  constructor; [|exact IH]. rewrite nodup_bytes_in. intros Hin. apply mem_bytes_in in Hin. congruence.
Qed.

Lemma sequence_map (F : bytes -> option value) (G : bytes -> value) hs :
  (forall h, In h hs -> F h = Some (G h)) ->
  sequence_entries (map (fun h => (h, F h)) hs) = Some (map (fun h => (h, G h)) hs).
Proof.
  induction hs as [|h hs IH]; intros H; [reflexivity|]. cbn [map sequence_entries].
  rewrite (H h) by (left; reflexivity). rewrite IH; [reflexivity|]. intros h' Hin. apply H. right; exact Hin.
Qed.

Definition get_or_null (m : obj) (h : bytes) : value := match obj_get m h with Some v => v | None => VNull end.

Lemma map_get_keys m : NoDup (map fst m) -> map (fun h => (h, get_or_null m h)) (map fst m) = m.
Proof.
  intros Hnd. rewrite map_map. rewrite <- (map_id m) at 2. apply map_ext_in. intros [k v] Hin.
  unfold get_or_null. cbn [fst]. rewrite (nodup_in_get m Hnd k v Hin). reflexivity.
Qed.

(* the outer loop of do_unflatten_entries: one entry per distinct head, collected into a map *)
Lemma regroup m (heads : list bytes) (F : bytes -> option value) :
  obj_sorted m = true -> (forall h, In h heads <-> In h (map fst m)) -> (forall h v, In (h, v) m -> F h = Some v) ->
  option_map collect (sequence_entries (map (fun h => (h, F h)) (nodup_bytes heads))) = Some m.
Proof.
  intros Hsorted Hheads HF. pose proof (sorted_nodup m Hsorted) as Hnd.
  rewrite (sequence_map _ (get_or_null m)).
  - cbn [option_map]. f_equal. apply collect_of_perm; [exact Hsorted|].
    pattern m at 2. rewrite <- (map_get_keys m Hnd). apply Permutation_map.
    apply NoDup_Permutation; [apply nodup_bytes_nodup | exact Hnd|]. intros h. rewrite nodup_bytes_in. apply Hheads.
  - intros h Hin. apply nodup_bytes_in, Hheads, in_map_iff in Hin as ([h' v] & [= ->] & Hm).
    unfold get_or_null. rewrite (nodup_in_get m Hnd h v Hm). exact (HF h v Hm).
Qed.

Lemma do_unflatten_leaf f sep r v : is_obj v = false -> do_unflatten (S f) sep r v = Some v.
Proof. destruct v; cbn; congruence. Qed.

Lemma group_shape {B} (g : list triple) (a : value -> B) (b : bytes -> value -> B) (c : list triple -> B) :
  2 <= length g ->
  match g with
  | [(_, None, v)] => a v
  | [(_, Some rest, v)] => b rest v
  | g' => c g'
  end = c g.
Proof.
  intros H. destruct g as [|[[h o] v] [|t g]]; cbn [length] in H; try lia.
  destruct o; reflexivity.
Qed.

(* a chain of single-key objects comes back from its one flattened entry *)
Lemma single_entry sep : sep <> [] -> forall m, wf_entries sep m = true ->
  forall key x, flat_list sep [] m = [(key, x)] ->
  forall fuel, length key <= fuel -> nest (split_all fuel sep key) x = VObj m.
Proof.
  intros Hs. induction m as [|k v m IHv _] using entries_ind; intros Hw key x Hf fuel Hfuel; [discriminate|].
  pose proof (flat_list_length sep _ Hw) as L. rewrite Hf in L. destruct m; [clear L | cbn in L; lia].
  rewrite flat_list_cons, app_nil_r in Hf. rename Hf into Hb. apply wf_entries_cons in Hw as (Hk & Hv & _).
  destruct (obj_or_leaf v) as [[m' ->]|O].
  - rewrite block_obj in Hb. apply wf_val_obj in Hv as (_ & _ & Hw').
    destruct (flat_list sep [] m') as [|[key' x'] [|? ?]] eqn:Efl; try discriminate.
    cbn [map pre fst snd] in Hb. injection Hb as <- <-.
    rewrite <- app_assoc in *. rewrite !app_length in Hfuel.
    assert (1 <= length sep) by (destruct sep; [congruence | cbn; lia]).
    destruct fuel as [|fuel]; [lia|].
    rewrite split_all_key by assumption. cbn [nest fold_right]. do 3 f_equal.
    apply (IHv m' eq_refl Hw' _ _ Efl). lia.
  - rewrite block_leaf in Hb by exact O. injection Hb as <- <-.
    rewrite split_all_leaf by assumption. reflexivity.
Qed.

Lemma unflatten_entry_single sep r : sep <> [] -> forall m f key x,
  wf_entries sep m = true -> flat_list sep [] m = [(key, x)] ->
  do_unflatten_entry (S (S f)) sep r key x = Some (VObj m).
Proof.
  intros Hs m f key x Hw Hf. cbn [do_unflatten_entry].
  assert (L : is_obj x = false).
  { apply (flat_list_leaves sep m (key, x)). rewrite Hf. left; reflexivity. }
  replace (if r then do_unflatten (S f) sep r x else Some x) with (Some x)
    by (destruct r; [rewrite do_unflatten_leaf by exact L|]; reflexivity).
  cbn [option_map]. f_equal. exact (single_entry sep Hs m Hw key x Hf _ (le_n _)).
Qed.

(* fuel is measured by the weight of the entries still to be regrouped *)
Fixpoint wsum (l : list entry) : nat :=
  match l with [] => O | (k, x) :: l' => 4 + 4 * length k + weight x + wsum l' end.

Lemma weight_obj m : weight (VObj m) = S (wsum m).
Proof. reflexivity. Qed.

Lemma wsum_app l1 l2 : wsum (l1 ++ l2) = wsum l1 + wsum l2.
Proof. induction l1 as [|[k x] l1 IH]; [reflexivity|]. cbn [app wsum]. rewrite IH. lia. Qed.

Lemma wsum_perm l l' : Permutation l l' -> wsum l = wsum l'.
Proof.
  induction 1 as [| [k x] l l' _ IH | [k1 x1] [k2 x2] l | l l' l'' _ IH1 _ IH2]; cbn [wsum]; lia.
Qed.

Lemma wsum_pre p l : wsum (map (pre p) l) = wsum l + 4 * length p * length l.
Proof.
  induction l as [|[k x] l IH]; [cbn; lia|]. cbn [map pre fst snd wsum length]. rewrite IH, app_length. lia.
Qed.

(* the entries below one key weigh less than the whole list: each has lost that key and a separator *)
Lemma wsum_nested sep h m' m : sep <> [] -> In (h, VObj m') m -> flat_list sep [] m' <> [] ->
  wsum (flat_list sep [] m') + 4 <= wsum (flat_list sep [] m).
Proof.
  intros Hs Hin Hne. induction m as [|kv m IH]; [destruct Hin|]. rewrite flat_list_cons, wsum_app.
  destruct Hin as [->|Hin]; [|apply IH in Hin; lia].
  rewrite block_obj, wsum_pre, app_length.
  destruct sep; [congruence|]. destruct (flat_list _ [] m'); [congruence|]. cbn [length]. nia.
Qed.

(* regrouping a permutation of all triples: the group of a key is a permutation of that key's block ... *)
Lemma group_is_block sep m ts h v : NoDup (map fst m) -> In (h, v) m -> Permutation ts (all_triples sep m) ->
  Permutation (group_of h ts) (block_triples sep (h, v)).
Proof. intros Hnd Hm Pts. rewrite <- (group_all sep m Hnd h v Hm). apply perm_filter, Pts. Qed.

(* ... and below an object, what is left of the group's keys is a permutation of the nested flat list *)
Lemma rest_is_flat_list sep h m' g : Permutation g (block_triples sep (h, VObj m')) ->
  Permutation (rest_entries g) (flat_list sep [] m').
Proof. intros Pg. rewrite <- (rest_entries_some h (flat_list sep [] m')). apply perm_rest_entries, Pg. Qed.

Theorem unflatten_entries_perm sep r : sep <> [] ->
  forall f m l, obj_sorted m = true -> wf_entries sep m = true ->
  Permutation l (flat_list sep [] m) -> wsum l + 2 <= f -> do_unflatten_entries f sep r l = Some m.
Proof.
  (* the triples of l are a permutation of all triples of m (Pts), so regroup applies; the nested flat list below an
     object (Pr) is lighter than l, so the induction applies to it *)
  intros Hs. induction f as [|f IH]; intros m l Hsorted Hw Hp Hf; [lia|].
  pose proof (sorted_nodup m Hsorted) as Hnd.
  cbn [do_unflatten_entries]. set (ts := map (split_entry sep) l).
  assert (Pts : Permutation ts (all_triples sep m)).
  { unfold ts. rewrite <- split_flat_list by assumption. apply Permutation_map. exact Hp. }
  apply regroup; [exact Hsorted | |].
  - intros h. rewrite <- (all_triples_heads sep m Hs Hw h).
    split; apply Permutation_in, Permutation_map; [|apply Permutation_sym]; exact Pts.
  - intros h v Hm.
    destruct (wf_entries_in sep m h v Hw Hm) as [Hk Hv].
    pose proof (group_is_block sep m ts h v Hnd Hm Pts) as Pg.
    rewrite (wsum_perm _ _ Hp) in Hf.
    destruct (obj_or_leaf v) as [[m' ->]|O].
    + apply wf_val_obj in Hv as (Hne & Hsorted' & Hw').
      assert (Hfne : flat_list sep [] m' <> []).
      { intros E. pose proof (flat_list_length sep m' Hw') as L. rewrite E in L. destruct m'; [congruence | inversion L]. }
      pose proof (wsum_nested sep h m' m Hs Hm Hfne) as Hsz.
      pose proof (rest_is_flat_list sep h m' _ Pg) as Pr.
      unfold block_triples in Pg. cbn [fst snd] in Pg.
      destruct (flat_list sep [] m') as [|[key x] [|e2 fl]] eqn:Efl; [congruence| |].
      * (* one flattened entry below h *)
        apply Permutation_sym, Permutation_length_1_inv in Pg. rewrite Pg.
        cbn [wsum] in Hsz. destruct f as [|[|f]]; [lia | lia |].
        exact (unflatten_entry_single sep r Hs m' f key x Hw' Efl).
      * (* two or more *)
        assert (X : option_map VObj (do_unflatten_entries f sep r (rest_entries (group_of h ts))) = Some (VObj m')).
        { rewrite <- Efl in Pr, Hsz. rewrite (IH m' _ Hsorted' Hw' Pr); [reflexivity|]. rewrite (wsum_perm _ _ Pr). lia. }
        apply Permutation_length in Pg. cbn [map length] in Pg.
        destruct (group_of h ts) as [|[[h1 o1] v1] [|t2 g]]; cbn [length] in Pg; try lia.
        destruct o1; exact X.
    + rewrite block_triples_leaf in Pg by exact O.
      apply Permutation_sym, Permutation_length_1_inv in Pg. rewrite Pg.
      destruct f as [|f]; [lia|].
      destruct r; [apply do_unflatten_leaf; exact O | reflexivity].
Qed.

Definition key_head (sep key : bytes) : bytes :=
  match split_once sep key with Some (h, _) => h | None => key end.

Lemma t_head_split sep e : t_head (split_entry sep e) = key_head sep (fst e).
Proof. unfold split_entry, key_head, t_head. destruct (split_once sep (fst e)) as [[h r]|]; reflexivity. Qed.

Lemma block_key_head sep k v e : sep <> [] -> no_early sep k = true -> In e (block sep (k, v)) -> key_head sep (fst e) = k.
Proof.
  intros Hs Hk Hin. rewrite <- t_head_split.
  apply (block_triples_head sep (k, v)). rewrite <- split_block by assumption. apply in_map. exact Hin.
Qed.

Lemma flat_keys_nodup sep : sep <> [] -> forall m, obj_sorted m = true -> wf_entries sep m = true ->
  NoDup (map fst (flat_list sep [] m)).
Proof.
  intros Hs. induction m as [|k v m IHv IHm] using entries_ind; intros Hsorted Hw; [constructor|].
  apply wf_entries_cons in Hw as (Hk & Hv & Hw).
  rewrite flat_list_cons, map_app. apply nodup_app; [|exact (IHm (sorted_tail k v m Hsorted) Hw)|].
  - destruct (obj_or_leaf v) as [[m' ->]|O].
    + rewrite block_obj, map_map. apply wf_val_obj in Hv as (_ & Hsorted' & Hw').
      pose proof (FinFun.Injective_map_NoDup (app_inv_head (k ++ sep)) (IHv m' eq_refl Hsorted' Hw')) as N.
      rewrite map_map in N. exact N.
    + rewrite block_leaf by exact O. repeat constructor. intros [].
  - (* the keys of different blocks differ before their first separator *)
    intros key Hin1 Hin2.
    apply in_map_iff in Hin1 as (e1 & E1 & Hin1). apply in_map_iff in Hin2 as (e2 & E2 & Hin2).
    pose proof (block_key_head sep k v e1 Hs Hk Hin1) as H1.
    rewrite flat_list_flat_map in Hin2. apply in_flat_map in Hin2 as ([k' v'] & Hm & Hin2).
    destruct (wf_entries_in sep m k' v' Hw Hm) as [Hk' _].
    pose proof (block_key_head sep k' v' e2 Hs Hk' Hin2) as H2.
    assert (Ek : k' = k) by congruence. rewrite Ek in Hm.
    exact (sorted_not_in k v m v' Hsorted Hm).
Qed.

Theorem flatten_unflatten sep m r :
  sep <> [] -> flat_ok sep m = true ->
  exists y, flatten (VObj m) (VBytes sep) [] = ROk y /\ unflatten y (VBytes sep) (VBool r) = ROk (VObj m).
Proof.
  intros Hs [Hsorted Hw]%andb_true_iff. eexists. split; [reflexivity|].
  pose proof (collect_perm _ (flat_keys_nodup sep Hs m Hsorted Hw)) as Hp.
  unfold unflatten. rewrite weight_obj. cbn [Nat.add do_unflatten].
  rewrite (unflatten_entries_perm sep r Hs _ m _ Hsorted Hw Hp) by lia. reflexivity.
Qed.

Fixpoint contains (sep s : bytes) : bool :=
  match strip_prefix sep s with
  | Some _ => true
  | None => match s with [] => false | _ :: s' => contains sep s' end
  end.

(* a separator-safe key does not contain the separator ... *)
Lemma no_early_not_contains sep k : no_early sep k = true -> sep <> [] -> contains sep k = false.
Proof.
  intros Hk Hs. induction k as [|c k IH].
  - destruct sep; [congruence | reflexivity].
  - apply no_early_cons in Hk as (_ & E & Hk). cbn [contains]. rewrite E. exact (IH Hk).
Qed.

(* ... and for a one-character separator that is all there is to it *)
Lemma no_early_single c k : contains [c] k = false -> no_early [c] k = true.
Proof.
  induction k as [|d k IH]; intros H; [reflexivity|].
  cbn [contains strip_prefix] in H. cbn [no_early]. unfold starts_with. cbn [app strip_prefix].
  destruct (c =? d)%N; [discriminate|]. cbn [negb andb]. apply IH. exact H.
Qed.

(* the precondition as the property words it: no key contains the separator, no nested object is empty *)
Fixpoint plain_val (sep : bytes) (v : value) {struct v} : bool :=
  match v with
  | VObj m =>
      negb (match m with [] => true | _ => false end) && obj_sorted m
      && (fix go (l : list entry) : bool :=
            match l with
            | [] => true
            | (k, x) :: l' => negb (contains sep k) && plain_val sep x && go l'
            end) m
  | _ => true
  end.

Fixpoint plain_entries (sep : bytes) (m : list entry) : bool :=
  match m with
  | [] => true
  | (k, x) :: l' => negb (contains sep k) && plain_val sep x && plain_entries sep l'
  end.

Definition flat_plain (sep : bytes) (m : obj) : bool := obj_sorted m && plain_entries sep m.

Lemma plain_val_wf c v : plain_val [c] v = true -> wf_val [c] v = true.
Proof.
  induction v using value_ind'; try reflexivity. cbn [plain_val wf_val].
  rewrite !andb_true_iff. intros [Hs Hgo]. split; [exact Hs|]. clear Hs.
  induction H as [|[k x] m Hx _ IH]; [reflexivity|].
  rewrite !andb_true_iff, negb_true_iff in *. destruct Hgo as [[Hk Hv] Hm]. auto using no_early_single.
Qed.

Lemma plain_single c m : flat_plain [c] m = true -> flat_ok [c] m = true.
Proof.
  unfold flat_plain, flat_ok. rewrite !andb_true_iff. intros [Hs Hp]. split; [exact Hs|]. clear Hs.
  induction m as [|[k x] m IH]; [reflexivity|]. cbn [plain_entries wf_entries] in *.
  rewrite !andb_true_iff, negb_true_iff in *. destruct Hp as [[Hk Hv] Hm]. auto using no_early_single, plain_val_wf.
Qed.
