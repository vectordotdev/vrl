(* Core VRL: equations of the evaluator, evaluation contexts, and the control-flow theorems
   behind C06 (return), C07 (abort), C08 (?? and ok,err=), C09 (short-circuit, if), C13 (closure
   parameters).  Everything is proved for arbitrary F and binop. *)
From Coq Require Import List.
From VRL Require Import Base.Bytes Base.Value Model.Expr Model.Eval Proofs.ListFacts.
Import ListNotations.

Lemma lift_state {A} (f : A -> value) x : snd (lift f x) = snd x.
Proof. destruct x as [[a|e] s]; reflexivity. Qed.

Lemma var_get_remove_same vs x : var_get (var_remove vs x) x = None.
Proof.
  induction vs as [|[y v] vs IH]; cbn; auto.
  destruct (bytes_eqb y x) eqn:E; auto. cbn. rewrite E. exact IH.
Qed.

Lemma var_get_remove_other vs x y : y <> x -> var_get (var_remove vs x) y = var_get vs y.
Proof.
  intros Hne%not_eq_sym%bytes_eqb_neq. induction vs as [|[z v] vs IH]; cbn; auto.
  destruct (bytes_eqb_spec z x) as [->|_]; cbn; [rewrite Hne; exact IH | rewrite IH; reflexivity].
Qed.

Lemma var_get_set_same vs x v : var_get (var_set vs x v) x = Some v.
Proof. unfold var_set. cbn. rewrite bytes_eqb_refl. reflexivity. Qed.

Lemma var_get_set_other vs x y v : y <> x -> var_get (var_set vs x v) y = var_get vs y.
Proof.
  intros Hne. unfold var_set. cbn. rewrite (proj2 (bytes_eqb_neq x y)) by congruence.
  apply var_get_remove_other, Hne.
Qed.

Lemma var_get_set vs x y v : var_get (var_set vs x v) y = if bytes_eqb x y then Some v else var_get vs y.
Proof.
  destruct (bytes_eqb x y) eqn:E.
  - apply bytes_eqb_eq in E. subst y. apply var_get_set_same.
  - apply var_get_set_other, not_eq_sym, bytes_eqb_neq, E.
Qed.

(* the one-parameter runner is the two-parameter runner with no second parameter; what is proved
   of run2 below holds of run1 through this equation *)
Lemma run1_run2 body p a b s : run1 body p a s = run2 body p None a b s.
Proof.
  unfold run1, run2. destruct (bind_param s p a) as [old s1]. cbn [bind_param].
  destruct (body s1) as [r s2]. reflexivity.
Qed.

Lemma bind_param_other s p a x :
  p <> Some x -> var_get (vars (snd (bind_param s p a))) x = var_get (vars s) x.
Proof. destruct p as [y|]; intros H; [|reflexivity]. apply var_get_set_other. congruence. Qed.

Lemma cleanup_param_other s p o x :
  p <> Some x -> var_get (vars (cleanup_param s p o)) x = var_get (vars s) x.
Proof.
  destruct p as [y|], o; intros H; try reflexivity;
    [apply var_get_set_other | apply var_get_remove_other]; congruence.
Qed.

Lemma cleanup_param_same s x o : var_get (vars (cleanup_param s (Some x) o)) x = o.
Proof. destruct o; [apply var_get_set_same | apply var_get_remove_same]. Qed.

(* C13: closure parameters are restored, whatever the body does and however it ends *)

Definition same_var (x : ident) (s s' : state) : Prop := var_get (vars s') x = var_get (vars s) x.

(* the parameter cleaned up last gets back what binding it saved; the other one is cleaned up
   first and not touched by the second cleanup, nor was it touched by the second binding *)
Lemma run2_restores body p0 p1 a b s x :
  (p0 = Some x \/ p1 = Some x) -> p0 <> p1 \/ p0 = None ->
  same_var x s (snd (run2 body p0 p1 a b s)).
Proof.
  intros Hx Hd. unfold run2, same_var. destruct Hx as [-> | ->].
  - assert (Hn : p1 <> Some x) by (destruct Hd; congruence).
    cbn [bind_param]. destruct (bind_param _ p1 b) as [old1 s2]. destruct (body s2) as [r s3]. cbn [snd].
    rewrite (cleanup_param_other _ p1 old1 x Hn). apply cleanup_param_same.
  - assert (Hn : p0 <> Some x) by (destruct Hd; congruence).
    pose proof (bind_param_other s p0 a x Hn) as B. destruct (bind_param s p0 a) as [old0 s1].
    cbn [bind_param snd] in *. destruct (body _) as [r s3]. cbn [snd].
    rewrite cleanup_param_same. exact B.
Qed.

(* the parameters a closure-taking function binds *)
Definition cparams (cf : cfn) (ps : list ident) : list (option ident) :=
  match cf with
  | CForEach | CFilter => [param ps 0; param ps 1]
  | CMapKeys | CMapValues => [param ps 0]
  end.

(* the second one: none for map_keys and map_values, whose runner run1 is run2 without it (run1_run2) *)
Definition second_param (cf : cfn) (ps : list ident) : option ident := nth 1 (cparams cf ps) None.

(* one iteration of each closure-taking function (Model/Eval.v, Section Closures) *)
#[export] Hint Unfold step_each_kv step_each_iv step_filter_kv step_filter_iv step_mapk step_mapv_kv step_mapv : steps.

Section StateRelation.
  (* a reflexive and transitive relation between the state before and the state after *)
  Variable T : state -> state -> Prop.
  Hypothesis T_refl : forall s, T s s.
  Hypothesis T_trans : forall s1 s2 s3, T s1 s2 -> T s2 s3 -> T s1 s3.

  Lemma loop_state {A B} (step : A -> state -> (B + err) * state) items :
    Forall (fun a => forall s, T s (snd (step a s))) items -> forall s, T s (snd (loop step items s)).
  Proof.
    induction 1 as [|a r Ha _ IH]; intros s; cbn [loop]; [apply T_refl|].
    specialize (Ha s). destruct (step a s) as [[b|e] s']; [|exact Ha].
    specialize (IH s'). destruct (loop step r s') as [[bs|e] s'']; exact (T_trans _ _ _ Ha IH).
  Qed.

  (* A closure-taking function changes the state only by running its closure: what every run
     respects, the whole call respects. *)
  Lemma run_closure_state body ps cf :
    (forall a b s r s', run2 body (param ps 0) (second_param cf ps) a b s = (r, s') -> T s s') ->
    forall v s, T s (snd (run_closure body ps cf v s)).
  Proof.
    intros H v s. unfold run_closure.
    (* a step keeps the state its runner leaves and only looks at the result *)
    destruct cf; cbn [second_param cparams nth] in H; destruct v; try apply T_refl;
      try (rewrite lift_state; apply loop_state, Forall_forall; intros a _ s1);
      autounfold with steps;
      rewrite ?(run1_run2 _ _ _ VNull);
      destruct (run2 _ _ _ _ _ _) as [r s2] eqn:E; apply H in E; destruct r as [[]|]; exact E.
  Qed.
End StateRelation.

Theorem closure_params_restored body ps cf v s x :
  In (Some x) (cparams cf ps) -> (param ps 0 <> param ps 1 \/ param ps 0 = None) ->
  same_var x s (snd (run_closure body ps cf v s)).
Proof.
  intros Hin Hd. apply (run_closure_state (same_var x)); unfold same_var; try congruence.
  intros a b s0 r s' E. change s' with (snd (r, s')). rewrite <- E.
  apply run2_restores; destruct cf; cbn [second_param cparams nth In] in *; try tauto;
    destruct Hin as [->|[]]; left; discriminate.
Qed.

(* An evaluation that does not end in an error of some kind (not_return here, no_panic in PanicProofs.v):
   no step of a loop does, so the loop does not; lift only repackages a value. *)
Definition err_ok {X} (Q : err -> Prop) (r : X + err) : Prop := match r with inl _ => True | inr e => Q e end.

Lemma loop_err_ok {A B} Q (step : A -> state -> (B + err) * state) items :
  Forall (fun a => forall s, err_ok Q (fst (step a s))) items -> forall s, err_ok Q (fst (loop step items s)).
Proof.
  induction 1 as [|a r Ha _ IH]; intros s; cbn [loop]; [exact I|].
  specialize (Ha s). destruct (step a s) as [[b|e] s']; [|exact Ha].
  specialize (IH s'). destruct (loop step r s') as [[bs|e] s'']; [exact I|exact IH].
Qed.

Lemma lift_err_ok {A} Q (f : A -> value) x : err_ok Q (fst x) -> err_ok Q (fst (lift f x)).
Proof. destruct x as [[a|e] s0]; exact (fun H => H). Qed.

(* C06 inside closures: a `return` never escapes a closure-taking call *)

Definition not_return {X} (r : X + err) : Prop :=
  match r with inr (Return _) => False | _ => True end.

Lemma run2_no_return body p0 p1 a b s r s' : run2 body p0 p1 a b s = (r, s') -> not_return r.
Proof.
  unfold run2. destruct (bind_param s p0 a) as [o s1]. destruct (bind_param s1 p1 b) as [o1 s2].
  destruct (body s2) as [[v|[ | | | ]] s3]; intros [= <- _]; exact I.
Qed.

Lemma loop_no_return {A B} (step : A -> state -> (B + err) * state) items :
  Forall (fun a => forall s, not_return (fst (step a s))) items -> forall s, not_return (fst (loop step items s)).
Proof. exact (loop_err_ok _ step items). Qed.

Lemma lift_no_return {A} (f : A -> value) x : not_return (fst x) -> not_return (fst (lift f x)).
Proof. exact (lift_err_ok _ f x). Qed.

(* each step passes on the error of its runner, or fails with Error or Panic *)
Theorem closure_call_no_return body ps cf v s : not_return (fst (run_closure body ps cf v s)).
Proof.
  unfold run_closure.
  destruct cf, v; try exact I; try (apply lift_no_return, loop_no_return, Forall_forall; intros a _ s1);
    autounfold with steps;
    rewrite ?(run1_run2 _ _ _ VNull);
    destruct (run2 _ _ _ _ _ _) as [r s2] eqn:E; apply run2_no_return in E;
    destruct r as [[]|]; try exact I; exact E.
Qed.

(* C07 inside closures: the iteration that fails ends the whole call *)

Lemma loop_first_failure {A B} (step : A -> state -> (B + err) * state) pre : forall a post s bs s1 e s2,
  loop step pre s = (inl bs, s1) -> step a s1 = (inr e, s2) ->
  loop step (pre ++ a :: post) s = (inr e, s2).
Proof.
  induction pre as [|p pre IH]; intros a post s bs s1 e s2 Hl Hs; cbn [loop app] in *.
  - inversion Hl; subst. rewrite Hs. reflexivity.
  - destruct (step p s) as [[b|e0] s'] eqn:Ep; try discriminate.
    destruct (loop step pre s') as [[bs0|e0] s''] eqn:El; try discriminate.
    inversion Hl; subst. erewrite IH; eauto.
Qed.

Section EvalProofs.
  Variable F : fname -> list value -> option value.
  Variable binop : opcode -> value -> value -> option value.
  Notation ev := (eval F binop).

  (* eval writes its loops as anonymous `fix`es; these are named copies, equal to them by conversion
     (eval_block ... eval_call).  The other recursive model functions get the same treatment where they
     are reasoned about: ti_* (TypeInfoEqs), rc_* (TypeConstProofs), pfl (PanicProofs), du (KindFuelProofs),
     nea_* (KindSupersetProofs). *)
  Fixpoint blk (es : list expr) (s : state) {struct es} : res * state :=
    match es with
    | [] => (inr Panic, s)
    | [e1] => ev e1 s
    | e1 :: es' =>
        match ev e1 s with
        | (inl _, s') => blk es' s'
        | (inr er, s') => (inr er, s')
        end
    end.

  Fixpoint arr_go (es : list expr) (acc : list value) (s : state) {struct es} : res * state :=
    match es with
    | [] => (inl (VArr (rev acc)), s)
    | e1 :: es' =>
        match ev e1 s with
        | (inl v, s') => arr_go es' (v :: acc) s'
        | (inr er, s') => (inr er, s')
        end
    end.

  Fixpoint obj_go (kvs : list (bytes * expr)) (acc : obj) (s : state) {struct kvs} : res * state :=
    match kvs with
    | [] => (inl (VObj acc), s)
    | (k, e1) :: kvs' =>
        match ev e1 s with
        | (inl v, s') => obj_go kvs' (obj_set acc k v) s'
        | (inr er, s') => (inr er, s')
        end
    end.

  Definition call_go (f : fname) : list expr -> list value -> state -> res * state :=
    fix go (es : list expr) (acc : list value) (s : state) {struct es} : res * state :=
      match es with
      | [] => (match F f (rev acc) with Some v => inl v | None => inr Error end, s)
      | e1 :: es' =>
          match ev e1 s with
          | (inl v, s') => go es' (v :: acc) s'
          | (inr er, s') => (inr er, s')
          end
      end.

  Lemma eval_block es s : ev (EBlock es) s = blk es s.
  Proof. reflexivity. Qed.
  Lemma blk_cons e r s : r <> [] ->
    blk (e :: r) s = match ev e s with (inl _, s') => blk r s' | (inr er, s') => (inr er, s') end.
  Proof. destruct r; [congruence|reflexivity]. Qed.
  Lemma eval_arr es s : ev (EArr es) s = arr_go es [] s.
  Proof. reflexivity. Qed.
  Lemma eval_obj kvs s : ev (EObj kvs) s = obj_go kvs [] s.
  Proof. reflexivity. Qed.
  Lemma eval_call f args s : ev (ECall f args) s = call_go f args [] s.
  Proof. reflexivity. Qed.
  Lemma eval_if c t f s :
    ev (EIf c t f) s =
    match blk c s with
    | (inl v, s') =>
        match try_boolean v with
        | Some true => blk t s'
        | Some false => match f with Some fb => blk fb s' | None => (inl VNull, s') end
        | None => (inr Error, s')
        end
    | (inr er, s') => (inr er, s')
    end.
  Proof. reflexivity. Qed.
  Lemma eval_closure cf arg ps body s :
    ev (EClosure cf arg ps body) s =
    match ev arg s with
    | (inl v, s') => run_closure (blk body) ps cf v s'
    | (inr er, s') => (inr er, s')
    end.
  Proof. reflexivity. Qed.

  (* the one-step equations of the operators and of ok, err = *)

  Lemma eval_err a b s :
    ev (EOp OErr a b) s =
    match ev a s with
    | (inl v, s') => (inl v, s')
    | (inr Error, s') => ev b s'
    | (inr er, s') => (inr er, s')
    end.
  Proof. reflexivity. Qed.

  Lemma eval_or a b s :
    ev (EOp OOr a b) s =
    match ev a s with
    | (inl v, s') => if falsy v then ev b s' else (inl v, s')
    | (inr er, s') => (inr er, s')
    end.
  Proof. reflexivity. Qed.

  Lemma eval_and a b s :
    ev (EOp OAnd a b) s =
    match ev a s with
    | (inl v, s') =>
        if falsy v then (inl (VBool false), s')
        else match ev b s' with
             | (inl w, s'') => (match try_and v w with Some r => inl r | None => inr Error end, s'')
             | (inr er, s'') => (inr er, s'')
             end
    | (inr er, s') => (inr er, s')
    end.
  Proof. reflexivity. Qed.

  Definition plain (o : opcode) : bool :=
    match o with OErr | OOr | OAnd => false | _ => true end.

  Lemma eval_plain o a b s :
    plain o = true ->
    ev (EOp o a b) s =
    match ev a s with
    | (inl v, s') =>
        match ev b s' with
        | (inl w, s'') => (match binop o v w with Some r => inl r | None => inr Error end, s'')
        | (inr er, s'') => (inr er, s'')
        end
    | (inr er, s') => (inr er, s')
    end.
  Proof. destruct o; intros H; try discriminate; reflexivity. Qed.

  Lemma eval_assign_inf ok er e d s :
    ev (EAssignInf ok er e d) s =
    match ev e s with
    | (inl v, s') => (inl v, target_insert (target_insert s' ok v) er VNull)
    | (inr Error, s') => (inl ERRMSG, target_insert (target_insert s' ok d) er ERRMSG)
    | (inr c, s') => (inr c, s')
    end.
  Proof. reflexivity. Qed.

  (* Arrays, objects, calls and blocks evaluate their operands in order and stop at the first
     failure: that is `loop ev` over the operands; what differs is what is built from the values.
     What is proved of `loop` (loop_state, loop_first_failure) reaches all four through these. *)

  Lemma arr_go_loop es : forall acc s,
    arr_go es acc s = lift (fun vs => VArr (rev acc ++ vs)) (loop ev es s).
  Proof.
    induction es as [|e es IH]; intros acc s; cbn [arr_go loop].
    - cbn [lift]. rewrite app_nil_r. reflexivity.
    - destruct (ev e s) as [[v|er] s']; [|reflexivity]. rewrite IH.
      destruct (loop ev es s') as [[vs|er] s'']; [|reflexivity]. cbn [lift rev]. rewrite <- app_assoc. reflexivity.
  Qed.

  Lemma call_go_loop f es : forall acc s,
    call_go f es acc s =
    match loop ev es s with
    | (inl vs, s') => (match F f (rev acc ++ vs) with Some v => inl v | None => inr Error end, s')
    | (inr er, s') => (inr er, s')
    end.
  Proof.
    induction es as [|e es IH]; intros acc s; cbn [call_go loop].
    - rewrite app_nil_r. reflexivity.
    - destruct (ev e s) as [[v|er] s']; [|reflexivity]. rewrite IH.
      destruct (loop ev es s') as [[vs|er] s'']; [|reflexivity]. cbn [rev]. rewrite <- app_assoc. reflexivity.
  Qed.

  Lemma obj_go_loop kvs : forall acc s,
    obj_go kvs acc s =
    lift (fun vs => VObj (fold_left (fun m kv => obj_set m (fst kv) (snd kv)) (combine (map fst kvs) vs) acc))
         (loop ev (map snd kvs) s).
  Proof.
    induction kvs as [|[k e] kvs IH]; intros acc s; cbn [obj_go loop map fst snd]; [reflexivity|].
    destruct (ev e s) as [[v|er] s']; [|reflexivity]. rewrite IH.
    destruct (loop ev (map snd kvs) s') as [[vs|er] s'']; reflexivity.
  Qed.

  (* a block yields the value of its last expression; the default of `last` is never used *)
  Lemma blk_loop es : forall d s, es <> [] -> blk es s = lift (fun vs => last vs d) (loop ev es s).
  Proof.
    induction es as [|e es IH]; intros d s Hne; [congruence|]. destruct es as [|e2 es].
    - cbn [blk loop]. destruct (ev e s) as [[v|er] s']; reflexivity.
    - assert (Hr : e2 :: es <> []) by discriminate. set (r := e2 :: es) in *.
      rewrite (blk_cons _ _ _ Hr). cbn [loop]. destruct (ev e s) as [[v|er] s']; [|reflexivity].
      rewrite (IH v s' Hr).
      destruct (loop ev r s') as [[vs|er] s'']; [|reflexivity]. cbn [lift]. rewrite last_cons. reflexivity.
  Qed.

  Inductive ctx :=
  | CHole
  | CErrL (C : ctx) (b : expr) | CErrR (a : expr) (C : ctx)
  | COrL (C : ctx) (b : expr) | COrR (a : expr) (C : ctx)
  | CAndL (C : ctx) (b : expr) | CAndR (a : expr) (C : ctx)
  | COpL (o : opcode) (C : ctx) (b : expr) | COpR (o : opcode) (a : expr) (C : ctx)
  | CNot (C : ctx) | CGroup (C : ctx) | CQExpr (C : ctx) (p : path)
  | CAssign (t : target) (C : ctx) | CAssignInf (ok er : target) (C : ctx) (d : value)
  | CArr (pre : list expr) (C : ctx) (post : list expr)
  | CObj (pre : list (bytes * expr)) (k : bytes) (C : ctx) (post : list (bytes * expr))
  | CCall (f : fname) (pre : list expr) (C : ctx) (post : list expr)
  | CBlock (pre : list expr) (C : ctx) (post : list expr)
  | CIfPred (pre : list expr) (C : ctx) (post : list expr) (t : list expr) (f : option (list expr))
  | CIfThen (c : list expr) (pre : list expr) (C : ctx) (post : list expr) (f : option (list expr))
  | CIfElse (c t : list expr) (pre : list expr) (C : ctx) (post : list expr)
  | CReturn (C : ctx) | CAbortMsg (C : ctx)
  | CClosureArg (cf : cfn) (C : ctx) (ps : list ident) (body : list expr).

  Fixpoint plug (C : ctx) (x : expr) : expr :=
    match C with
    | CHole => x
    | CErrL C b => EOp OErr (plug C x) b
    | CErrR a C => EOp OErr a (plug C x)
    | COrL C b => EOp OOr (plug C x) b
    | COrR a C => EOp OOr a (plug C x)
    | CAndL C b => EOp OAnd (plug C x) b
    | CAndR a C => EOp OAnd a (plug C x)
    | COpL o C b => EOp o (plug C x) b
    | COpR o a C => EOp o a (plug C x)
    | CNot C => ENot (plug C x)
    | CGroup C => EGroup (plug C x)
    | CQExpr C p => EQExpr (plug C x) p
    | CAssign t C => EAssign t (plug C x)
    | CAssignInf ok er C d => EAssignInf ok er (plug C x) d
    | CArr pre C post => EArr (pre ++ plug C x :: post)
    | CObj pre k C post => EObj (pre ++ (k, plug C x) :: post)
    | CCall f pre C post => ECall f (pre ++ plug C x :: post)
    | CBlock pre C post => EBlock (pre ++ plug C x :: post)
    | CIfPred pre C post t f => EIf (pre ++ plug C x :: post) t f
    | CIfThen c pre C post f => EIf c (pre ++ plug C x :: post) f
    | CIfElse c t pre C post => EIf c t (Some (pre ++ plug C x :: post))
    | CReturn C => EReturn (plug C x)
    | CAbortMsg C => EAbort (Some (plug C x))
    | CClosureArg cf C ps body => EClosure cf (plug C x) ps body
    end.

  (* everything evaluated before the hole succeeds: the state in which the hole is evaluated *)
  Fixpoint seq (es : list expr) (s : state) : option state :=
    match es with
    | [] => Some s
    | e :: r => match ev e s with (inl _, s') => seq r s' | _ => None end
    end.

  Definition bind_st (o : option state) (f : state -> option state) : option state :=
    match o with Some s => f s | None => None end.

  (* `reach C s = Some s1`: starting in s, evaluation of `plug C x` gets to the hole, in state s1
     (all earlier operands succeed and the short-circuit conditions select the hole) *)
  Fixpoint reach (C : ctx) (s : state) : option state :=
    match C with
    | CHole => Some s
    | CErrL C _ | COrL C _ | CAndL C _ => reach C s
    | CErrR a C => match ev a s with (inr Error, s') => reach C s' | _ => None end
    | COrR a C => match ev a s with (inl v, s') => if falsy v then reach C s' else None | _ => None end
    | CAndR a C => match ev a s with (inl v, s') => if falsy v then None else reach C s' | _ => None end
    | COpL o C _ => if plain o then reach C s else None
    | COpR o a C => if plain o then match ev a s with (inl _, s') => reach C s' | _ => None end else None
    | CNot C | CGroup C | CQExpr C _ | CAssign _ C | CAssignInf _ _ C _ | CReturn C | CAbortMsg C
    | CClosureArg _ C _ _ => reach C s
    | CArr pre C _ | CCall _ pre C _ | CBlock pre C _ | CIfPred pre C _ _ _ => bind_st (seq pre s) (reach C)
    | CObj pre _ C _ => bind_st (seq (map snd pre) s) (reach C)
    | CIfThen c pre C _ _ =>
        match blk c s with (inl (VBool true), s') => bind_st (seq pre s') (reach C) | _ => None end
    | CIfElse c _ pre C _ =>
        match blk c s with (inl (VBool false), s') => bind_st (seq pre s') (reach C) | _ => None end
    end.

  Definition is_ctl (e : err) : bool := match e with Return _ | Abort _ => true | _ => false end.

  Lemma bind_st_some o f s1 : bind_st o f = Some s1 -> exists s0, o = Some s0 /\ f s0 = Some s1.
  Proof. destruct o as [s0|]; [eauto|discriminate]. Qed.

  Lemma seq_loop es : forall s,
    seq es s = match loop ev es s with (inl _, s') => Some s' | (inr _, _) => None end.
  Proof.
    induction es as [|e es IH]; intros s; cbn [seq loop]; [reflexivity|].
    destruct (ev e s) as [[v|er] s']; [|reflexivity]. rewrite IH.
    destruct (loop ev es s') as [[vs|er] s'']; reflexivity.
  Qed.

  Lemma operand_fails pre e post s s1 ce s2 :
    seq pre s = Some s1 -> ev e s1 = (inr ce, s2) -> loop ev (pre ++ e :: post) s = (inr ce, s2).
  Proof.
    rewrite seq_loop. destruct (loop ev pre s) as [[vs|er] s'] eqn:El; intros [= ->] He.
    exact (loop_first_failure ev pre e post s vs s1 ce s2 El He).
  Qed.

  Lemma blk_fails pre e post s s1 ce s2 :
    seq pre s = Some s1 -> ev e s1 = (inr ce, s2) -> blk (pre ++ e :: post) s = (inr ce, s2).
  Proof.
    intros Hs He. rewrite (blk_loop _ VNull) by (destruct pre; discriminate).
    rewrite (operand_fails _ _ _ _ _ _ _ Hs He). reflexivity.
  Qed.

  (* The central lemma of C06 and C07: a `return` or `abort` raised at the hole of any context
     (no closure body in between) comes out of the whole expression unchanged, and the state is
     exactly the state at that point: nothing that comes later in evaluation order runs. *)
  Theorem ctl_propagates C : forall x s s1 ce s2,
    reach C s = Some s1 -> ev x s1 = (inr ce, s2) -> is_ctl ce = true ->
    ev (plug C x) s = (inr ce, s2).
  Proof.
    intros x s s1 ce s2 Hr Hx Hc. revert s Hr.
    induction C; intros s Hr; cbn [reach] in Hr; cbn [plug].
    (* where the hole is evaluated first, the construct passes its failure on; only ?? and
       ok, err = look at the kind of failure, and they catch Error alone *)
    all: try solve [cbn [eval]; rewrite (IHC _ Hr); destruct ce; try discriminate; reflexivity].
    - (* the hole itself *)
      injection Hr as <-. exact Hx.
    - (* a ?? [] *)
      rewrite eval_err. destruct (ev a s) as [[v|[ | | | ]] s']; try discriminate. exact (IHC _ Hr).
    - (* a || [] *)
      rewrite eval_or. destruct (ev a s) as [[v|er] s']; try discriminate.
      destruct (falsy v); try discriminate. exact (IHC _ Hr).
    - (* a && [] *)
      rewrite eval_and. destruct (ev a s) as [[v|er] s']; try discriminate.
      destruct (falsy v); try discriminate. rewrite (IHC _ Hr). reflexivity.
    - (* [] o b *)
      destruct (plain o) eqn:Ho; try discriminate.
      rewrite (eval_plain _ _ _ _ Ho), (IHC _ Hr). reflexivity.
    - (* a o [] *)
      destruct (plain o) eqn:Ho; try discriminate.
      rewrite (eval_plain _ _ _ _ Ho). destruct (ev a s) as [[v|er] s']; try discriminate.
      rewrite (IHC _ Hr). reflexivity.
    - (* array *)
      apply bind_st_some in Hr as [s0 [Hs Hr]].
      rewrite eval_arr, arr_go_loop, (operand_fails _ _ _ _ _ _ _ Hs (IHC _ Hr)). reflexivity.
    - (* object *)
      apply bind_st_some in Hr as [s0 [Hs Hr]].
      rewrite eval_obj, obj_go_loop, (map_app snd). cbn [map snd].
      rewrite (operand_fails _ _ _ _ _ _ _ Hs (IHC _ Hr)). reflexivity.
    - (* call *)
      apply bind_st_some in Hr as [s0 [Hs Hr]].
      rewrite eval_call, call_go_loop, (operand_fails _ _ _ _ _ _ _ Hs (IHC _ Hr)). reflexivity.
    - (* block *)
      apply bind_st_some in Hr as [s0 [Hs Hr]]. exact (blk_fails _ _ _ _ _ _ _ Hs (IHC _ Hr)).
    - (* predicate of if *)
      apply bind_st_some in Hr as [s0 [Hs Hr]].
      rewrite eval_if, (blk_fails _ _ _ _ _ _ _ Hs (IHC _ Hr)). reflexivity.
    - (* then *)
      rewrite eval_if. destruct (blk c s) as [[[ | | | |[|]| | | | ]|er] s']; try discriminate.
      apply bind_st_some in Hr as [s0 [Hs Hr]]. exact (blk_fails _ _ _ _ _ _ _ Hs (IHC _ Hr)).
    - (* else *)
      rewrite eval_if. destruct (blk c s) as [[[ | | | |[|]| | | | ]|er] s']; try discriminate.
      apply bind_st_some in Hr as [s0 [Hs Hr]]. exact (blk_fails _ _ _ _ _ _ _ Hs (IHC _ Hr)).
  Qed.

  (* the same for a statement of a block: the form in which C06 and C07 use it *)
  Lemma block_ctl pre C post x s s0 s1 ce s2 :
    seq pre s = Some s0 -> reach C s0 = Some s1 -> ev x s1 = (inr ce, s2) -> is_ctl ce = true ->
    blk (pre ++ plug C x :: post) s = (inr ce, s2).
  Proof.
    intros Hp Hr Hx Hc. apply (ctl_propagates (CBlock pre C post) x s s1 ce s2); auto.
    cbn [reach]. rewrite Hp. exact Hr.
  Qed.

  (* the state in which the program's first expression is evaluated: Runtime::resolve has read the
     event root, which consumed one slot of the target's fault schedule *)
  Definition rooted (s : state) : state :=
    mkState (vars s) (Expr.ev s) (md s) (tlog s) (snd (pop_fault s)).
  Definition root_ok (s : state) : Prop := fst (pop_fault s) = false.

  Lemma run_rooted es s : root_ok s ->
    run F binop es s =
    match ev (EBlock es) (rooted s) with
    | (inl v, s') => (Success v, s')
    | (inr (Return v), s') => (Success v, s')
    | (inr (Abort m), s') => (Aborted m, s')
    | (inr Error, s') => (Failed, s')
    | (inr Panic, s') => (Panicked, s')
    end.
  Proof.
    unfold root_ok, run, rooted. destruct (pop_fault s) as [bad fs]. cbn [fst snd]. intros ->. reflexivity.
  Qed.

  Theorem run_ctl pre C post x s s0 s1 ce s2 :
    root_ok s -> seq pre (rooted s) = Some s0 -> reach C s0 = Some s1 ->
    ev x s1 = (inr ce, s2) -> is_ctl ce = true ->
    run F binop (pre ++ plug C x :: post) s =
    (match ce with Return v => Success v | Abort m => Aborted m | _ => Failed end, s2).
  Proof.
    intros Hroot Hp Hr Hx Hc. rewrite (run_rooted _ _ Hroot), eval_block, (block_ctl _ _ _ _ _ _ _ _ _ Hp Hr Hx Hc).
    destruct ce; try discriminate; reflexivity.
  Qed.

  Lemma eval_return e s v s' : ev e s = (inl v, s') -> ev (EReturn e) s = (inr (Return v), s').
  Proof. intros H. cbn [eval]. rewrite H. reflexivity. Qed.

  Lemma body_return pre C post e s1 s1' s2 v s3 :
    seq pre s1 = Some s1' -> reach C s1' = Some s2 -> ev e s2 = (inl v, s3) ->
    blk (pre ++ plug C (EReturn e) :: post) s1 = (inr (Return v), s3).
  Proof. intros Hp Hr He. exact (block_ctl _ _ _ _ _ _ _ _ _ Hp Hr (eval_return _ _ _ _ He) eq_refl). Qed.

  Lemma body_abort pre C post m s1 s1' s2 msg s3 :
    seq pre s1 = Some s1' -> reach C s1' = Some s2 ->
    ev (EAbort m) s2 = (inr (Abort msg), s3) ->
    blk (pre ++ plug C (EAbort m) :: post) s1 = (inr (Abort msg), s3).
  Proof using F binop. intros Hp Hr He. exact (block_ctl _ _ _ _ _ _ _ _ _ Hp Hr He eq_refl). Qed.

  Theorem closure_call_params_restored cf arg ps body s v s' x :
    ev arg s = (inl v, s') ->
    In (Some x) (cparams cf ps) -> (param ps 0 <> param ps 1 \/ param ps 0 = None) ->
    same_var x s' (snd (ev (EClosure cf arg ps body) s)).
  Proof.
    intros Ha Hin Hd. rewrite eval_closure, Ha. apply closure_params_restored; auto.
  Qed.

  Theorem if_true c t f s s' :
    blk c s = (inl (VBool true), s') -> ev (EIf c t f) s = blk t s'.
  Proof. intros H. rewrite eval_if, H. reflexivity. Qed.

  Theorem if_false_else c t fb s s' :
    blk c s = (inl (VBool false), s') -> ev (EIf c t (Some fb)) s = blk fb s'.
  Proof. intros H. rewrite eval_if, H. reflexivity. Qed.

  Theorem if_false_no_else c t s s' :
    blk c s = (inl (VBool false), s') -> ev (EIf c t None) s = (inl VNull, s').
  Proof. intros H. rewrite eval_if, H. reflexivity. Qed.
End EvalProofs.
