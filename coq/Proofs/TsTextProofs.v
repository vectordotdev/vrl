(* Proofs about Model/TsText.v: days_from_civil takes the date of every day number back to it, and on each of
   the four full-precision layouts the modelled parser reads the modelled formatter's output back as the same
   timestamp, for every timestamp chrono can hold. *)
From Coq Require Import String.
From Coq Require Import List NArith ZArith Bool Lia.
From VRL Require Import Base.Bytes Model.ConvRes Model.IntText Model.UnixTs Proofs.ConvResFacts Proofs.IntTextProofs.
From VRL Require Import Model.TsText.
Import ListNotations.
Local Open Scope Z_scope.
(* lia reads div and mod, up to the end of this section only *)
Section DivMod.
Ltac Zify.zify_post_hook ::= Z.div_mod_to_equations.

(* days_from_civil undoes the shift of civil_from_days to years that begin in March (mp = 0 for March) *)
Lemma days_from_civil_march y mp d : 0 <= mp <= 11 ->
  let m := if mp <? 10 then mp + 3 else mp - 9 in
  let yoe := y - y / 400 * 400 in
  days_from_civil (if m <=? 2 then y + 1 else y) m d =
  y / 400 * 146097 + (yoe * 365 + yoe / 4 - yoe / 100 + ((153 * mp + 2) / 5 + d - 1)) - 719468.
Proof.
  intros Hmp. unfold days_from_civil. destruct (Z.ltb_spec mp 10).
  - rewrite (proj2 (Z.leb_gt (mp + 3) 2)), (proj2 (Z.ltb_lt 2 (mp + 3))) by lia. cbv zeta.
    replace (mp + 3 - 3) with mp by lia. reflexivity.
  - rewrite (proj2 (Z.leb_le (mp - 9) 2)), (proj2 (Z.ltb_ge 2 (mp - 9))) by lia. cbv zeta.
    replace (y + 1 - 1) with y by lia. replace (mp - 9 + 9) with mp by lia. reflexivity.
Qed.

(* civil_from_days is a right inverse of days_from_civil, yields a calendar month and day, and a day that chrono
   can hold falls in a year that chrono can hold *)
Lemma civil_from_days_spec z : let '(y, m, d) := civil_from_days z in
  days_from_civil y m d = z /\ 1 <= m <= 12 /\ 1 <= d <= 31
  /\ (secs_in_range (z * 86400) = true -> -262143 <= y <= 262142).
Proof.
  unfold civil_from_days. cbv zeta.
  set (zz := z + 719468). set (era := zz / 146097). set (doe := zz - era * 146097).
  assert (Hdoe : 0 <= doe <= 146096) by (unfold doe, era; lia).
  set (yoe := (doe - doe / 1460 + doe / 36524 - doe / 146096) / 365).
  set (doy := doe - (365 * yoe + yoe / 4 - yoe / 100)).
  assert (Hyoe : 0 <= yoe <= 399 /\ 0 <= doy <= 365) by (unfold doy, yoe; lia).
  set (mp := (5 * doy + 2) / 153).
  assert (Hmp : 0 <= mp <= 11) by (unfold mp; lia).
  rewrite days_from_civil_march by exact Hmp.
  replace ((yoe + era * 400) / 400) with era by lia.
  split; [unfold doy, doe, zz; lia|]. split; [destruct (Z.ltb_spec mp 10); lia|]. split; [unfold mp; lia|].
  rewrite secs_in_range_iff. unfold ts_min_secs, ts_max_secs. intros Hz.
  assert (Hera : -656 <= era <= 655) by (unfold era, zz; lia).
  (* only the first and the last era need a closer look *)
  assert (Hlo : era = -656 -> 256 <= yoe /\ (yoe = 256 -> 306 <= doy)).
  { intros E. assert (93808 <= doe) by (unfold doe, zz in *; lia). unfold yoe, doy. split; lia. }
  assert (Hhi : era = 655 -> yoe <= 142 /\ (yoe = 142 -> doy <= 305)).
  { intros E. assert (doe <= 52169) by (unfold doe, zz in *; lia). unfold yoe, doy. split; lia. }
  destruct (Z.ltb_spec mp 10) as [E1|E1]; [rewrite (proj2 (Z.leb_gt _ 2)) by lia | rewrite (proj2 (Z.leb_le _ 2)) by lia];
    unfold mp in E1; lia.
Qed.

Lemma dchar_digit_char d : 0 <= d < 10 -> dchar d = digit_char d.
Proof. intros H. unfold dchar, digit_char. rewrite (proj2 (Z.ltb_lt d 10)) by lia. reflexivity. Qed.

Lemma pad_length w : forall n, length (pad_digits w n) = w.
Proof. induction w as [|w IH]; intros n; cbn [pad_digits]; [reflexivity|]. rewrite app_length, IH. cbn. lia. Qed.

Lemma pad_uval w : forall n acc, 0 <= n < 10 ^ Z.of_nat w ->
  uval 10 (pad_digits w n) acc = Some (acc * 10 ^ Z.of_nat w + n).
Proof.
  induction w as [|w IH]; intros n acc Hn.
  - cbn in Hn. cbn [pad_digits uval]. f_equal. cbn. lia.
  - cbn [pad_digits]. rewrite uval_app.
    assert (Hp : 10 ^ Z.of_nat (S w) = 10 * 10 ^ Z.of_nat w) by (rewrite Nat2Z.inj_succ, Z.pow_succ_r by lia; reflexivity).
    rewrite IH by (rewrite Hp in Hn; lia).
    cbn [uval]. rewrite dchar_digit_char by lia. rewrite digit_char_val by lia. f_equal. rewrite Hp. lia.
Qed.

Lemma is_digit_of_digit c d : to_digit 10 c = Some d -> is_digit c = true /\ d = Z.of_N c - 48.
Proof. exact (to_digit_dec_test c d). Qed.

(* what may follow a digit string that scan::number reads to its end *)
Definition stops_number (rest : bytes) : Prop :=
  match rest with [] => True | c :: _ => is_digit c = false end.

(* scan::number reads a digit string to its end when the string fills the maximal width or a non-digit follows *)
Lemma number_loop_digits : forall s rest fuel min max i acc v,
  uval 10 s acc = Some v -> 0 <= acc -> v <= i64_max ->
  (min <= i + length s <= max)%nat -> (length s < fuel)%nat ->
  (i + length s = max)%nat \/ stops_number rest ->
  number_loop fuel (s ++ rest) min max i acc = POk v rest.
Proof.
  induction s as [|c s IH]; intros rest fuel min max i acc v Hu Ha Hv Hl Hfuel Hstop;
    cbn [uval app length] in *; (destruct fuel as [|f]; [lia|]); cbn [number_loop].
  - injection Hu as <-. rewrite Nat.add_0_r in *.
    destruct Hstop as [E|Hnd]; [rewrite (proj2 (Nat.leb_le max i)) by lia; reflexivity|].
    destruct (Nat.leb max i); [reflexivity|].
    destruct rest as [|c r]; [reflexivity|]. cbn in Hnd. rewrite Hnd, (proj2 (Nat.ltb_ge i min)) by lia. reflexivity.
  - destruct (to_digit 10 c) as [d|] eqn:D; [|discriminate].
    destruct (is_digit_of_digit c d D) as [Hc Hd]. pose proof (to_digit_range _ _ _ D) as Hr.
    rewrite (proj2 (Nat.leb_gt max i)), Hc, <- Hd by lia.
    assert (Hge : acc * 10 + d <= v) by (eapply uval_ge; [| |exact Hu]; lia).
    rewrite (proj2 (in_i64_iff _)) by (unfold i64_max in Hv; lia).
    apply (IH rest f min max (S i) (acc * 10 + d) v Hu); try lia.
    destruct Hstop; [left; lia | right; assumption].
Qed.

Lemma number_uval s v rest min max : uval 10 s 0 = Some v -> v <= i64_max -> (min <= length s <= max)%nat ->
  length s = max \/ stops_number rest -> number (s ++ rest) min max = POk v rest.
Proof.
  intros Hu Hv Hl Hstop. unfold number. rewrite app_length, (proj2 (Nat.ltb_ge _ min)) by lia.
  apply (number_loop_digits s rest _ min max O 0 v Hu); try exact Hstop; lia.
Qed.

(* a zero-padded field of w digits, read with a maximal width max >= w *)
Lemma number_pad w min max n rest : (min <= w <= max)%nat -> (w <= 18)%nat -> 0 <= n < 10 ^ Z.of_nat w ->
  w = max \/ stops_number rest ->
  number (pad_digits w n ++ rest) min max = POk n rest.
Proof.
  intros Hw Hw18 Hn Hstop. apply number_uval; rewrite ?pad_length; try lia; try exact Hstop.
  - rewrite pad_uval by exact Hn. reflexivity.
  - assert (10 ^ Z.of_nat w <= 10 ^ 18) by (apply Z.pow_le_mono_r; lia). unfold i64_max. lia.
Qed.

(* what a field must start with for the optional white space and sign in front of it to read nothing *)
Definition digit_start (s : bytes) : Prop :=
  match s with [] => False | c :: _ => is_digit c = true end.

Lemma pad_digit_start w : forall n rest, digit_start (pad_digits (S w) n ++ rest).
Proof.
  induction w as [|w IH]; intros n rest.
  - assert (0 <= n mod 10 < 10) by (apply Z.mod_pos_bound; lia).
    apply andb_true_iff; unfold dchar; split; apply N.leb_le; lia.
  - change (pad_digits (S (S w)) n) with (pad_digits (S w) (n / 10) ++ [dchar (n mod 10)]).
    rewrite <- app_assoc. apply IH.
Qed.

Lemma digit_not_ws c : is_digit c = true -> is_ws c = false /\ (128 <=? c)%N = false /\ (c =? 45)%N = false /\ (c =? 43)%N = false.
Proof.
  unfold is_digit, is_ws. rewrite andb_true_iff, !N.leb_le. intros [A B].
  repeat split; try (apply N.eqb_neq; lia); try (apply N.leb_gt; lia).
  apply orb_false_iff; split; [apply andb_false_iff; right; apply N.leb_gt; lia | apply N.eqb_neq; lia].
Qed.

Lemma trim_ascii_head c s : is_ws c = false -> (128 <=? c)%N = false -> trim_start (c :: s) = POk tt (c :: s).
Proof. intros W A. cbn [trim_start]. rewrite W, A. reflexivity. Qed.

Lemma trim_digit_start s : digit_start s -> trim_start s = POk tt s.
Proof. destruct s as [|c s]; intros H; [destruct H | apply trim_ascii_head; apply (digit_not_ws c H)]. Qed.

(* in front of a digit neither white space nor a sign is read, whether or not a sign is allowed *)
Lemma numeric_digit_start w signed s : digit_start s -> numeric w signed s = number s 1 w.
Proof.
  intros H. unfold numeric. rewrite trim_digit_start by exact H. cbn [pbind].
  destruct s as [|c s]; [destruct H|]. destruct (digit_not_ws c H) as (_ & _ & -> & ->).
  destruct signed; reflexivity.
Qed.

(* a zero-padded field of its own width *)
Lemma numeric_pad w signed n rest : (w <= 17)%nat -> 0 <= n < 10 ^ Z.of_nat (S w) ->
  numeric (S w) signed (pad_digits (S w) n ++ rest) = POk n rest.
Proof.
  intros Hw Hn. rewrite numeric_digit_start by apply pad_digit_start. apply number_pad; auto; lia.
Qed.

Lemma numeric2 n rest : 0 <= n < 100 -> numeric 2 false (pad_digits 2 n ++ rest) = POk n rest.
Proof. intros Hn. apply numeric_pad; [lia | exact Hn]. Qed.

(* the digits after the sign of a year outside 0..=9999 *)
Lemma year_digits a : 0 < a <= 262143 ->
  let digs := if a <? 10000 then pad_digits 4 a else match digits_loop 64 10 a [] with Some s => s | None => [] end in
  uval 10 digs 0 = Some a /\ (0 < length digs)%nat.
Proof.
  intros Ha. cbv zeta. destruct (Z.ltb_spec a 10000) as [L|L].
  - rewrite pad_uval, pad_length by (change (10 ^ Z.of_nat 4) with 10000; lia). split; [f_equal|]; lia.
  - destruct (digits_spec 10 ltac:(lia) 64%nat a []) as (s & P & Hs & Hne & Hv); [lia | |].
    { split; [lia|]. assert (10 ^ 6 <= 10 ^ Z.of_nat 64) by (apply Z.pow_le_mono_r; lia). lia. }
    rewrite app_nil_r in Hs. rewrite Hs, Hv. split; [f_equal; lia|]. destruct s; [congruence | cbn; lia].
Qed.

(* the year, which is followed by "-" *)
Lemma numeric_year y rest : -262143 <= y <= 262142 ->
  numeric 4 true (year_text y ++ 45%N :: rest) = POk y (45%N :: rest).
Proof.
  intros Hy. unfold year_text.
  destruct ((0 <=? y) && (y <=? 9999)) eqn:E.
  - apply leb_between in E. apply (numeric_pad 3); lia.
  - rewrite <- not_true_iff_false, leb_between in E.
    destruct (year_digits (Z.abs y) ltac:(lia)) as (Hu & Hl).
    set (digs := if Z.abs y <? 10000 then _ else _) in *.
    assert (Hnum : number (digs ++ 45%N :: rest) 1 (length (digs ++ 45%N :: rest)) = POk (Z.abs y) (45%N :: rest)).
    { apply number_uval; [exact Hu | unfold i64_max; lia | rewrite app_length; lia | right; reflexivity]. }
    unfold numeric. cbn [app]. destruct (Z.ltb_spec y 0); rewrite trim_ascii_head by reflexivity;
      cbn [pbind N.eqb Pos.eqb]; rewrite Hnum; cbn [pbind]; f_equal; lia.
Qed.

Lemma check_range_true lo hi v : lo <= v <= hi -> check_range lo hi v = true.
Proof. apply leb_between. Qed.

(* a separator (after the optional white space of the relaxed RFC 3339 parser) and the two-digit field behind it *)
Lemma sep_field {A} (relaxed : bool) c lo hi n rest (k : Z -> bytes -> pr A) :
  is_ws c = false -> (128 <=? c)%N = false -> lo <= n <= hi -> 0 <= n < 100 ->
  pbind (if relaxed then trim_start (c :: pad_digits 2 n ++ rest) else POk tt (c :: pad_digits 2 n ++ rest)) (fun _ s =>
  pbind (literal c s) (fun _ s => pbind (numeric 2 false s) (fun v s =>
  if negb (check_range lo hi v) then PErr else k v s))) = k n rest.
Proof.
  intros W H Hr Hn. rewrite trim_ascii_head by assumption.
  destruct relaxed; cbn [pbind literal]; rewrite N.eqb_refl; cbn [pbind]; rewrite numeric2 by exact Hn; cbn [pbind];
    rewrite check_range_true by exact Hr; reflexivity.
Qed.

Lemma parse_date_text relaxed y m d rest :
  -262143 <= y <= 262142 -> 1 <= m <= 12 -> 1 <= d <= 31 ->
  parse_date relaxed (year_text y ++ 45%N :: pad_digits 2 m ++ 45%N :: pad_digits 2 d ++ rest) = POk (y, m, d) rest.
Proof.
  intros Hy Hm Hd. unfold parse_date.
  rewrite numeric_year by exact Hy. cbn [pbind].
  unfold in_i32. rewrite (proj2 (leb_between _ _ y)) by lia. cbn [negb].
  rewrite !sep_field by (reflexivity || lia). reflexivity.
Qed.

Lemma parse_hms_text relaxed hh mm ss rest :
  0 <= hh <= 23 -> 0 <= mm <= 59 -> 0 <= ss <= 59 ->
  parse_hms relaxed (pad_digits 2 hh ++ 58%N :: pad_digits 2 mm ++ 58%N :: pad_digits 2 ss ++ rest) = POk (hh, mm, ss) rest.
Proof.
  intros Hh Hm Hs. unfold parse_hms.
  rewrite numeric2 by lia. cbn [pbind]. rewrite check_range_true by lia. cbn [negb].
  rewrite !sep_field by (reflexivity || lia). reflexivity.
Qed.

Lemma nanosecond9_text nanos rest : 0 <= nanos < 1000000000 ->
  nanosecond9_opt (frac9 nanos ++ rest) = POk (Some nanos) rest.
Proof.
  intros Hn. unfold nanosecond9_opt, frac9. cbn [app N.eqb Pos.eqb].
  rewrite number_pad by (auto; lia). reflexivity.
Qed.

Lemma nanosecond_digits w k rest : (1 <= w <= 9)%nat -> 0 <= k < 10 ^ Z.of_nat w -> stops_number rest ->
  nanosecond_opt (46%N :: pad_digits w k ++ rest) = POk (Some (k * scale9 w)) rest.
Proof.
  intros Hw Hk Hr. unfold nanosecond_opt. cbn [N.eqb Pos.eqb].
  rewrite number_pad by (try lia; try exact Hk; right; exact Hr). cbn [pbind].
  rewrite app_length, pad_length, Nat.add_sub. destruct rest as [|c rest]; [reflexivity|].
  cbn in Hr. cbn [skip_digits]. rewrite Hr. reflexivity.
Qed.

(* the fraction of the automatic formats, followed by the sign of the offset *)
Lemma nanosecond_auto_text nanos rest : 0 <= nanos < 1000000000 ->
  exists o, nanosecond_opt (frac_auto nanos ++ 43%N :: rest) = POk o (43%N :: rest)
            /\ match o with Some n => n | None => 0 end = nanos.
Proof.
  intros Hn. unfold frac_auto.
  destruct (Z.eqb_spec nanos 0) as [E0|E0]; [exists None; split; [reflexivity | lia]|].
  destruct (Z.eqb_spec (nanos mod 1000000) 0) as [E1|E1]; [|destruct (Z.eqb_spec (nanos mod 1000) 0) as [E2|E2]];
    eexists; cbn [app]; (rewrite nanosecond_digits by (cbn; lia || reflexivity)); (split; [reflexivity|]); cbn [scale9]; lia.
Qed.

(* the fields format_layout prints for an instant chrono can hold are in range, and resolve back to the instant *)
Lemma instant_fields ns : ts_in_range ns = true ->
  let secs := ns / 1000000000 in
  let sod := secs mod 86400 in
  let '(y, m, d) := civil_from_days (secs / 86400) in
  (-262143 <= y <= 262142 /\ 1 <= m <= 12 /\ 1 <= d <= 31)
  /\ (0 <= sod / 3600 <= 23 /\ 0 <= (sod / 60) mod 60 <= 59 /\ 0 <= sod mod 60 <= 59)
  /\ forall nano_opt, match nano_opt with Some n => n | None => 0 end = ns mod 1000000000 ->
       resolve (y, m, d) (sod / 3600, (sod / 60) mod 60, sod mod 60) nano_opt 0 = ROk ns.
Proof.
  unfold ts_in_range. intros Hr. cbv zeta.
  set (secs := ns / 1000000000) in *. set (days := secs / 86400). set (sod := secs mod 86400).
  pose proof (civil_from_days_spec days) as Hc.
  destruct (civil_from_days days) as [[y m] d] eqn:Ec. destruct Hc as (Hdc & Hm & Hdd & Hyr).
  assert (Hs : 0 <= sod < 86400) by (unfold sod; apply Z.mod_pos_bound; lia).
  assert (Hy : -262143 <= y <= 262142).
  { apply Hyr. revert Hr. rewrite !secs_in_range_iff. unfold ts_min_secs, ts_max_secs, days. lia. }
  split; [tauto|]. split; [lia|]. intros nano_opt Hnano.
  unfold resolve. rewrite Hnano.
  assert (Hv : valid_ymd y m d = true).
  { unfold valid_ymd. rewrite Hdc, Ec, !Z.eqb_refl.
    repeat (apply andb_true_iff; split); try (apply Z.leb_le; lia); reflexivity. }
  rewrite Hv. cbn [negb]. change ((-86400 <? 0) && (0 <? 86400)) with true. cbn [negb].
  rewrite (proj2 (Z.eqb_neq (sod mod 60) 60)), Hdc by lia.
  replace (days * 86400 + sod / 3600 * 3600 + sod / 60 mod 60 * 60 + sod mod 60 - 0) with secs by (unfold days, sod; lia).
  rewrite Hr. f_equal. unfold secs. lia.
Qed.

Theorem layout_roundtrip l ns : ts_in_range ns = true -> parse_layout l (format_layout l ns) = Some (ROk ns).
Proof.
  intros Hr. pose proof (instant_fields ns Hr) as F. unfold format_layout. cbv zeta in *.
  set (nanos := ns mod 1000000000) in *.
  destruct (civil_from_days _) as [[y m] d]. destruct F as ((Hy & Hm & Hd) & (Hhh & Hmm & Hss) & Hres).
  assert (Hn : 0 <= nanos < 1000000000) by (apply Z.mod_pos_bound; lia).
  (* both automatic layouts end in the same fraction and offset *)
  destruct (nanosecond_auto_text nanos [48; 48; 58; 48; 48]%N Hn) as (o & Ho & Hov).
  change (43%N :: [48; 48; 58; 48; 48]%N) with (ascii_bytes "+00:00") in Ho.
  destruct l; unfold parse_layout; rewrite parse_date_text by assumption; cbn [finish literal N.eqb Pos.eqb orb negb].
  2, 3: (* %Y-%m-%dT%H:%M:%S%.f%:z and %+; the offset "+00:00" is evaluated: it is not "UTC", and timezone_offset reads it *)
    rewrite parse_hms_text by assumption; cbn [finish]; rewrite Ho; cbn -[resolve]; f_equal; apply Hres; exact Hov.
  - (* %Y-%m-%dT%H:%M:%S%.9f%z *)
    rewrite parse_hms_text by assumption. cbn [finish].
    rewrite nanosecond9_text by assumption. cbn [finish].
    cbn -[resolve]. (* the offset "+0000" is evaluated *)
    f_equal. apply Hres. reflexivity.
  - (* %Y-%m-%d %H:%M:%S.%f *)
    change (trim_start (32%N :: ?s)) with (trim_start s). rewrite trim_digit_start by apply pad_digit_start. cbn [finish].
    rewrite parse_hms_text by assumption. cbn [finish literal N.eqb Pos.eqb].
    rewrite <- (app_nil_r (pad_digits 9 nanos)), (numeric_pad 8) by (exact Hn || lia). cbn [finish].
    f_equal. apply Hres. reflexivity.
Qed.
End DivMod.
