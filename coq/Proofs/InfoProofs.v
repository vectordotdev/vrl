(* What a run does to the target stays within what the compiler reports (queries / assigns of
   Model/Info.v).  One induction over expressions, for any relation between the state before and
   the state after that tolerates the reported operations (Section Generic); it is instantiated with
   the log of Target operations here (C16) and with "this location keeps its value" in
   ReadOnlyProofs.v (C15).  For all F, binop, programs, states and fault schedules. *)
From Coq Require Import List.
From VRL Require Import Base.Value Model.ValueCrud Model.Expr Model.Eval Model.Info Proofs.ListFacts Proofs.ExprInd Proofs.EvalProofs.
Import ListNotations.

Section Generic.
  (* T relates the state before some evaluation to the state after it.  It has to survive changes
     of the variables and to compose, and to tolerate a Target operation at the reported queries
     satisfying okq and the reported assignment paths satisfying oka.  Then it holds across the
     evaluation of every expression all of whose reported queries and paths satisfy okq and oka.
     T_vars lists everything a change of variables leaves alone; each instance needs part of it
     (the log: tlog; "this location keeps its value": ev and md). *)
  Variable T : state -> state -> Prop.
  Variable okq : qent -> Prop.
  Variable oka : prefix * path -> Prop.
  Hypothesis T_vars : forall s s', ev s' = ev s -> md s' = md s -> tlog s' = tlog s -> T s s'.
  Hypothesis T_trans : forall s1 s2 s3, T s1 s2 -> T s2 s3 -> T s1 s3.
  Hypothesis T_get : forall s pfx p, okq (None, (pfx, p)) -> T s (snd (t_get s pfx p)).
  Hypothesis T_insert : forall s pfx p v, oka (pfx, p) -> T s (t_insert s pfx p v).
  Hypothesis T_remove : forall s pfx p c, okq (Some c, (pfx, p)) -> T s (snd (t_remove s pfx p c)).

  Variable F : fname -> list value -> option value.
  Variable binop : opcode -> value -> value -> option value.
  Notation evl := (eval F binop).

  Lemma T_refl s : T s s.
  Proof. apply T_vars; reflexivity. Qed.

  Lemma target_insert_T s t v : Forall oka (tgt_paths t) -> T s (target_insert s t v).
  Proof.
    destruct t as [|x p|pfx p]; cbn [target_insert tgt_paths]; intros H.
    - apply T_refl.
    - destruct p; [|destruct (var_get (vars s) x)]; apply T_vars; reflexivity.
    - apply T_insert, (Forall_inv H).
  Qed.

  (* closures: the runners do not touch the target themselves *)
  Lemma bind_param_T s p a : T s (snd (bind_param s p a)).
  Proof. destruct p; apply T_vars; reflexivity. Qed.
  Lemma cleanup_param_T s p o : T s (cleanup_param s p o).
  Proof. destruct p, o; apply T_vars; reflexivity. Qed.

  Lemma run2_T body p0 p1 a b : (forall s, T s (snd (body s))) ->
    forall s, T s (snd (run2 body p0 p1 a b s)).
  Proof.
    intros Hb s. unfold run2. pose proof (bind_param_T s p0 a) as B0.
    destruct (bind_param s p0 a) as [old0 s1].
    pose proof (bind_param_T s1 p1 b) as B1.
    destruct (bind_param s1 p1 b) as [old1 s2]. specialize (Hb s2).
    destruct (body s2) as [r s3]. cbn [snd] in *.
    exact (T_trans _ _ _ B0 (T_trans _ _ _ B1 (T_trans _ _ _ Hb
             (T_trans _ _ _ (cleanup_param_T _ _ _) (cleanup_param_T _ _ _))))).
  Qed.

  Definition respects_T (e : expr) : Prop :=
    Forall okq (queries e) -> Forall oka (assigns e) -> forall s, T s (snd (evl e s)).

  Lemma operands_T es :
    Forall respects_T es -> Forall okq (queries_l es) -> Forall oka (assigns_l es) ->
    forall s, T s (snd (loop evl es s)).
  Proof.
    intros H Hq Ha. apply (loop_state T T_refl T_trans). unfold queries_l, assigns_l in *.
    induction H as [|e es He _ IH]; constructor; cbn [flat_map] in Hq, Ha;
      apply Forall_app in Hq as [Hq1 Hq2], Ha as [Ha1 Ha2]; auto.
  Qed.

  Lemma blk_T es :
    Forall respects_T es -> Forall okq (queries_l es) -> Forall oka (assigns_l es) ->
    forall s, T s (snd (blk F binop es s)).
  Proof.
    intros H Hq Ha s. destruct es as [|e es]; [apply T_refl|].
    rewrite (blk_loop _ _ _ VNull), lift_state by discriminate. exact (operands_T _ H Hq Ha s).
  Qed.

  Theorem eval_T e : respects_T e.
  Proof.
    induction e using expr_ind'; intros Hq Ha s; cbn [queries assigns] in Hq, Ha; try apply T_refl.
    (* one operand, evaluated first, and nothing else that touches the state *)
    all: try solve [specialize (IHe Hq Ha s); cbn [eval]; destruct (evl e s) as [[v|er] s']; exact IHe].
    (* a query and exists(): one read of the target *)
    all: try solve [cbn [eval]; pose proof (T_get s pfx p (Forall_inv Hq)) as G; destruct (t_get s pfx p); exact G].
    - rewrite eval_arr, arr_go_loop, lift_state. exact (operands_T es H Hq Ha s).
    - rewrite eval_obj, obj_go_loop, lift_state.
      apply operands_T; [apply Forall_map; exact H | |]; unfold queries_l, assigns_l; rewrite flat_map_map; assumption.
    - exact (blk_T es H Hq Ha s).
    - (* if *)
      apply Forall_app in Hq as [Hq1 Hq2], Ha as [Ha1 Ha2].
      apply Forall_app in Hq2 as [Hq2 Hq3], Ha2 as [Ha2 Ha3].
      rewrite eval_if. pose proof (blk_T c H Hq1 Ha1 s) as Hc.
      destruct (blk F binop c s) as [[v|er] s']; [|exact Hc].
      destruct (try_boolean v) as [[|]|]; [| |exact Hc].
      + exact (T_trans _ _ _ Hc (blk_T t H0 Hq2 Ha2 s')).
      + destruct f as [fb|]; [|exact Hc]. exact (T_trans _ _ _ Hc (blk_T fb H1 Hq3 Ha3 s')).
    - (* op: the state after a, or after b run from there *)
      apply Forall_app in Hq as [Hq1 Hq2], Ha as [Ha1 Ha2].
      pose proof (IHe1 Hq1 Ha1 s) as H1. specialize (IHe2 Hq2 Ha2).
      destruct o; rewrite ?eval_or, ?eval_and, ?eval_err, ?eval_plain by reflexivity;
        destruct (evl e1 s) as [[v|[ | | | ]] s']; try exact H1; try destruct (falsy v); try exact H1;
        specialize (IHe2 s'); destruct (evl e2 s') as [[w|er] s'']; exact (T_trans _ _ _ H1 IHe2).
    - (* assign *)
      apply Forall_app in Ha as [Ht Ha]. specialize (IHe Hq Ha s). cbn [eval].
      destruct (evl e s) as [[v|er] s']; [|exact IHe]. exact (T_trans _ _ _ IHe (target_insert_T s' t v Ht)).
    - (* assign inf *)
      apply Forall_app in Ha as [Hok Ha]. apply Forall_app in Ha as [Her Ha].
      specialize (IHe Hq Ha s). rewrite eval_assign_inf.
      destruct (evl e s) as [[v|[ | | | ]] s']; try exact IHe;
        exact (T_trans _ _ _ IHe (T_trans _ _ _ (target_insert_T _ ok _ Hok) (target_insert_T _ er _ Her))).
    - (* abort *)
      destruct m as [m|]; [|apply T_refl].
      specialize (H Hq Ha s). cbn [eval]. destruct (evl m s) as [[[]|er] s']; exact H.
    - rewrite eval_call, call_go_loop. pose proof (operands_T args H Hq Ha s) as Hl.
      destruct (loop evl args s) as [[vs|er] s']; exact Hl.
    - cbn [eval]. pose proof (T_remove s pfx p c (Forall_inv Hq)) as G. destruct (t_remove s pfx p c). exact G.
    - cbn [eval]. destruct (var_get (vars s) x); [destruct (remove v p c)|]; apply T_vars; reflexivity.
    - (* closure *)
      apply Forall_app in Hq as [Hq1 Hq2], Ha as [Ha1 Ha2].
      specialize (IHe Hq1 Ha1 s). rewrite eval_closure. destruct (evl e s) as [[v|er] s']; [|exact IHe].
      apply (T_trans _ _ _ IHe), (run_closure_state T T_refl T_trans). intros a b s0 r s1 E.
      change s1 with (snd (r, s1)). rewrite <- E. apply run2_T. exact (blk_T body H Hq2 Ha2).
  Qed.

  (* program level: everything Runtime::resolve's run of the program does to the target *)
  Theorem run_T es s :
    Forall okq (queries_l es) -> Forall oka (assigns_l es) -> T s (snd (run F binop es s)).
  Proof.
    intros Hq Ha. unfold run. destruct (pop_fault s) as [bad fs]. destruct bad.
    - apply T_vars; reflexivity.
    - pose proof (eval_T (EBlock es) Hq Ha (mkState (vars s) (ev s) (md s) (tlog s) fs)) as H.
      apply T_trans with (s2 := mkState (vars s) (ev s) (md s) (tlog s) fs); [apply T_vars; reflexivity|].
      destruct (evl (EBlock es) _) as [[v|[ | | | ]] s']; exact H.
  Qed.
End Generic.

(* C16: the log of Target operations grows by operations that the report accounts for *)
Definition within (Q : list qent) (A : list (prefix * path)) (s s' : state) : Prop :=
  exists new, tlog s' = new ++ tlog s /\ Forall (logged_ok Q A) new.

Lemma within_vars Q A s s' : ev s' = ev s -> md s' = md s -> tlog s' = tlog s -> within Q A s s'.
Proof. intros _ _ H. exists []. split; auto. Qed.

Lemma within_trans Q A s1 s2 s3 : within Q A s1 s2 -> within Q A s2 s3 -> within Q A s1 s3.
Proof.
  intros [n1 [E1 F1]] [n2 [E2 F2]]. exists (n2 ++ n1). split.
  - rewrite E2, E1, app_assoc. reflexivity.
  - apply Forall_app; auto.
Qed.

Lemma within_op Q A s s' t : tlog s' = t :: tlog s -> logged_ok Q A t -> within Q A s s'.
Proof. intros E H. exists [t]. split; [exact E|]. constructor; [exact H|constructor]. Qed.

Lemma t_get_within Q A s pfx p : In (None, (pfx, p)) Q -> within Q A s (snd (t_get s pfx p)).
Proof.
  intros H. unfold t_get. destruct (pop_fault s) as [bad fs].
  apply (within_op _ _ _ _ (TGet pfx p)); [reflexivity|]. exact (in_map snd _ _ H).
Qed.

Lemma t_insert_within Q A s pfx p v : In (pfx, p) A -> within Q A s (t_insert s pfx p v).
Proof.
  intros H. unfold t_insert. destruct (pop_fault s) as [bad fs].
  apply (within_op _ _ _ _ (TIns pfx p)); [destruct pfx; reflexivity|exact H].
Qed.

Lemma t_remove_within Q A s pfx p c : In (Some c, (pfx, p)) Q -> within Q A s (snd (t_remove s pfx p c)).
Proof.
  intros H. unfold t_remove. destruct (pop_fault s) as [[|] fs]; [|destruct (remove (tval s pfx) p c)];
    apply (within_op _ _ _ _ (TRem pfx p c)); try exact H; destruct pfx; reflexivity.
Qed.

Theorem eval_within F binop e : forall s, within (queries e) (assigns e) s (snd (eval F binop e s)).
Proof.
  apply (eval_T (within (queries e) (assigns e)) (fun q => In q (queries e)) (fun a => In a (assigns e))
           (within_vars _ _) (within_trans _ _) (t_get_within _ _) (t_insert_within _ _) (t_remove_within _ _));
    apply Forall_forall; auto.
Qed.

Theorem run_within F binop es s : within (queries_l es) (assigns_l es) s (snd (run F binop es s)).
Proof.
  apply (run_T (within (queries_l es) (assigns_l es)) (fun q => In q (queries_l es)) (fun a => In a (assigns_l es))
           (within_vars _ _) (within_trans _ _) (t_get_within _ _) (t_insert_within _ _) (t_remove_within _ _));
    apply Forall_forall; auto.
Qed.
