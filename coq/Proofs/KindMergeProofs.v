(* Soundness of Kind::union / merge_keep(_, false) with respect to `member`. *)
From Coq Require Import List ZArith Bool.
From VRL Require Import Base.Bytes Model.Kind Model.KindCrud Model.KindDomains Proofs.KindBasics.
Import ListNotations.

Lemma implb'_orb_l a b : implb' a (a || b) = true.
Proof. destruct a; reflexivity. Qed.

Lemma implb'_orb_r a b : implb' b (a || b) = true.
Proof. destruct a, b; reflexivity. Qed.

Lemma inf_or_superset_l i j : inf_superset (inf_or i j) i = true.
Proof. unfold inf_superset, inf_or. cbn. rewrite !implb'_orb_l. reflexivity. Qed.

Lemma inf_or_superset_r i j : inf_superset (inf_or i j) j = true.
Proof. unfold inf_superset, inf_or. cbn. rewrite !implb'_orb_r. reflexivity. Qed.

(* an exact unknown meets an infinite one and is dropped: nothing is lost inside `ucompat` *)
Lemma absorbed_sound x j v : inf_is_any j || negb (contains_any_defined x) = true ->
  member v x = true \/ member v (kind_of_inf j) = true -> member v (kind_of_inf j) = true.
Proof.
  intros Hc [Hm|Hm]; auto. apply orb_true_iff in Hc. destruct Hc as [Hc|Hc].
  - apply inf_is_any_eq in Hc; subst. apply member_inf_any.
  - apply negb_true_iff in Hc. rewrite (not_defined_no_member Hc) in Hm. discriminate.
Qed.

(* Collection::merge without overwrite, for any function U on kinds that is sound on a domain C *)
Section CMerge.
  Variable U : kind -> kind -> kind.
  Variable C : kind -> kind -> bool.
  Hypothesis HU : forall x y v, C x y = true ->
    member v x = true \/ member v y = true -> member v (U x y) = true.
  Hypothesis HUu : forall x y,
    p_undefined (prims_of x) = true \/ p_undefined (prims_of y) = true -> p_undefined (prims_of (U x y)) = true.

  Section Keyed.
  Context {K : Type}.
  Variable keqb : K -> K -> bool.
  Variable kcmp : K -> K -> comparison.
  Hypothesis keqb_spec : forall a b, keqb a b = true <-> a = b.
  Hypothesis kcmp_spec : forall a b, kcmp a b = Eq <-> a = b.

  (* the known map of the merged collection, key by key *)
  Lemma aget_cmerge (M : kind -> kind -> kind) ow (l r : coll_ K kind) key :
    aget keqb (known (cmerge keqb kcmp M U ow l r)) key =
    match aget keqb (known l) key with
    | Some sk => Some (merge_self_entry keqb U ow r key sk)
    | None =>
        match aget keqb (known r) key with
        | Some ok => Some (merge_other_entry U ow (unknown_kind l) ok)
        | None => None
        end
    end.
  Proof.
    unfold cmerge. cbn [known].
    rewrite (aget_aset_all keqb kcmp keqb_spec kcmp_spec).
    rewrite (aget_map_val keqb (merge_other_entry U ow (unknown_kind l))).
    rewrite (aget_filter keqb keqb_spec (fun k => negb (ahas keqb (known l) k))).
    rewrite (aget_amap keqb keqb_spec).
    unfold ahas. destruct (aget keqb (known l) key) as [sk|] eqn:El; cbn.
    - reflexivity.
    - destruct (aget keqb (known r) key); reflexivity.
  Qed.

  Lemma umerge_sound (l r : unk) v : ucompat C l r = true ->
    member v (unknown_kind_u l) = true \/ member v (unknown_kind_u r) = true ->
    member v (unknown_kind_u (umerge U l r)) = true.
  Proof.
    destruct l as [x|i], r as [y|j]; cbn [ucompat umerge];
      rewrite ?member_unknown_kind_exact, ?member_unknown_kind_inf; intros Hc Hm.
    - apply HU; auto.
    - apply (absorbed_sound x j v Hc Hm).
    - apply (absorbed_sound y i v Hc). tauto.
    - destruct Hm as [Hm|Hm]; (eapply member_inf_mono; [|exact Hm]);
        [apply inf_or_superset_l | apply inf_or_superset_r].
  Qed.

  (* A key only one side knows.  The other side's unknown kind takes part in the union, or it has no
     defined state: then it has no member, and admits undefined as or_undefined x does. *)
  Lemma one_sided_sound x (c : coll_ K kind) (d : bool) v : member v x = true \/ member v (unknown_kind c) = true ->
    (if contains_any_defined (unknown_kind c) then C x (unknown_kind c) else d) = true ->
    member v (if contains_any_defined (unknown_kind c) then U x (unknown_kind c) else or_undefined x) = true.
  Proof.
    intros Hx Hcx. destruct (contains_any_defined (unknown_kind c)) eqn:Hd; [apply HU; auto|].
    rewrite member_or_undefined. destruct Hx as [Hx|Hx]; auto.
    rewrite (not_defined_no_member Hd) in Hx. discriminate.
  Qed.

  Lemma one_sided_undefined x (c : coll_ K kind) :
    p_undefined (prims_of (if contains_any_defined (unknown_kind c) then U x (unknown_kind c) else or_undefined x)) = true.
  Proof.
    destruct (contains_any_defined (unknown_kind c)); [|apply p_undefined_or_undefined].
    apply HUu. right. apply p_undefined_unknown_kind.
  Qed.

  (* what the merged collection assigns to a key contains what either operand assigns to it *)
  Lemma coll_at_cmerge (l r : coll_ K kind) key v : ccompat keqb C l r = true ->
    member v (coll_at keqb l key) = true \/ member v (coll_at keqb r key) = true ->
    member v (coll_at keqb (cmerge keqb kcmp U U false l r) key) = true.
  Proof.
    unfold ccompat. rewrite !andb_true_iff, !forallb_forall. intros [[Hu Hl] Hr] Hm.
    unfold coll_at at 1. rewrite aget_cmerge. unfold coll_at in Hm. unfold merge_self_entry, merge_other_entry.
    destruct (aget keqb (known l) key) as [sk|] eqn:El.
    - specialize (Hl _ (aget_in keqb keqb_spec El)). cbn [fst snd] in Hl.
      destruct (aget keqb (known r) key) as [ok|]; [apply HU; auto|]. apply (one_sided_sound sk r true); auto.
    - destruct (aget keqb (known r) key) as [ok|] eqn:Er.
      + specialize (Hr _ (aget_in keqb keqb_spec Er)). cbn [fst snd] in Hr. unfold ahas in Hr. rewrite El in Hr.
        cbn [is_some orb] in Hr. apply (one_sided_sound ok l true); [tauto | exact Hr].
      + unfold unknown_kind, cmerge. cbn [unknown]. apply umerge_sound; auto.
  Qed.

  Lemma undefined_cmerge (l r : coll_ K kind) key :
    p_undefined (prims_of (coll_at keqb l key)) = true \/ p_undefined (prims_of (coll_at keqb r key)) = true ->
    p_undefined (prims_of (coll_at keqb (cmerge keqb kcmp U U false l r) key)) = true.
  Proof.
    intros Hm. unfold coll_at at 1. rewrite aget_cmerge. unfold coll_at in Hm.
    unfold merge_self_entry, merge_other_entry.
    destruct (aget keqb (known l) key) as [sk|], (aget keqb (known r) key) as [ok|];
      [apply HUu; exact Hm | apply one_sided_undefined | apply one_sided_undefined | apply p_undefined_unknown_kind].
  Qed.

  Lemma fits_cmerge has lacks (l r : coll_ K kind) : ccompat keqb C l r = true ->
    fits keqb has lacks l \/ fits keqb has lacks r -> fits keqb has lacks (cmerge keqb kcmp U U false l r).
  Proof.
    intros Hc Hm. split.
    - intros key w Hw. apply coll_at_cmerge; auto. destruct Hm as [[H _]|[H _]]; auto.
    - intros key Hk. apply undefined_cmerge. destruct Hm as [[_ H]|[_ H]]; auto.
  Qed.
  End Keyed.

  Lemma arr_ok_cmerge vs (l r : acoll) : ccompat Nat.eqb C l r = true ->
    arr_ok vs l = true \/ arr_ok vs r = true ->
    arr_ok vs (cmerge Nat.eqb Nat.compare U U false l r) = true.
  Proof. rewrite !arr_ok_fits. apply (fits_cmerge Nat.eqb Nat.compare Nat.eqb_eq Nat.compare_eq_iff). Qed.

  Lemma obj_ok_cmerge kvs (l r : ocoll) : ccompat bytes_eqb C l r = true ->
    obj_ok kvs l = true \/ obj_ok kvs r = true ->
    obj_ok kvs (cmerge bytes_eqb bytes_cmp U U false l r) = true.
  Proof. rewrite !obj_ok_fits. apply (fits_cmerge bytes_eqb bytes_cmp bytes_eqb_eq bytes_cmp_eq). Qed.
End CMerge.

Lemma undefined_merge_f n ow x y :
  p_undefined (prims_of x) = true \/ p_undefined (prims_of y) = true ->
  p_undefined (prims_of (merge_f n ow x y)) = true.
Proof.
  destruct n; cbn; auto. intros [H|H]; rewrite H; auto using orb_true_r.
Qed.

(* a container state of the merge: present if either operand has it, merged if both do *)
Lemma merge_opt_sound {A} (ok : A -> bool) (f : A -> A -> A) (cp : A -> A -> bool) a b :
  (forall x y, cp x y = true -> ok x = true \/ ok y = true -> ok (f x y) = true) ->
  copt cp a b = true ->
  match a with Some x => ok x | None => false end = true \/ match b with Some y => ok y | None => false end = true ->
  match merge_opt f a b with Some z => ok z | None => false end = true.
Proof. destruct a, b; cbn; intros Hf Hc [H|H]; auto; discriminate. Qed.

Theorem merge_f_union_sound : forall n a b v,
  compat_f n a b = true ->
  member v a = true \/ member v b = true -> member v (merge_f n false a b) = true.
Proof.
  induction n as [|n IH]; intros a b v Hc Hm.
  - apply member_k_any.
  - cbn [compat_f] in Hc. apply andb_true_iff in Hc. destruct Hc as [Hca Hco].
    (* a scalar is a member by its flag, and the flags of the merge are the disjunctions *)
    destruct v; try (cbn in *; destruct Hm as [H|H]; rewrite H; auto using orb_true_r; fail).
    + rewrite !member_obj in *. cbn [merge_f obj_of].
      apply (merge_opt_sound (obj_ok kvs) _ (ccompat bytes_eqb (compat_f n))); auto.
      intros x y. apply (obj_ok_cmerge (merge_f n false) (compat_f n) IH). intros; apply undefined_merge_f; auto.
    + rewrite !member_arr in *. cbn [merge_f arr_of].
      apply (merge_opt_sound (arr_ok vs) _ (ccompat Nat.eqb (compat_f n))); auto.
      intros x y. apply (arr_ok_cmerge (merge_f n false) (compat_f n) IH). intros; apply undefined_merge_f; auto.
Qed.

Theorem union_sound a b v :
  union_compat a b = true -> member v a = true \/ member v b = true -> member v (union a b) = true.
Proof. apply merge_f_union_sound. Qed.

Lemma union_undefined x y :
  p_undefined (prims_of x) = true \/ p_undefined (prims_of y) = true -> p_undefined (prims_of (union x y)) = true.
Proof. apply undefined_merge_f. Qed.
