(* Proofs about Model/DdSearch.v (C30): integer bounds are printed and read back exactly. *)
From Coq Require Import List NArith ZArith Bool Lia.
From VRL Require Import Base.Bytes Model.DdNode Model.DdSearch Proofs.DdSearchProofs.
Import ListNotations.
Local Open Scope N_scope.

Definition all_digits (s : bytes) : bool := forallb is_digit s.

Lemma is_digit_spec c : is_digit c = true <-> 48 <= c <= 57.
Proof. unfold is_digit. rewrite andb_true_iff, !N.leb_le. tauto. Qed.

Lemma dec_value_app a b acc : dec_value (a ++ b) acc = dec_value b (dec_value a acc).
Proof. revert acc; induction a as [|c a IH]; intros acc; cbn; auto. Qed.

Definition digit_of (d : Z) : N := Z.to_N d + 48.

Lemma digit_of_ok d : (0 <= d < 10)%Z -> is_digit (digit_of d) = true /\ Z.of_N (digit_of d - 48) = d.
Proof.
  intros H. unfold digit_of. split.
  - apply is_digit_spec. lia.
  - replace (Z.to_N d + 48 - 48) with (Z.to_N d) by lia. rewrite Z2N.id; lia.
Qed.

(* pos_digits writes the decimal digits of n in front of acc *)
Lemma pos_digits_spec fuel : forall n acc,
  (0 < n < 2 ^ Z.of_nat fuel)%Z ->
  exists ds, pos_digits fuel n acc = ds ++ acc /\ all_digits ds = true /\ nonempty ds = true /\
             dec_value ds 0 = n.
Proof.
  induction fuel as [|f IH]; intros n acc H.
  - cbn in H. lia.
  - cbn [pos_digits]. fold (digit_of (n mod 10)).
    assert (0 <= n mod 10 < 10)%Z as Hd by (apply Z.mod_pos_bound; lia).
    destruct (digit_of_ok _ Hd) as [D1 D2].
    destruct (Z.eqb_spec (n / 10) 0) as [Hq|Hq].
    + exists [digit_of (n mod 10)]. repeat split; cbn; auto.
      * rewrite D1. reflexivity.
      * rewrite D2. rewrite (Z.div_mod n 10) at 2 by lia. rewrite Hq. lia.
    + assert (0 < n / 10 < 2 ^ Z.of_nat f)%Z as Hq'.
      { split.
        - assert (0 <= n / 10)%Z by (apply Z.div_pos; lia). lia.
        - rewrite Nat2Z.inj_succ, Z.pow_succ_r in H by lia.
          apply Z.div_lt_upper_bound; lia. }
      destruct (IH (n / 10)%Z (digit_of (n mod 10) :: acc) Hq') as (ds & E & A & N & V).
      exists (ds ++ [digit_of (n mod 10)]). repeat split.
      * rewrite E, <- app_assoc. reflexivity.
      * unfold all_digits in *. rewrite forallb_app, A. cbn. rewrite D1. reflexivity.
      * destruct ds; [discriminate | reflexivity].
      * rewrite dec_value_app, V. cbn. rewrite D2. rewrite (Z.div_mod n 10) at 3 by lia. lia.
Qed.

Lemma pos_digits_top n :
  (0 <= n)%Z ->
  exists ds, pos_digits (S (Z.to_nat (Z.log2 n))) n [] = ds /\ all_digits ds = true /\ nonempty ds = true /\
             dec_value ds 0 = n.
Proof.
  intros H. destruct (Z.eq_dec n 0) as [->|Hn].
  - exists [48]. repeat split.
  - destruct (pos_digits_spec (S (Z.to_nat (Z.log2 n))) n []) as (ds & E & A & N & V).
    { split; [lia|]. rewrite Nat2Z.inj_succ, Z2Nat.id by apply Z.log2_nonneg.
      apply Z.log2_spec. lia. }
    exists ds. rewrite app_nil_r in E. auto.
Qed.

(* the decimal text of z: an optional minus and a non-empty run of digits whose value is |z| *)
Lemma dec_of_Z_shape z :
  exists d ds, dec_of_Z z = (if (z <? 0)%Z then [45] else []) ++ d :: ds /\ all_digits (d :: ds) = true /\
               dec_value (d :: ds) 0 = Z.abs z.
Proof.
  unfold dec_of_Z. destruct (Z.ltb_spec z 0) as [Hn|Hp];
    [destruct (pos_digits_top (- z)%Z) as (ds & E & A & N & V); [lia|]
    | destruct (pos_digits_top z Hp) as (ds & E & A & N & V)];
    (destruct ds as [|d ds]; [discriminate|]; exists d, ds; rewrite E, V; repeat split; auto; lia).
Qed.

Lemma digits_app ds rest :
  all_digits ds = true -> (match rest with [] => true | c :: _ => negb (is_digit c) end) = true ->
  digits (ds ++ rest) = (ds, rest).
Proof.
  intros A R. induction ds as [|c ds IH].
  - destruct rest as [|c r]; [reflexivity|]. cbn. apply negb_true_iff in R. rewrite R. reflexivity.
  - cbn in A. apply andb_true_iff in A as [A1 A2]. cbn. rewrite A1, IH; auto.
Qed.

Lemma digits_all ds : all_digits ds = true -> digits ds = (ds, []).
Proof. intros A. rewrite <- (app_nil_r ds) at 1. apply digits_app; auto. Qed.

Definition i64_range (z : Z) : bool := ((- 2 ^ 63 <=? z) && (z <? 2 ^ 63))%Z.

Theorem parse_i64_dec z : i64_range z = true -> parse_i64 (dec_of_Z z) = Some z.
Proof.
  intros R. destruct (dec_of_Z_shape z) as (d & ds & -> & A & V). pose proof A as Ad.
  cbn [all_digits forallb] in Ad. apply andb_true_iff in Ad as [Ad _].
  assert (split_sign ((if (z <? 0)%Z then [45] else []) ++ d :: ds) = ((z <? 0)%Z, d :: ds)) as Hs.
  { destruct (z <? 0)%Z; [reflexivity|]. cbn.
    rewrite (class_neq is_digit true d 45 Ad eq_refl), (class_neq is_digit true d 43 Ad eq_refl). reflexivity. }
  unfold parse_i64. rewrite Hs, (digits_all _ A), V.
  replace (if (z <? 0)%Z then (- Z.abs z)%Z else Z.abs z) with z by (destruct (Z.ltb_spec z 0); lia).
  unfold i64_range in R. rewrite R. reflexivity.
Qed.

Lemma strip_prefix_app p r : strip_prefix p (p ++ r) = Some r.
Proof. induction p as [|c p IH]; cbn; [reflexivity | rewrite N.eqb_refl; exact IH]. Qed.

Lemma strip_prefix_head_neq c p x s : (x =? c) = false -> strip_prefix (c :: p) (x :: s) = None.
Proof. intros H. cbn. rewrite H. reflexivity. Qed.

(* what follows a number so that NUMERIC_TERM stops after it *)
Definition num_stop (rest : bytes) : bool :=
  match rest with [] => true | c :: _ => negb (is_digit c) && negb (c =? 46) && negb (c =? 69) end.

Lemma num_stop_spec rest : num_stop rest = true ->
  (match rest with [] => true | c :: _ => negb (is_digit c) end) = true /\
  strip_prefix [46] rest = None /\ strip_prefix [69] rest = None.
Proof.
  destruct rest as [|c r]; [repeat split|]. cbn. rewrite !andb_true_iff, !negb_true_iff.
  intros [[D ->] ->]. auto.
Qed.

Theorem lex_numeric_term_dec z rest :
  num_stop rest = true -> lex_numeric_term (dec_of_Z z ++ rest) = Some (dec_of_Z z, rest).
Proof.
  intros S. destruct (num_stop_spec rest S) as (S1 & S2 & S3).
  destruct (dec_of_Z_shape z) as (d & ds & -> & A & _). pose proof A as Ad.
  cbn [all_digits forallb] in Ad. apply andb_true_iff in Ad as [Ad _].
  unfold lex_numeric_term, num_value. rewrite <- app_assoc. destruct (z <? 0)%Z.
  - rewrite (strip_prefix_app [45]), digits_app, S2 by auto. cbn [app]. rewrite S3. reflexivity.
  - cbn [app]. rewrite (strip_prefix_head_neq 45 [] d _ (class_neq is_digit true d 45 Ad eq_refl)),
      (strip_prefix_head_neq 92 [45] d _ (class_neq is_digit true d 92 Ad eq_refl)).
    change (d :: ds ++ rest) with ((d :: ds) ++ rest). rewrite digits_app, S2 by auto. cbn [app]. rewrite S3. reflexivity.
Qed.

(* a decimal integer text has no backslash, no quote, no whitespace and none of the range delimiters *)
Definition int_char (c : N) : bool := is_digit c || (c =? 45).

Lemma dec_of_Z_chars z : forallb int_char (dec_of_Z z) = true.
Proof.
  destruct (dec_of_Z_shape z) as (d & ds & -> & A & _). rewrite forallb_app.
  assert (forallb int_char (d :: ds) = true) as ->.
  { unfold all_digits in A. rewrite forallb_forall in *. intros c Hc. unfold int_char. rewrite (A c Hc). reflexivity. }
  destruct (z <? 0)%Z; reflexivity.
Qed.

Lemma dec_of_Z_head z : exists c r, dec_of_Z z = c :: r /\ int_char c = true.
Proof.
  pose proof (dec_of_Z_chars z) as H. destruct (dec_of_Z_shape z) as (d & ds & E & _).
  destruct (dec_of_Z z) as [|c r]; [destruct (z <? 0)%Z; discriminate|].
  exists c, r. split; auto. cbn in H. apply andb_true_iff in H as [H _]. exact H.
Qed.

(* ComparisonValue::from on the printed integer gives the integer back *)
Theorem cval_from_dec z : i64_range z = true -> cval_from (dec_of_Z z) = CInt z.
Proof.
  intros R. unfold cval_from. rewrite unescape_no_backslash.
  2:{ pose proof (dec_of_Z_chars z) as H. rewrite forallb_forall in *. intros c Hc.
      rewrite (class_neq int_char true c 92 (H c Hc) eq_refl). reflexivity. }
  destruct (dec_of_Z_head z) as (c & r & E & Hc).
  assert (escape_quotes (dec_of_Z z) = dec_of_Z z) as ->.
  { rewrite E. cbn. rewrite (class_neq int_char true c 34 Hc eq_refl). reflexivity. }
  assert (bytes_eqb (dec_of_Z z) [42] = false) as ->.
  { rewrite E. cbn. rewrite (class_neq int_char true c 42 Hc eq_refl). reflexivity. }
  rewrite parse_i64_dec by exact R. reflexivity.
Qed.
