(* C21: the value-level round trip.  print_value (compact or pretty) followed by parse_value gives the
   value back (up to value_close), for every representable value of depth < remaining_depth. *)
From Coq Require Import List NArith ZArith Bool Lia Sorted.
From Coq Require Import Floats.SpecFloat.
From VRL Require Import Base.Bytes Base.Value Model.Json Proofs.SortedInsert Proofs.JsonTextProofs
     Proofs.JsonNumProofs.
Import ListNotations.
Local Open Scope N_scope.

(* Names for the nested fixpoints of the model (convertible with them) *)

Definition print_elems (ff : spec_float -> bytes) (ft : Z -> bytes) (pretty : bool) (ind : nat) :=
  fix go (first : bool) (l : list value) {struct l} : bytes :=
    match l with
    | [] => close pretty ind ++ [93]
    | x :: l' => sep pretty first (S ind) ++ print_value ff ft pretty (S ind) x ++ go false l'
    end.

Definition print_members (ff : spec_float -> bytes) (ft : Z -> bytes) (pretty : bool) (ind : nat) :=
  fix go (first : bool) (l : list (bytes * value)) {struct l} : bytes :=
    match l with
    | [] => close pretty ind ++ [125]
    | (k, x) :: l' =>
        sep pretty first (S ind) ++ print_string k ++ colon pretty
        ++ print_value ff ft pretty (S ind) x ++ go false l'
    end.

Definition pairs_close :=
  fix go (l1 l2 : list (bytes * value)) {struct l1} : bool :=
    match l1, l2 with
    | [], [] => true
    | (k1, v1) :: r1, (k2, v2) :: r2 => bytes_eqb k1 k2 && value_close v1 v2 && go r1 r2
    | _, _ => false
    end.

Definition list_close :=
  fix go (l1 l2 : list value) {struct l1} : bool :=
    match l1, l2 with
    | [], [] => true
    | v1 :: r1, v2 :: r2 => value_close v1 v2 && go r1 r2
    | _, _ => false
    end.

Definition jrep_pairs (fok : spec_float -> bool) :=
  fix go (l : list (bytes * value)) {struct l} : bool :=
    match l with
    | [] => true
    | (k, x) :: l' => utf8_ok k && jrep fok x && go l'
    end.

Definition depth_pairs :=
  fix go (l : list (bytes * value)) {struct l} : N :=
    match l with
    | [] => 0
    | (_, x) :: l' => N.max (vdepth x) (go l')
    end.

Definition depth_list (vs : list value) : N := fold_right (fun x m => N.max (vdepth x) m) 0 vs.

(* an empty container is printed as "[]" / "{}" in both modes, which is its compact form *)
Definition pretty_for {A} (pretty : bool) (l : list A) : bool := match l with [] => false | _ => pretty end.

Lemma print_arr_eq ff ft pretty ind vs :
  print_value ff ft pretty ind (VArr vs) = 91 :: print_elems ff ft (pretty_for pretty vs) ind true vs.
Proof. destruct vs; reflexivity. Qed.

Lemma print_obj_eq ff ft pretty ind kvs :
  print_value ff ft pretty ind (VObj kvs) = 123 :: print_members ff ft (pretty_for pretty kvs) ind true kvs.
Proof. destruct kvs; reflexivity. Qed.

Lemma close_obj_eq x y : value_close (VObj x) (VObj y) = pairs_close x y.
Proof. reflexivity. Qed.

Lemma close_arr_eq x y : value_close (VArr x) (VArr y) = list_close x y.
Proof. reflexivity. Qed.

Lemma jrep_obj_eq fok kvs : jrep fok (VObj kvs) = keys_sorted kvs && jrep_pairs fok kvs.
Proof. reflexivity. Qed.

Lemma vdepth_obj_eq kvs : vdepth (VObj kvs) = 1 + depth_pairs kvs.
Proof. reflexivity. Qed.

Lemma vdepth_arr_eq vs : vdepth (VArr vs) = 1 + depth_list vs.
Proof. reflexivity. Qed.

(* induction over representable values: the children of a container come with their representability *)
Lemma jrep_ind fok (P : value -> Prop) :
  (forall b, utf8_ok b = true -> P (VBytes b)) ->
  (forall z, in_i64 z = true -> P (VInt z)) ->
  (forall f, is_finite f = true -> fok f = true -> P (VFloat f)) ->
  (forall b, P (VBool b)) ->
  P VNull ->
  (forall vs, Forall (fun x => jrep fok x = true /\ P x) vs -> P (VArr vs)) ->
  (forall kvs, keys_sorted kvs = true ->
     Forall (fun kv => utf8_ok (fst kv) = true /\ jrep fok (snd kv) = true /\ P (snd kv)) kvs -> P (VObj kvs)) ->
  forall v, jrep fok v = true -> P v.
Proof.
  intros Hs Hi Hf Hb Hn Ha Ho.
  induction v as [b|src|z|f|b|ns|kvs IHk|vs IHv|] using value_ind'; intros Hj; cbn [jrep] in Hj;
    try discriminate; auto.
  - apply andb_true_iff in Hj as [H1 H2]. auto.
  - change (keys_sorted kvs && jrep_pairs fok kvs = true) in Hj. apply andb_true_iff in Hj as [Hsorted Hj].
    apply Ho; [exact Hsorted|]. clear Hsorted. induction IHk as [|[k x] l Hx _ IH]; [constructor|].
    cbn [jrep_pairs] in Hj. rewrite !andb_true_iff in Hj. destruct Hj as [[Hk Hjx] Hjl].
    constructor; [cbn [fst snd] in *; auto | exact (IH Hjl)].
  - apply Ha. induction IHv as [|x l Hx _ IH]; [constructor|].
    cbn [forallb] in Hj. apply andb_true_iff in Hj as [Hjx Hjl]. constructor; [auto | exact (IH Hjl)].
Qed.

(* a JSON value starts with one of these *)
Definition is_start (c : N) : bool :=
  (c =? 34) || (c =? 45) || is_digit c || (c =? 91) || (c =? 123) || (c =? 116) || (c =? 102) || (c =? 110).

Definition starts (s : bytes) : bool := match s with c :: _ => is_start c | [] => false end.

Lemma is_ws_false c : c <> 32 -> c <> 10 -> c <> 9 -> c <> 13 -> is_ws c = false.
Proof. intros. unfold is_ws. rewrite !orb_false_iff, !N.eqb_neq. tauto. Qed.

(* such a character is not whitespace, not a closing bracket, and not the first byte of a BOM *)
Lemma starts_cons c r : starts (c :: r) = true -> is_ws c = false /\ (c =? 93) = false /\ c <> 239.
Proof.
  cbn [starts]. unfold is_start. rewrite !orb_true_iff, !N.eqb_eq, is_digit_iff. intros H.
  repeat split; [apply is_ws_false | apply N.eqb_neq |]; lia.
Qed.

Lemma num_start_starts s : num_start s = true -> starts s = true.
Proof. destruct s as [|c r]; [discriminate|]. cbn [num_start starts]. unfold is_start. rewrite !orb_true_iff. tauto. Qed.

Lemma skip_ws_indent n s : skip_ws (indent n ++ s) = skip_ws s.
Proof. unfold indent. induction (n + n)%nat as [|k IH]; [reflexivity|]. cbn [repeat app skip_ws]. exact IH. Qed.

(* what parse_value does on each kind of first character: a number token is read on its own, whatever
   non-number character follows it *)
Lemma parse_value_num fuel depth txt p rest :
  parse_num_tok txt = Some (p, []) -> num_end rest = true ->
  parse_value (S fuel) depth (txt ++ rest) = Some (value_of_pnum p, rest).
Proof.
  intros Hp Hend. pose proof (parse_num_tok_head _ _ _ rest Hp) as H.
  pose proof (parse_num_tok_frame _ _ _ rest Hp Hend) as Hf.
  destruct txt as [|c r]; [discriminate|]. cbn [num_start app] in *. cbn [parse_value skip_ws].
  pose proof H as Hc. rewrite orb_true_iff, N.eqb_eq, is_digit_iff in Hc.
  rewrite is_ws_false, H, !(proj2 (N.eqb_neq c _)), Hf by lia. reflexivity.
Qed.

Lemma parse_value_str fuel depth r :
  parse_value (S fuel) depth (34 :: r) =
  match parse_string r with
  | Some (t, r') => Some (VBytes t, r')
  | None => None
  end.
Proof. reflexivity. Qed.

Lemma parse_value_arr fuel depth r :
  parse_value (S fuel) depth (91 :: r) =
  if depth <=? 1 then None
  else match parse_elems fuel (depth - 1) true r with
       | Some (vs, r') => Some (VArr vs, r')
       | None => None
       end.
Proof. reflexivity. Qed.

Lemma parse_value_obj fuel depth r :
  parse_value (S fuel) depth (123 :: r) =
  if depth <=? 1 then None
  else match parse_members fuel (depth - 1) true r with
       | Some (kvs, r') => Some (VObj (obj_of_list kvs), r')
       | None => None
       end.
Proof. reflexivity. Qed.

Lemma parse_value_ws fuel depth w s : is_ws w = true -> parse_value fuel depth (w :: s) = parse_value fuel depth s.
Proof. intros H. destruct fuel; [reflexivity|]. cbn [parse_value skip_ws]. rewrite H. reflexivity. Qed.

Lemma parse_value_print_string fuel depth s rest :
  parse_value (S fuel) depth (print_string s ++ rest) = Some (VBytes s, rest).
Proof.
  unfold print_string. cbn [app]. rewrite <- app_assoc, parse_value_str. cbn [app].
  rewrite parse_string_print. reflexivity.
Qed.

(* what parse_elems / parse_members do on the text the printer puts before an element / a member, first or
   not, compact or pretty, and on the closing bracket *)
Lemma parse_elems_sep f depth pretty ind first s :
  starts s = true ->
  parse_elems (S f) depth first (sep pretty first ind ++ s) =
  match parse_value f depth s with
  | Some (x, r) => match parse_elems f depth false r with Some (xs, r') => Some (x :: xs, r') | None => None end
  | None => None
  end.
Proof.
  destruct s as [|c r]; [discriminate|]. intros H. apply starts_cons in H as (Hws & H93 & _).
  destruct first, pretty; cbn [sep app parse_elems skip_ws is_ws N.eqb Pos.eqb orb];
    rewrite ?skip_ws_indent; cbn [skip_ws]; rewrite Hws, H93; reflexivity.
Qed.

Lemma parse_members_sep f depth pretty ind first k s :
  parse_members (S f) depth first (sep pretty first ind ++ print_string k ++ colon pretty ++ s) =
  match parse_value f depth s with
  | Some (x, r) => match parse_members f depth false r with Some (kvs, r') => Some ((k, x) :: kvs, r') | None => None end
  | None => None
  end.
Proof.
  unfold print_string. cbn [app]. rewrite <- app_assoc. cbn [app].
  destruct first, pretty; cbn [sep colon app parse_members skip_ws is_ws N.eqb Pos.eqb orb];
    rewrite ?skip_ws_indent; cbn [skip_ws is_ws N.eqb Pos.eqb orb]; rewrite parse_string_print;
    cbn [skip_ws is_ws N.eqb Pos.eqb orb]; rewrite ?parse_value_ws by reflexivity; reflexivity.
Qed.

Lemma parse_elems_close f depth pretty ind first r :
  parse_elems (S f) depth first (close pretty ind ++ 93 :: r) = Some ([], r).
Proof.
  destruct pretty; cbn [close app parse_elems skip_ws is_ws N.eqb Pos.eqb orb]; rewrite ?skip_ws_indent; reflexivity.
Qed.

Lemma parse_members_close f depth pretty ind first r :
  parse_members (S f) depth first (close pretty ind ++ 125 :: r) = Some ([], r).
Proof.
  destruct pretty; cbn [close app parse_members skip_ws is_ws N.eqb Pos.eqb orb]; rewrite ?skip_ws_indent; reflexivity.
Qed.

(* serde_json's recursion limit: a chain of one-element arrays at least as long as the remaining depth is
   rejected, whatever stands at its end *)
Lemma nest_rejected ff ft v0 n : forall pretty ind fuel depth rest,
  depth <= N.of_nat (S n) ->
  parse_value fuel depth (print_value ff ft pretty ind (Nat.iter (S n) (fun x => VArr [x]) v0) ++ rest) = None.
Proof.
  induction n as [|n IH]; intros pretty ind [|fuel] depth rest Hd; try reflexivity.
  - change (Nat.iter 1 _ v0) with (VArr [v0]). rewrite print_arr_eq. cbn [app].
    rewrite parse_value_arr, (proj2 (N.leb_le depth 1)) by lia. reflexivity.
  - change (Nat.iter (S (S n)) _ v0) with (VArr [Nat.iter (S n) (fun x => VArr [x]) v0]).
    rewrite print_arr_eq. cbn [app print_elems]. rewrite parse_value_arr.
    destruct (N.leb_spec depth 1); [reflexivity|]. destruct fuel as [|fuel]; [reflexivity|].
    rewrite <- !app_assoc, parse_elems_sep, IH by (reflexivity || lia). reflexivity.
Qed.

Lemma keys_sorted_Sorted l : keys_sorted l = true -> Sorted key_lt (map fst l).
Proof.
  apply adjacent_Sorted. intros k v k' v' l'.
  change (keys_sorted ((k, v) :: (k', v') :: l')) with (bytes_ltb k k' && keys_sorted ((k', v') :: l')).
  rewrite andb_true_iff. unfold bytes_ltb, key_lt. destruct (bytes_cmp k k'); intros [? ?]; try discriminate. auto.
Qed.

Lemma obj_of_list_sorted l : Sorted key_lt (map fst l) -> obj_of_list l = l.
Proof. apply (fold_step_Sorted value (fun m kv => obj_set m (fst kv) (snd kv))). intros m [k x]. apply obj_set_append. Qed.

Lemma pairs_close_keys l : forall l', pairs_close l l' = true -> map fst l = map fst l'.
Proof.
  induction l as [|[k v] l IH]; intros [|[k' v'] l'] H; try discriminate; [reflexivity|].
  cbn [pairs_close] in H. rewrite !andb_true_iff, bytes_eqb_eq in H. destruct H as [[-> _] H].
  cbn [map fst]. f_equal. apply IH, H.
Qed.

Section RoundTrip.
  Variable ff : spec_float -> bytes.
  Variable ft : Z -> bytes.

  Definition fok (f : spec_float) : bool := float_text_ok (ff f) f.

  Lemma fok_spec f : fok f = true ->
    ascii (ff f) /\ exists f', parse_num_tok (ff f) = Some (PF64 f', []) /\ ulp_close f f' = true.
  Proof.
    unfold fok, float_text_ok. rewrite andb_true_iff. intros [Ha Hp]. split; [apply ascii_forallb; exact Ha|].
    destruct (parse_num_tok (ff f)) as [[[n|z|f'] [|? ?]]|]; try discriminate.
    exists f'. split; [reflexivity | exact Hp].
  Qed.

  Lemma print_starts pretty ind v rest :
    jrep fok v = true -> starts (print_value ff ft pretty ind v ++ rest) = true.
  Proof.
    destruct v as [b|src|z|f|b|ns|kvs|vs|]; cbn [jrep print_value]; intros H; try discriminate; try reflexivity.
    - destruct (parse_num_tok_print_int z H) as (p & Hp & _).
      apply num_start_starts, (parse_num_tok_head _ _ _ _ Hp).
    - apply andb_true_iff in H as [-> Hf]. destruct (fok_spec f Hf) as (_ & f' & Hp & _).
      apply num_start_starts, (parse_num_tok_head _ _ _ _ Hp).
    - destruct b; reflexivity.
    - destruct kvs; reflexivity.
    - destruct vs; reflexivity.
  Qed.

  Lemma print_nonempty pretty ind v : jrep fok v = true -> (1 <= length (print_value ff ft pretty ind v))%nat.
  Proof.
    intros H. apply (print_starts pretty ind v []) in H.
    destruct (print_value ff ft pretty ind v); [discriminate | cbn; lia].
  Qed.

  Lemma print_elems_nonempty pretty ind first l : (1 <= length (print_elems ff ft pretty ind first l))%nat.
  Proof.
    revert first. induction l as [|x l IH]; intros first; cbn [print_elems]; rewrite !app_length; [cbn; lia|].
    specialize (IH false). lia.
  Qed.

  Lemma print_members_nonempty pretty ind first l : (1 <= length (print_members ff ft pretty ind first l))%nat.
  Proof. destruct l as [|[k x] l]; cbn [print_members]; rewrite !app_length; cbn; lia. Qed.

  (* what follows an element or a member value never continues a number *)
  Lemma num_end_elems pretty ind l rest : num_end (print_elems ff ft pretty ind false l ++ rest) = true.
  Proof. destruct l as [|x l], pretty; reflexivity. Qed.

  Lemma num_end_members pretty ind l rest : num_end (print_members ff ft pretty ind false l ++ rest) = true.
  Proof. destruct l as [|[k x] l], pretty; reflexivity. Qed.

  (* the statement proved for every representable value; the parser spends at most two units of fuel per byte *)
  Definition RT (v : value) : Prop :=
    forall pretty ind fuel depth rest,
      (2 * length (print_value ff ft pretty ind v) <= S fuel)%nat ->
      vdepth v < depth -> num_end rest = true ->
      exists v', parse_value (S fuel) depth (print_value ff ft pretty ind v ++ rest) = Some (v', rest)
                 /\ value_close v v' = true.

  Lemma elems_rt l : Forall (fun x => jrep fok x = true /\ RT x) l ->
    forall pretty ind first fuel depth rest,
      (2 * length (print_elems ff ft pretty ind first l) <= fuel)%nat ->
      depth_list l < depth ->
      exists l', parse_elems fuel depth first (print_elems ff ft pretty ind first l ++ rest) = Some (l', rest)
                 /\ list_close l l' = true.
  Proof.
    induction 1 as [|x l [Hjx Hx] _ IH]; intros pretty ind first fuel depth rest Hfuel Hdepth;
      cbn [print_elems] in *; rewrite !app_length in Hfuel; rewrite <- !app_assoc.
    - destruct fuel as [|fuel]; [cbn in Hfuel; lia|]. exists []. cbn [app]. rewrite parse_elems_close.
      split; reflexivity.
    - cbn [depth_list fold_right] in Hdepth. fold (depth_list l) in Hdepth.
      pose proof (print_nonempty pretty (S ind) x Hjx). pose proof (print_elems_nonempty pretty ind false l).
      destruct fuel as [|[|fuel]]; [lia | lia |].
      destruct (Hx pretty (S ind) fuel depth (print_elems ff ft pretty ind false l ++ rest))
        as (x' & Hpx & Hcx); [lia | lia | apply num_end_elems |].
      destruct (IH pretty ind false (S fuel) depth rest) as (l' & Hpl & Hcl); [lia | lia |].
      exists (x' :: l'). rewrite parse_elems_sep, Hpx, Hpl by (apply print_starts, Hjx).
      cbn [list_close]. rewrite Hcx, Hcl. split; reflexivity.
  Qed.

  Lemma members_rt l : Forall (fun kv => utf8_ok (fst kv) = true /\ jrep fok (snd kv) = true /\ RT (snd kv)) l ->
    forall pretty ind first fuel depth rest,
      (2 * length (print_members ff ft pretty ind first l) <= fuel)%nat ->
      depth_pairs l < depth ->
      exists l', parse_members fuel depth first (print_members ff ft pretty ind first l ++ rest) = Some (l', rest)
                 /\ pairs_close l l' = true.
  Proof.
    induction 1 as [|[k x] l (_ & Hjx & Hx) _ IH]; intros pretty ind first fuel depth rest Hfuel Hdepth;
      cbn [print_members snd] in *; rewrite !app_length in Hfuel; rewrite <- !app_assoc.
    - destruct fuel as [|fuel]; [cbn in Hfuel; lia|]. exists []. cbn [app]. rewrite parse_members_close.
      split; reflexivity.
    - fold (print_members ff ft pretty ind) in *. cbn [depth_pairs] in Hdepth. fold depth_pairs in Hdepth.
      pose proof (print_nonempty pretty (S ind) x Hjx). pose proof (print_members_nonempty pretty ind false l).
      destruct fuel as [|[|fuel]]; [lia | lia |].
      destruct (Hx pretty (S ind) fuel depth (print_members ff ft pretty ind false l ++ rest))
        as (x' & Hpx & Hcx); [lia | lia | apply num_end_members |].
      destruct (IH pretty ind false (S fuel) depth rest) as (l' & Hpl & Hcl); [lia | lia |].
      exists ((k, x') :: l'). rewrite parse_members_sep, Hpx, Hpl.
      cbn [pairs_close]. rewrite bytes_eqb_refl, Hcx, Hcl. split; reflexivity.
  Qed.

  Theorem rt_all : forall v, jrep fok v = true -> RT v.
  Proof.
    apply jrep_ind; unfold RT.
    - intros b Hb pretty ind fuel depth rest _ _ _. exists (VBytes b). cbn [print_value].
      rewrite (lossy_id b Hb), parse_value_print_string. split; [reflexivity | exact (bytes_eqb_refl b)].
    - intros z Hz pretty ind fuel depth rest _ _ Hend.
      destruct (parse_num_tok_print_int z Hz) as (p & Hp & Hv). exists (VInt z). cbn [print_value].
      rewrite (parse_value_num _ _ _ _ _ Hp Hend), Hv. split; [reflexivity | exact (Z.eqb_refl z)].
    - (* float: its text is a whole token that reads back as f', and what follows does not continue it *)
      intros f Hfin Hf pretty ind fuel depth rest _ _ Hend.
      destruct (fok_spec f Hf) as (_ & f' & Hp & Hc). exists (VFloat f'). cbn [print_value].
      rewrite Hfin, (parse_value_num _ _ _ _ _ Hp Hend). split; [reflexivity | exact Hc].
    - intros [] pretty ind fuel depth rest _ _ _; eexists; split; reflexivity.
    - intros pretty ind fuel depth rest _ _ _. eexists; split; reflexivity.
    - intros vs IH pretty ind fuel depth rest Hfuel Hdepth _.
      rewrite vdepth_arr_eq in Hdepth. rewrite print_arr_eq in *. cbn [length] in Hfuel.
      destruct (elems_rt vs IH (pretty_for pretty vs) ind true fuel (depth - 1) rest) as (l' & Hp & Hc); [lia | lia |].
      exists (VArr l'). cbn [app]. rewrite parse_value_arr, (proj2 (N.leb_gt _ _)), Hp by lia.
      split; [reflexivity | exact Hc].
    - (* object: the parsed members carry the printed keys, which are sorted, so rebuilding the map changes nothing *)
      intros kvs Hsorted IH pretty ind fuel depth rest Hfuel Hdepth _.
      rewrite vdepth_obj_eq in Hdepth. rewrite print_obj_eq in *. cbn [length] in Hfuel.
      destruct (members_rt kvs IH (pretty_for pretty kvs) ind true fuel (depth - 1) rest) as (l' & Hp & Hc); [lia | lia |].
      exists (VObj l'). cbn [app]. rewrite parse_value_obj, (proj2 (N.leb_gt _ _)), Hp by lia.
      rewrite obj_of_list_sorted by (rewrite <- (pairs_close_keys _ _ Hc); apply keys_sorted_Sorted, Hsorted).
      split; [reflexivity | exact Hc].
  Qed.
End RoundTrip.
