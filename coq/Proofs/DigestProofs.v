(* C27 — proofs about the VRL glue of the digest functions (Model/DigestGlue.v), the HMAC construction
   (Model/Hmac.v), the output encoders, and the sizes of the digests and hash words. *)
From Coq Require Import List NArith ZArith Bool String Ascii Lia.
From VRL Require Import Base.Bytes Base.Value Model.DigestWord Model.DigestMd5 Model.DigestSha1 Model.DigestSha2
     Model.DigestSha3 Model.Hmac Model.Crc Model.XxHash Model.Seahash Model.DigestGlue Proofs.ListFacts.
Import ListNotations.
Local Open Scope N_scope.

Lemma hexdigit_inj a b : hexdigit a = hexdigit b -> a = b.
Proof. unfold hexdigit. destruct (N.ltb_spec a 10), (N.ltb_spec b 10); lia. Qed.

Lemma hex_inj a b : hex a = hex b -> a = b.
Proof.
  revert b; induction a as [|x a IH]; intros [|y b]; cbn [hex]; try discriminate; auto.
  intros [= H1%hexdigit_inj H2%hexdigit_inj ->%IH].
  rewrite (N.div_mod' x 16), (N.div_mod' y 16), H1, H2. reflexivity.
Qed.

Lemma hex_length b : List.length (hex b) = (2 * List.length b)%nat.
Proof. induction b as [|x b IH]; cbn [hex List.length]; [reflexivity | rewrite IH; lia]. Qed.

Lemma hex_app a b : hex (a ++ b) = hex a ++ hex b.
Proof. induction a as [|x a IH]; cbn [hex app]; [reflexivity | rewrite IH; reflexivity]. Qed.

Lemma hexdigit_class n : n < 16 ->
  ((48 <=? hexdigit n) && (hexdigit n <=? 57)) || ((97 <=? hexdigit n) && (hexdigit n <=? 102)) = true.
Proof.
  intros Hn. unfold hexdigit. rewrite orb_true_iff, !andb_true_iff, !N.leb_le.
  destruct (N.ltb_spec n 10); lia.
Qed.

(* every output character is one of 0-9 a-f when the input is a byte string *)
Lemma hex_alphabet b : wf_bytes b = true ->
  forallb (fun c => ((48 <=? c) && (c <=? 57)) || ((97 <=? c) && (c <=? 102))) (hex b) = true.
Proof.
  induction b as [|x b IH]; cbn [hex wf_bytes forallb]; [reflexivity |].
  intros [Hx%N.ltb_lt Hb]%andb_true_iff.
  rewrite !hexdigit_class, IH by (assumption || apply N.div_lt_upper_bound || apply N.mod_lt; lia).
  reflexivity.
Qed.

(* reading a decimal text back *)
Definition undec_step (a c : N) : N := a * 10 + (c - 48).
Definition undec (l : bytes) : N := fold_left undec_step l 0.

Lemma dec_aux_spec fuel : forall n acc, n < 10 ^ N.of_nat fuel ->
  fold_left undec_step (dec_aux fuel n acc) 0 = fold_left undec_step acc n.
Proof.
  induction fuel as [|f IH]; intros n acc Hn.
  - cbn in Hn. assert (n = 0) by lia. subst. reflexivity.
  - cbn [dec_aux]. destruct (N.ltb_spec n 10) as [E|E].
    + cbn [fold_left]. unfold undec_step at 2. f_equal. rewrite N.mod_small; lia.
    + rewrite IH.
      * cbn [fold_left]. unfold undec_step at 2. f_equal.
        generalize (N.div_mod' n 10). generalize (n / 10), (n mod 10). lia.
      * rewrite Nat2N.inj_succ, N.pow_succ_r' in Hn. apply N.div_lt_upper_bound; lia.
Qed.

Lemma undec_dec n : undec (dec n) = n.
Proof.
  unfold undec, dec. rewrite dec_aux_spec; [reflexivity |].
  rewrite Nat2N.inj_succ, N2Nat.id, N.pow_succ_r'.
  pose proof (N.size_gt n) as H.
  assert (2 ^ N.size n <= 10 ^ N.size n) by (apply N.pow_le_mono_l; lia).
  lia.
Qed.

Lemma dec_inj a b : dec a = dec b -> a = b.
Proof. intros H. rewrite <- (undec_dec a), <- (undec_dec b), H. reflexivity. Qed.

Lemma to_i64_inj a b : a < 2 ^ 64 -> b < 2 ^ 64 -> to_i64 a = to_i64 b -> a = b.
Proof. unfold to_i64. destruct (N.ltb_spec a (2 ^ 63)), (N.ltb_spec b (2 ^ 63)); lia. Qed.

Lemma to_i64_range a : a < 2 ^ 64 -> (- 2 ^ 63 <= to_i64 a < 2 ^ 63)%Z.
Proof. unfold to_i64. destruct (N.ltb_spec a (2 ^ 63)); lia. Qed.

Lemma blen_app a b : blen (a ++ b) = blen a + blen b.
Proof. unfold blen. rewrite app_length. lia. Qed.

Lemma blen_zeros n : blen (zeros n) = n.
Proof. unfold blen, zeros. rewrite repeat_length. apply N2Nat.id. Qed.

Section HmacLemmas.
  Variable H : bytes -> bytes.
  Variable B : N.

  Lemma hmac_key_short key : blen key <= B -> hmac_key H B key = key ++ zeros (B - blen key).
  Proof. intros Hk. unfold hmac_key, hmac_key0. destruct (N.ltb_spec B (blen key)); [lia | reflexivity]. Qed.

  Lemma hmac_key_long key : B < blen key -> hmac_key H B key = H key ++ zeros (B - blen (H key)).
  Proof. intros Hk. unfold hmac_key, hmac_key0. destruct (N.ltb_spec B (blen key)); [reflexivity | lia]. Qed.

  (* K' has exactly the block size as soon as the hash output fits in a block *)
  Lemma hmac_key_length key : (forall m, blen (H m) <= B) -> blen (hmac_key H B key) = B.
  Proof.
    intros Hout. unfold hmac_key, hmac_key0. rewrite blen_app, blen_zeros. specialize (Hout key).
    destruct (N.ltb_spec B (blen key)); lia.
  Qed.
End HmacLemmas.

Lemma N_to_be_length n x : List.length (N_to_be n x) = n.
Proof. induction n as [|k IH]; cbn [N_to_be List.length]; [reflexivity | rewrite IH; reflexivity]. Qed.

Lemma N_to_le_length n x : List.length (N_to_le n x) = n.
Proof. revert x; induction n as [|k IH]; intros x; cbn [N_to_le List.length]; [reflexivity | rewrite IH; reflexivity]. Qed.

Lemma flat_map_const_length {X} (f : X -> bytes) k (l : list X) :
  (forall x, List.length (f x) = k) -> List.length (flat_map f l) = (k * List.length l)%nat.
Proof.
  intros Hf. induction l as [|x l IH]; cbn [flat_map List.length]; [lia |].
  rewrite app_length, Hf, IH. lia.
Qed.

Lemma md5_length m : List.length (md5 m) = 16%nat.
Proof.
  unfold md5. destruct (fold_left md5_block _ md5_init) as [[[a b] c] d].
  rewrite !app_length, !N_to_le_length. reflexivity.
Qed.

Lemma sha1_length m : List.length (sha1 m) = 20%nat.
Proof.
  unfold sha1. destruct (fold_left sha1_block _ sha1_init) as [[[[a b] c] d] e].
  rewrite !app_length, !N_to_be_length. reflexivity.
Qed.

Lemma sha2_words_length A iv m : List.length (sha2_compress_all A iv m) = 8%nat.
Proof.
  unfold sha2_compress_all, words_of.
  destruct (fold_left (sha2_block A) _ _) as [[[[[[[a b] c] d] e] f] g] h]. reflexivity.
Qed.

Lemma sha2_generic_length A iv out m : (out <= a_wbytes A * 8)%nat ->
  List.length (sha2_generic A iv out m) = out.
Proof.
  intros Ho. unfold sha2_generic. rewrite firstn_length.
  rewrite (flat_map_const_length _ (a_wbytes A)) by (intros; apply N_to_be_length).
  rewrite sha2_words_length. lia.
Qed.

Lemma iota_length rc a : List.length (iota rc a) = List.length a.
Proof. destruct a; reflexivity. Qed.

Lemma keccak_round_length a rc : List.length (keccak_round a rc) = 25%nat.
Proof. unfold keccak_round. rewrite iota_length. unfold chi. rewrite map_length. reflexivity. Qed.

Lemma keccak_rounds_length l : forall a, List.length a = 25%nat ->
  List.length (fold_left keccak_round l a) = 25%nat.
Proof. intros a Ha. apply fold_left_inv; [exact Ha | intros; apply keccak_round_length]. Qed.

Lemma keccak_f_length a : List.length (keccak_f a) = 25%nat.
Proof. unfold keccak_f, keccak_RC. cbn [fold_left]. apply keccak_round_length. Qed.

Lemma sha3_generic_length out m : (out <= 200)%nat -> List.length (sha3_generic out m) = out.
Proof.
  intros Ho. unfold sha3_generic. rewrite firstn_length.
  rewrite (flat_map_const_length _ 8%nat) by (intros; apply N_to_le_length).
  rewrite (fold_left_inv (fun st => List.length st = 25%nat) absorb);
    [lia | apply repeat_length | intros st blk _; apply keccak_f_length].
Qed.

Definition sha2_outlen (v : sha2_variant) : nat :=
  match v with S224 => 28 | S256 => 32 | S384 => 48 | S512 => 64 | S512_224 => 28 | S512_256 => 32 end.
Definition sha3_outlen (v : sha3_variant) : nat :=
  match v with T224 => 28 | T256 => 32 | T384 => 48 | T512 => 64 end.
Definition hmac_outlen (a : hmac_alg) : nat :=
  match a with HSha1 => 20 | HSha224 => 28 | HSha256 => 32 | HSha384 => 48 | HSha512 => 64 end.

Lemma sha2_spec_length v m : List.length (sha2_spec v m) = sha2_outlen v.
Proof. destruct v; apply sha2_generic_length; cbn; lia. Qed.

Lemma sha3_spec_length v m : List.length (sha3_spec v m) = sha3_outlen v.
Proof. destruct v; apply sha3_generic_length; cbn; lia. Qed.

Lemma hmac_hash_length a m : List.length (hmac_hash a m) = hmac_outlen a.
Proof. destruct a; [apply sha1_length | apply sha2_generic_length; cbn; lia ..]. Qed.

Lemma hmac_spec_length a k m : List.length (hmac_spec a k m) = hmac_outlen a.
Proof. apply hmac_hash_length. Qed.

Lemma hmac_hash_fits a m : blen (hmac_hash a m) <= hmac_block a.
Proof. unfold blen. rewrite hmac_hash_length. destruct a; cbn; lia. Qed.

Lemma str_inj s t : str s = str t -> s = t.
Proof.
  revert t; induction s as [|c s IH]; intros [|d t]; cbn [str]; try discriminate; [reflexivity |].
  intros [= Hc ->%IH]. rewrite <- (ascii_N_embedding c), Hc, ascii_N_embedding. reflexivity.
Qed.

Lemma lookup_some {A} (name_of : A -> string) all n a :
  lookup name_of all n = Some a -> In a all /\ str (name_of a) = n.
Proof. intros [Hin He%bytes_eqb_eq]%find_some. auto. Qed.

Lemma lookup_none {A} (name_of : A -> string) all n :
  lookup name_of all n = None -> forall a, In a all -> str (name_of a) <> n.
Proof.
  intros Hf a Hin E. pose proof (find_none _ _ Hf a Hin) as Hn. cbn in Hn.
  rewrite E, bytes_eqb_refl in Hn. discriminate.
Qed.

Lemma sha2_all_complete v : In v sha2_all.
Proof. destruct v; cbn; tauto. Qed.
Lemma sha3_all_complete v : In v sha3_all.
Proof. destruct v; cbn; tauto. Qed.
Lemma hmac_all_complete v : In v hmac_all.
Proof. destruct v; cbn; tauto. Qed.
Lemma xxh_all_complete v : In v xxh_all.
Proof. destruct v; cbn; tauto. Qed.

(* ASCII lower-casing of a name (what a user who writes "sha-256" passes) *)
Definition lower_ascii (b : bytes) : bytes := map (fun x => if (65 <=? x) && (x <=? 90) then x + 32 else x) b.

(* the spelling of the name argument, however it was passed *)
Definition name_given (a : varg) : option bytes :=
  match a with ADefault => None | ALit n => Some n | ADyn v => as_bytes v end.

(* Which calls succeed.  The five functions with a name argument are two shapes over a name table: the name is
   looked up as written at compile time (sha2, sha3), or upper-cased and looked up at run time (hmac, crc, xxhash). *)
Lemma with_bytes_ok x k r : with_bytes x k = ROk r -> exists b, x = VBytes b /\ k b = ROk r.
Proof. destruct x; try discriminate. eauto. Qed.

Lemma enum_call_ok {A} (name_of : A -> string) all dflt (f : A -> bytes -> value) a x r :
  match enum_arg name_of all dflt a with
  | None => RCompile
  | Some v => with_bytes x (fun b => ROk (f v b))
  end = ROk r ->
  exists v b, x = VBytes b /\ r = f v b /\ ((a = ADefault /\ v = dflt) \/ a = ALit (str (name_of v))).
Proof.
  destruct (enum_arg name_of all dflt a) as [v|] eqn:E; [|discriminate].
  intros (b & -> & [= <-])%with_bytes_ok. exists v, b. split; [| split]; try reflexivity.
  destruct a as [|n|d]; cbn in E; [injection E as <-; auto | | discriminate].
  apply lookup_some in E as [_ <-]. auto.
Qed.

Lemma runtime_call_ok {A} (name_of : A -> string) all dflt (f : A -> res) a r :
  match runtime_name dflt a with
  | None => RErr EType
  | Some n => match lookup name_of all n with Some v => f v | None => RErr EName end
  end = ROk r ->
  exists v, In v all /\ f v = ROk r
    /\ match a with
       | ADefault => name_upper (str dflt) = str (name_of v)
       | _ => exists n, name_given a = Some n /\ name_upper n = str (name_of v)
       end.
Proof.
  destruct (runtime_name dflt a) as [n|] eqn:Hn; [|discriminate].
  destruct (lookup name_of all n) as [v|] eqn:L; [|discriminate].
  apply lookup_some in L as [Hin L]. intros Hf. exists v. split; [| split]; try assumption.
  destruct a as [|m|d]; cbn in Hn |- *.
  - congruence.
  - exists m. split; congruence.
  - destruct (as_bytes d) as [m|]; [|discriminate]. exists m. split; congruence.
Qed.

Definition crc_name (e : crc_entry) : string := fst (fst e).
Definition crc_check (e : crc_entry) : N := snd e.

Lemma crc_names_nodup : NoDup (map crc_name crc_catalogue).
Proof.
  assert (E : nodup string_dec (map crc_name crc_catalogue) = map crc_name crc_catalogue) by (vm_compute; reflexivity).
  rewrite <- E. apply NoDup_nodup.
Qed.

(* in a table without repeated names an entry is what its own name finds *)
Lemma lookup_self {A} (name_of : A -> string) all : NoDup (map name_of all) ->
  forall a, In a all -> lookup name_of all (str (name_of a)) = Some a.
Proof.
  unfold lookup. induction all as [|x l IH]; cbn [map find In]; intros Hnd a Hin; [contradiction |].
  apply NoDup_cons_iff in Hnd as [Hx Hnd].
  destruct (bytes_eqb (str (name_of x)) (str (name_of a))) eqn:E.
  - destruct Hin as [->|Hin]; [reflexivity |].
    apply bytes_eqb_eq, str_inj in E. rewrite E in Hx. contradiction Hx. apply in_map, Hin.
  - destruct Hin as [->|Hin]; [rewrite bytes_eqb_refl in E; discriminate | auto].
Qed.

Lemma crc_lookup_self e : In e crc_catalogue -> crc_lookup (str (crc_name e)) = Some e.
Proof. exact (lookup_self crc_name _ crc_names_nodup e). Qed.

(* evaluated once over the 112 entries: the name is its own upper-case form, and its lower-case spelling
   upper-cases back to it *)
Lemma crc_names_upper : forallb (fun e => bytes_eqb (name_upper (str (crc_name e))) (str (crc_name e))
    && bytes_eqb (name_upper (lower_ascii (str (crc_name e)))) (str (crc_name e))) crc_catalogue = true.
Proof. vm_compute. reflexivity. Qed.

Lemma crc_name_upper e : In e crc_catalogue ->
  name_upper (str (crc_name e)) = str (crc_name e)
  /\ name_upper (lower_ascii (str (crc_name e))) = str (crc_name e).
Proof.
  intros Hin. pose proof (proj1 (forallb_forall _ _) crc_names_upper e Hin) as H.
  rewrite andb_true_iff, !bytes_eqb_eq in H. exact H.
Qed.

(* any spelling that upper-cases to a catalogue name selects that entry *)
Lemma glue_crc_spelled e n b : In e crc_catalogue -> name_upper n = str (crc_name e) ->
  vrl_crc (ADyn (VBytes n)) (VBytes b) = ROk (VBytes (dec (crc_spec e b)))
  /\ vrl_crc (ALit n) (VBytes b) = ROk (VBytes (dec (crc_spec e b))).
Proof.
  intros Hin Hu. unfold vrl_crc, with_bytes, runtime_name; cbn [as_bytes].
  rewrite Hu, (crc_lookup_self e Hin). split; reflexivity.
Qed.

Lemma crc_check_all : forallb (fun e => crc_spec e (str "123456789") =? crc_check e) crc_catalogue = true.
Proof. vm_compute. reflexivity. Qed.

Lemma crc_catalogue_check e : In e crc_catalogue -> crc_spec e (str "123456789") = crc_check e.
Proof. intros Hin. apply N.eqb_eq. exact (proj1 (forallb_forall _ _) crc_check_all e Hin). Qed.

Lemma lt_pow2_bits a n : a < 2 ^ n <-> (forall k, n <= k -> N.testbit a k = false).
Proof.
  split.
  - intros Ha k Hk. destruct (N.eq_dec a 0) as [->|Hz]; [apply N.bits_0 |].
    apply N.bits_above_log2. apply N.log2_lt_pow2 in Ha; lia.
  - intros Hb. destruct (N.eq_dec a 0) as [->|Hz]; [apply N.neq_0_lt_0, N.pow_nonzero; lia |].
    apply N.log2_lt_pow2; [lia |].
    destruct (N.lt_ge_cases (N.log2 a) n) as [Hl|Hl]; [exact Hl |].
    specialize (Hb (N.log2 a) Hl). rewrite N.bit_log2 in Hb by exact Hz. discriminate.
Qed.

Lemma lxor_lt a b n : a < 2 ^ n -> b < 2 ^ n -> N.lxor a b < 2 ^ n.
Proof.
  rewrite !lt_pow2_bits. intros Ha Hb k Hk. rewrite N.lxor_spec, Ha, Hb by exact Hk. reflexivity.
Qed.

Lemma shiftr_lt a k n : a < 2 ^ n -> N.shiftr a k < 2 ^ n.
Proof.
  rewrite !lt_pow2_bits. intros Ha j Hj. rewrite N.shiftr_spec by lia. apply Ha. lia.
Qed.

Lemma xorshift_lt x k n : x < 2 ^ n -> xorshift x k < 2 ^ n.
Proof. intros Hx. apply lxor_lt; [| apply shiftr_lt]; exact Hx. Qed.

Lemma land_ones_lt a n : N.land a (N.ones n) < 2 ^ n.
Proof. rewrite N.land_ones. apply N.mod_lt. apply N.pow_nonzero. lia. Qed.

Lemma trunc64_lt a : trunc64 a < 2 ^ 64.
Proof. apply (land_ones_lt a 64). Qed.
Lemma trunc32_lt a : trunc32 a < 2 ^ 32.
Proof. apply (land_ones_lt a 32). Qed.

(* every avalanche ends in an xorshift of a truncated product *)
Lemma xxh64_avalanche_lt h : xxh64_avalanche h < 2 ^ 64.
Proof. apply xorshift_lt, trunc64_lt. Qed.

Lemma xxh3_avalanche_lt h : xxh3_avalanche h < 2 ^ 64.
Proof. apply xorshift_lt, trunc64_lt. Qed.

Lemma xxh32_lt m : xxh32 m < 2 ^ 32.
Proof. apply xorshift_lt, trunc32_lt. Qed.

Lemma xxh64_lt m : xxh64 m < 2 ^ 64.
Proof. apply xxh64_avalanche_lt. Qed.

Lemma xxh3_64_lt m : xxh3_64 m < 2 ^ 64.
Proof.
  unfold xxh3_64. repeat match goal with |- (if ?c then _ else _) < _ => destruct c end;
    first [apply xxh64_avalanche_lt | apply xxh3_avalanche_lt | apply xorshift_lt, trunc64_lt].
Qed.

Lemma seahash_lt m : seahash m < 2 ^ 64.
Proof. unfold seahash. destruct (fold_left sea_write _ sea_init) as [[[a b] c] d]. apply trunc64_lt. Qed.
