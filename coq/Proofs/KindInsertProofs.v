(* Soundness of Kind::insert with respect to `member`, on the domain `ins_ok`. *)
From Coq Require Import List ZArith Bool Lia.
From VRL Require Import Base.Bytes Base.Value Model.ValueCrud Model.Kind Model.KindCrud Model.KindDomains
  Proofs.ListFacts Proofs.ValueCrudProofs Proofs.KindBasics Proofs.KindGetProofs.
Import ListNotations.

(* wf_value is forallb over the children, by conversion *)
Lemma wf_arr_iff vs : wf_value (VArr vs) = true <-> forall x, In x vs -> wf_value x = true.
Proof. apply (forallb_forall wf_value vs). Qed.

Lemma wf_obj_iff m : wf_value (VObj m) = true <->
  obj_sorted m = true /\ (forall g w, In (g, w) m -> wf_value w = true).
Proof.
  change (wf_value (VObj m)) with (obj_sorted m && forallb (fun kv => wf_value (snd kv)) m).
  rewrite andb_true_iff, forallb_forall. split; intros [Hs H]; split; auto.
  - intros g w Hin. apply (H (g, w) Hin).
  - intros [g w] Hin. apply (H g w Hin).
Qed.

Lemma wf_arr {vs n x} : wf_value (VArr vs) = true -> nth_error vs n = Some x -> wf_value x = true.
Proof. intros H Hn. apply (proj1 (wf_arr_iff vs) H), (nth_error_In _ _ Hn). Qed.

(* an object with one field rewritten, typed by the collection with that entry rewritten *)
Lemma obj_ok_set m (c : ocoll) f w' x' : obj_sorted m = true ->
  (forall g w, g <> f -> In (g, w) m -> member w (coll_at bytes_eqb c g) = true) ->
  (forall g, g <> f -> obj_get m g = None -> p_undefined (prims_of (coll_at bytes_eqb c g)) = true) ->
  member w' x' = true ->
  obj_ok (obj_set m f w') (set_known c (aset bytes_cmp (known c) f x')) = true.
Proof.
  intros Hs H1 H2 Hw. apply obj_ok_fits, (fits_set bytes_eqb bytes_cmp bytes_eqb_eq bytes_cmp_eq);
    unfold obj_has, obj_lacks.
  - intros g w Hne Hin. destruct (in_obj_set_sorted _ _ _ Hs _ _ Hin) as [[-> _]|[_ Hin']]; [congruence | auto].
  - intros g Hne Hg. rewrite obj_get_set_other in Hg by auto. auto.
  - intros w Hin. destruct (in_obj_set_sorted _ _ _ Hs _ _ Hin) as [[_ ->]|[Hne _]]; [auto | congruence].
  - intros Hg. rewrite obj_get_set_same in Hg. discriminate.
Qed.

Lemma aget_fill_absent (m : list (nat * kind)) hi (x : kind) : forall n,
  aget Nat.eqb (fill_absent m 0 hi x) n =
  match aget Nat.eqb m n with Some y => Some y | None => if Nat.ltb n hi then Some x else None end.
Proof.
  unfold fill_absent. rewrite Nat.sub_0_r. induction hi as [|hi IH]; intros n.
  - cbn. destruct (aget Nat.eqb m n); reflexivity.
  - rewrite seq_S, fold_left_app. cbn [fold_left Nat.add]. set (acc := fold_left _ (seq 0 hi) m) in *.
    (* index hi itself is not filled yet *)
    assert (aget Nat.eqb acc hi = aget Nat.eqb m hi) as Eh
      by (rewrite IH, Nat.ltb_irrefl; destruct (aget Nat.eqb m hi); reflexivity).
    unfold ahas. rewrite Eh. destruct (aget Nat.eqb m hi) eqn:Em; cbn [is_some]; [|rewrite aget_aset'];
      rewrite IH; destruct (Nat.eqb_spec hi n) as [<-|Hne]; rewrite ?Em, ?Nat.ltb_irrefl;
      try (destruct (Nat.ltb_spec hi (S hi)); [reflexivity | lia]);
      destruct (aget Nat.eqb m n); auto; destruct (Nat.ltb_spec n hi), (Nat.ltb_spec n (S hi)); auto; lia.
Qed.

Definition hole_kind (c : acoll) : kind := or_null (remove_undefined (unknown_kind c)).

Definition filled (c : acoll) (idx : nat) : acoll :=
  if ahas Nat.eqb (known c) idx then c else set_known c (fill_absent (known c) 0 idx (hole_kind c)).

Lemma coll_at_filled c idx n :
  coll_at Nat.eqb (filled c idx) n =
  match aget Nat.eqb (known c) n with
  | Some y => y
  | None => if negb (ahas Nat.eqb (known c) idx) && Nat.ltb n idx then hole_kind c else unknown_kind c
  end.
Proof.
  unfold filled, coll_at. destruct (ahas Nat.eqb (known c) idx); cbn [negb andb].
  - destruct (aget Nat.eqb (known c) n); reflexivity.
  - cbn [set_known known]. rewrite aget_fill_absent.
    destruct (aget Nat.eqb (known c) n); auto. destruct (Nat.ltb n idx); reflexivity.
Qed.

Lemma coll_at_filled_idx c idx : coll_at Nat.eqb (filled c idx) idx = coll_at Nat.eqb c idx.
Proof.
  rewrite coll_at_filled. unfold coll_at. destruct (aget Nat.eqb (known c) idx); auto.
  rewrite Nat.ltb_irrefl, andb_false_r. reflexivity.
Qed.

Lemma member_hole c x : member x (unknown_kind c) = true -> member x (hole_kind c) = true.
Proof. intros H. unfold hole_kind. apply member_or_null. rewrite member_remove_undefined. exact H. Qed.

Lemma p_null_hole c : p_null (prims_of (hole_kind c)) = true.
Proof. unfold hole_kind. destruct (remove_undefined (unknown_kind c)) as [[] a o]; reflexivity. Qed.

(* writing index idx of an array, padding with nulls up to it: the hypotheses say what `c` must assign to
   the elements that stay, to the indices behind the result, and to the padded positions *)
Lemma arr_set_pos_sound vs (c : acoll) idx w' kk' :
  (forall n y, nth_error vs n = Some y -> member y (coll_at Nat.eqb c n) = true) ->
  (forall n, length vs <= n -> idx < n -> p_undefined (prims_of (coll_at Nat.eqb c n)) = true) ->
  (forall n kk, length vs <= n -> n < idx -> aget Nat.eqb (known c) n = Some kk -> p_null (prims_of kk) = true) ->
  (ahas Nat.eqb (known c) idx = true -> forall n, length vs <= n -> n < idx ->
     aget Nat.eqb (known c) n = None -> p_null (prims_of (unknown_kind c)) = true) ->
  member w' kk' = true ->
  arr_ok (arr_set vs (Z.of_nat idx) w')
         (set_known (filled c idx) (aset Nat.compare (known (filled c idx)) idx kk')) = true.
Proof.
  intros HE HU HN1 HN2 Hw. apply arr_ok_intro.
  - intros n y Hn. rewrite coll_at_set_a. rewrite arr_set_nth_nonneg in Hn by lia. rewrite Nat2Z.id in Hn.
    destruct (Nat.eqb_spec n idx) as [->|Hne].
    + rewrite Nat.eqb_refl. inversion Hn; subst. exact Hw.
    + destruct (Nat.eqb_spec idx n); [congruence|]. rewrite coll_at_filled.
      destruct (Nat.ltb_spec n (length vs)) as [Hl|Hl].
      * specialize (HE _ _ Hn). unfold coll_at in HE.
        destruct (aget Nat.eqb (known c) n); auto.
        destruct (negb (ahas Nat.eqb (known c) idx) && Nat.ltb n idx); auto. apply member_hole; auto.
      * destruct (Nat.ltb_spec n idx) as [Hi|Hi]; [|discriminate]. inversion Hn; subst y.
        cbn [member].
        destruct (aget Nat.eqb (known c) n) as [kk|] eqn:En; [eapply HN1; eauto|].
        destruct (ahas Nat.eqb (known c) idx) eqn:Hh; [eapply HN2; eauto | apply p_null_hole].
  - intros n Hl. rewrite length_arr_set in Hl. unfold new_len in Hl.
    destruct (Z.leb_spec 0 (Z.of_nat idx)); [|lia]. rewrite Nat2Z.id in Hl.
    rewrite coll_at_set_a. destruct (Nat.eqb_spec idx n); [lia|].
    rewrite coll_at_filled. specialize (HU n ltac:(lia) ltac:(lia)). unfold coll_at in HU.
    destruct (aget Nat.eqb (known c) n); auto.
    destruct (Nat.ltb_spec n idx); [lia|]. rewrite andb_false_r. exact HU.
Qed.

Lemma insert_rec_field k f p x : is_never x = false ->
  insert_rec k (SField f :: p) x =
  let c := match obj_of k with Some c => c | None => coll_empty end in
  k_object (set_known c (aset bytes_cmp (known c) f (insert_rec (coll_at bytes_eqb c f) p x))).
Proof. intros H. cbn [insert_rec]. rewrite H. reflexivity. Qed.

Lemma insert_rec_index_pos k i p x : is_never x = false -> (0 <= i)%Z ->
  insert_rec k (SIndex i :: p) x =
  let c := match arr_of k with Some c => c | None => coll_empty end in
  let idx := Z.to_nat i in
  k_array (set_known (filled c idx)
             (aset Nat.compare (known (filled c idx)) idx (insert_rec (coll_at Nat.eqb (filled c idx) idx) p x))).
Proof.
  intros H Hi. cbn [insert_rec]. rewrite H. destruct (Z.ltb_spec i 0); [lia|].
  cbv zeta. unfold filled, hole_kind. reflexivity.
Qed.

Lemma largest_all_defined c : all_defined c = true -> largest_known_index c = max_opt (map fst (known c)).
Proof. intros H. unfold largest_known_index. rewrite (filter_const _ true); [reflexivity|]. apply forallb_forall, H. Qed.

Lemma insert_rec_index_neg k c i p x : is_never x = false -> (i < 0)%Z ->
  arr_of k = Some c -> all_defined c = true -> contains_any_defined (unknown_kind c) = false ->
  Z.to_nat (- i) <= known_len c ->
  insert_rec k (SIndex i :: p) x =
  let idx := known_len c - Z.to_nat (- i) in
  k_array (set_known (filled c idx)
             (aset Nat.compare (known (filled c idx)) idx (insert_rec (coll_at Nat.eqb (filled c idx) idx) p x))).
Proof.
  intros H Hi Ha Hdef Hd Hr. cbn [insert_rec]. rewrite H, Ha. destruct (Z.ltb_spec i 0); [|lia].
  cbv zeta. rewrite Hd, (largest_all_defined _ Hdef).
  fold (known_len c). destruct (Nat.ltb_spec (known_len c) (Z.to_nat (- i))); [lia|].
  replace (Z.to_nat (i + Z.of_nat (Nat.max (Z.to_nat (- i)) (known_len c))))
    with (known_len c - Z.to_nat (- i)) by lia.
  unfold filled, hole_kind. reflexivity.
Qed.

(* an index inside the array, of either sign, is a plain list update *)
Lemma arr_set_at vs i idx w : arr_index (length vs) i = Some idx -> idx < length vs ->
  arr_set vs i w = list_set vs idx w.
Proof.
  intros He Hl. destruct (arr_set_in_range vs i w) as (n & Hn & _ & ->); [|congruence].
  unfold in_range. rewrite He. apply Nat.ltb_lt, Hl.
Qed.

Lemma coll_empty_known {K} : known (@coll_empty K) = [].
Proof. reflexivity. Qed.

Lemma coll_at_empty {K} (keqb : K -> K -> bool) key : coll_at keqb coll_empty key = k_undefined.
Proof. reflexivity. Qed.

Lemma others_optional_spec {K} (keqb : K -> K -> bool) (keqb_spec : forall a b, keqb a b = true <-> a = b)
      (c : coll_ K kind) f g :
  others_optional keqb c f = true -> g <> f -> p_undefined (prims_of (coll_at keqb c g)) = true.
Proof.
  unfold others_optional. rewrite forallb_forall. intros H Hne. unfold coll_at.
  destruct (aget keqb (known c) g) as [kk|] eqn:E; [|apply p_undefined_unknown_kind].
  specialize (H (g, kk) (aget_in keqb keqb_spec E)). cbn [fst snd] in H.
  destruct (keqb g f) eqn:Eg; [apply keqb_spec in Eg; contradiction | exact H].
Qed.

Lemma pads_ok_spec c idx n : pads_ok c idx = true -> n < idx -> aget Nat.eqb (known c) n = None ->
  p_null (prims_of (unknown_kind c)) = true.
Proof.
  unfold pads_ok. rewrite forallb_forall. intros H Hn E.
  specialize (H n). rewrite in_seq in H. specialize (H ltac:(lia)). unfold ahas in H. rewrite E in H. exact H.
Qed.

Lemma idx_fresh_ok_spec c idx : idx_fresh_ok c idx = true ->
  (forall n, idx < n -> p_undefined (prims_of (coll_at Nat.eqb c n)) = true)
  /\ (forall n kk, n < idx -> aget Nat.eqb (known c) n = Some kk -> p_null (prims_of kk) = true)
  /\ (ahas Nat.eqb (known c) idx = true -> forall n, n < idx -> aget Nat.eqb (known c) n = None ->
        p_null (prims_of (unknown_kind c)) = true).
Proof.
  unfold idx_fresh_ok. rewrite andb_true_iff, forallb_forall. intros [H1 H2]. repeat split.
  - intros n Hn. unfold coll_at. destruct (aget Nat.eqb (known c) n) as [kk|] eqn:E;
      [|apply p_undefined_unknown_kind].
    specialize (H1 (n, kk) (aget_in Nat.eqb Nat.eqb_eq E)). cbn [fst snd] in H1.
    destruct (Nat.ltb_spec n idx); [lia|]. destruct (Nat.ltb_spec idx n); [auto|lia].
  - intros n kk Hn E. specialize (H1 (n, kk) (aget_in Nat.eqb Nat.eqb_eq E)). cbn [fst snd] in H1.
    destruct (Nat.ltb_spec n idx); [auto|lia].
  - intros Hh n. rewrite Hh in H2. apply pads_ok_spec, H2.
Qed.

Lemma idx_pad_ok_spec c idx : idx_pad_ok c idx = true ->
  (forall n kk, n < idx -> aget Nat.eqb (known c) n = Some kk ->
     p_undefined (prims_of kk) = true -> p_null (prims_of kk) = true)
  /\ (forall ki, aget Nat.eqb (known c) idx = Some ki -> p_undefined (prims_of ki) = true ->
        forall n, n < idx -> aget Nat.eqb (known c) n = None -> p_null (prims_of (unknown_kind c)) = true).
Proof.
  unfold idx_pad_ok. rewrite andb_true_iff, forallb_forall. intros [H1 H2]. split.
  - intros n kk Hn E Hu. specialize (H1 (n, kk) (aget_in Nat.eqb Nat.eqb_eq E)). cbn [fst snd] in H1.
    destruct (Nat.ltb_spec n idx); [|lia]. rewrite Hu in H1. exact H1.
  - intros ki Ei Hu n. rewrite Ei, Hu in H2. apply pads_ok_spec, H2.
Qed.

(* the propositional skeleton shared by the field and the index clause of ins_ok: A = the container may be
   built from nothing, T / F = the rest of the path is fine for a vacant / an occupied slot below *)
Lemma ins_ok_shape (fresh hasc exact und A T F P : bool) :
  (if fresh || negb hasc then A && T
   else P && F && (if exact && negb und then true else T) && (exact || A)) = true ->
  (fresh || negb hasc || negb exact = true -> A = true /\ T = true)
  /\ (fresh = false -> hasc = true -> P = true /\ F = true /\ (und = true -> T = true)).
Proof. destruct fresh, hasc, exact, und; cbn; rewrite ?andb_true_iff; intuition congruence. Qed.

Definition slot_ok (fresh : bool) (slot : option value) (k : kind) : Prop :=
  if fresh then slot = None
  else exists v, slot = Some v /\ member v k = true /\ wf_value v = true.

(* a slot that does not hold the container the segment needs is overwritten by a fresh container; ins_ok
   then asks for what building from nothing needs *)
Lemma slot_off fresh slot k s : slot_ok fresh slot k ->
  (forall v, slot = Some v -> match s with SField _ => forall m, v <> VObj m | SIndex _ => forall vs, v <> VArr vs end) ->
  fresh || negb (has_container k s) || negb (is_exact k) = true.
Proof.
  destruct fresh; auto. intros (v & -> & Hm & _) Hv. cbn [orb].
  destruct (has_container k s) eqn:Hc; auto. cbn [negb orb].
  rewrite (off_not_exact (Some v) k s); auto. split; auto. apply Hv. reflexivity.
Qed.

(* a fresh array [null; ..; null; w'] *)
Lemma fresh_index_sound c idx w' kk' : idx_fresh_ok c idx = true -> member w' kk' = true ->
  arr_ok (arr_set [] (Z.of_nat idx) w')
         (set_known (filled c idx) (aset Nat.compare (known (filled c idx)) idx kk')) = true.
Proof.
  intros Hf Hw. destruct (idx_fresh_ok_spec _ _ Hf) as (HU & HN1 & HN2).
  apply arr_set_pos_sound; auto.
  - intros [|n] y; discriminate.
  - intros n kk _ Hn E. eapply HN1; eauto.
  - intros Hh n _ Hn E. eapply HN2; eauto.
Qed.

(* an array that is a member, written at idx and padded up to it if need be *)
Lemma kept_index_sound vs c idx w' kk' : arr_ok vs c = true -> idx_pad_ok c idx = true -> member w' kk' = true ->
  arr_ok (arr_set vs (Z.of_nat idx) w')
         (set_known (filled c idx) (aset Nat.compare (known (filled c idx)) idx kk')) = true.
Proof.
  intros Hm Hpad Hw. destruct (idx_pad_ok_spec _ _ Hpad) as [HP1 HP2]. apply arr_set_pos_sound; auto.
  - intros n z. apply (arr_ok_elem Hm).
  - intros n Hn _. apply (arr_ok_absent Hm Hn).
  - intros n kk Hl Hn E. apply (HP1 n kk Hn E).
    rewrite <- (coll_at_known E). apply (arr_ok_absent Hm Hl).
  - intros Hh n Hl Hn E. unfold ahas in Hh.
    destruct (aget Nat.eqb (known c) idx) as [ki|] eqn:Ei; [|discriminate].
    apply (HP2 ki eq_refl) with (n := n); auto.
    rewrite <- (coll_at_known Ei). apply (arr_ok_absent Hm). lia.
Qed.

Section InsertSound.
  Variable xv : value.
  Variable x : kind.
  Hypothesis Hx : member xv x = true.

  Let Hnx : is_never x = false := member_not_never _ _ Hx.

  Lemma ins_sound : forall p fresh slot k, ins_ok fresh k p = true -> slot_ok fresh slot k ->
    member (ins slot p xv) (insert_rec k p x) = true.
  Proof.
    induction p as [|s p IH]; intros fresh slot k Hok Hs.
    - cbn. rewrite Hnx. exact Hx.
    - (* the slot one level down: occupied by a member of `cur`, or vacant where `cur` admits undefined *)
      assert (forall o cur, ins_ok false cur p = true ->
                (p_undefined (prims_of cur) = true -> ins_ok true cur p = true) ->
                match o with
                | Some w => member w cur = true /\ wf_value w = true
                | None => p_undefined (prims_of cur) = true
                end -> member (ins o p xv) (insert_rec cur p x) = true) as Hsub.
      { intros [w|] cur H1 H2 Ho; [apply (IH false); auto; exists w; tauto | apply (IH true); auto; reflexivity]. }
      destruct s as [f|i]; cbn [ins ins_ok] in *.
      + rewrite insert_rec_field by exact Hnx. cbv zeta.
        set (c := match obj_of k with Some c => c | None => coll_empty end) in *.
        set (cur := coll_at bytes_eqb c f) in *.
        unfold k_object. rewrite member_obj. cbn [obj_of].
        destruct (ins_ok_shape _ _ _ _ _ _ _ true Hok) as [Hbuilt Hkept].
        destruct slot as [[ | | | | | | m | | ]|];
          try (destruct (Hbuilt (slot_off _ _ k (SField f) Hs ltac:(intros ? [= <-]; discriminate))) as [Hopt HT];
               apply obj_ok_set; [reflexivity | intros g w _ [] | | apply (IH true); [exact HT | reflexivity]];
               intros g Hne _; apply (others_optional_spec bytes_eqb bytes_eqb_eq c f g Hopt Hne)).
        (* an object that is a member *)
        destruct fresh; [discriminate Hs|]. destruct Hs as (v & [= <-] & Hm & Hwf).
        rewrite member_obj in Hm. destruct (obj_of k) as [c0|]; [subst c | discriminate].
        destruct (Hkept eq_refl eq_refl) as (_ & HF & HT). destruct (proj1 (wf_obj_iff _) Hwf) as [Hsorted Hwfc].
        apply obj_ok_set; auto.
        * intros g w _. apply (obj_ok_elem Hm).
        * intros g _. apply (obj_ok_absent Hm).
        * apply Hsub; auto. destruct (obj_get m f) as [w0|] eqn:Eg.
          -- apply obj_get_in in Eg. split; [apply (obj_ok_elem Hm Eg) | apply (Hwfc _ _ Eg)].
          -- apply (obj_ok_absent Hm Eg).
      + set (c := match arr_of k with Some c => c | None => coll_empty end) in *.
        destruct (Z.ltb_spec i 0) as [Hi|Hi].
        * (* negative, inside an exact array of known length *)
          rewrite !andb_true_iff in Hok.
          destruct Hok as [[[[[[[Hfr Hex] Hsome] Hreq] Hdef] Hd] Hr] Hokc].
          apply negb_true_iff in Hfr. subst fresh. apply negb_true_iff in Hd. apply Nat.leb_le in Hr.
          destruct Hs as (v & -> & Hm & Hwf).
          destruct (arr_of k) as [c0|] eqn:Ha; [|discriminate]. subst c.
          destruct (exact_arr_only _ _ _ Hex Ha Hm) as [vs ->].
          rewrite member_arr, Ha in Hm. pose proof (exact_length Hm Hreq Hd) as HL.
          rewrite (insert_rec_index_neg k c0 i p x Hnx Hi Ha Hdef Hd Hr). cbv zeta.
          set (idx := known_len c0 - Z.to_nat (- i)) in *.
          assert (idx < length vs) as Hidx by (unfold idx; lia).
          assert (arr_index (length vs) i = Some idx) as Hai.
          { rewrite (arr_index_neg _ i Hi), HL. destruct (Nat.leb_spec (Z.to_nat (- i)) (known_len c0)); [reflexivity | lia]. }
          unfold arr_get. rewrite Hai, (arr_set_at vs i idx _ Hai Hidx).
          rewrite <- (arr_set_at vs (Z.of_nat idx) idx) by (rewrite ?arr_index_nonneg, ?Nat2Z.id by lia; auto).
          unfold k_array. rewrite member_arr. cbn [arr_of].
          apply arr_set_pos_sound; try (intros; lia).
          -- intros n z. apply (arr_ok_elem Hm).
          -- intros n Hn _. apply (arr_ok_absent Hm Hn).
          -- rewrite coll_at_filled_idx. destruct (nth_error vs idx) as [y|] eqn:En; [|apply nth_error_None in En; lia].
             apply (IH false); auto. exists y.
             repeat split; [apply (arr_ok_elem Hm En) | apply (wf_arr Hwf En)].
        * (* non-negative *)
          rewrite (insert_rec_index_pos k i p x Hnx Hi). cbv zeta. fold c.
          set (idx := Z.to_nat i) in *. set (cur := coll_at Nat.eqb c idx) in *.
          replace i with (Z.of_nat idx) by (unfold idx; lia).
          unfold k_array. rewrite member_arr. cbn [arr_of]. rewrite coll_at_filled_idx. fold cur.
          destruct (ins_ok_shape _ _ _ _ _ _ _ _ Hok) as [Hbuilt Hkept].
          destruct slot as [[ | | | | | | | vs | ]|];
            try (destruct (Hbuilt (slot_off _ _ k (SIndex i) Hs ltac:(intros ? [= <-]; discriminate))) as [Hfok HT];
                 rewrite arr_get_nil; apply fresh_index_sound; [exact Hfok | apply (IH true); [exact HT | reflexivity]]).
          (* an array that is a member *)
          destruct fresh; [discriminate Hs|]. destruct Hs as (v & [= <-] & Hm & Hwf).
          rewrite member_arr in Hm. destruct (arr_of k) as [c0|]; [subst c | discriminate].
          destruct (Hkept eq_refl eq_refl) as (Hpad & HF & HT).
          rewrite arr_get_nonneg, Nat2Z.id by lia. apply kept_index_sound; auto.
          apply Hsub; auto. destruct (nth_error vs idx) as [y|] eqn:En.
          -- split; [apply (arr_ok_elem Hm En) | apply (wf_arr Hwf En)].
          -- apply (arr_ok_absent Hm). apply nth_error_None, En.
  Qed.
End InsertSound.


(* Kind::insert upgrades the inserted kind first, so a member of the upgraded kind is enough *)
Theorem kinsert_sound v k p xv kx :
  wf_value v = true -> ins_ok false k p = true -> member v k = true -> member xv (upgrade_undefined kx) = true ->
  member (insert v p xv) (kinsert k p kx) = true.
Proof.
  intros Hwf Hok Hm Hx. apply (ins_sound xv (upgrade_undefined kx) Hx p false (Some v) k Hok).
  exists v. auto.
Qed.
