(* Basic lemmas for the Kind model: association lists, what a collection assigns to a key, membership
   of arrays and objects key by key, the kinds that have no member, the infinite kinds. *)
From Coq Require Import List ZArith Bool Lia.
From VRL Require Import Base.Bytes Base.Value Model.Kind.
Import ListNotations.

Section AssocLemmas.
  Context {K A : Type}.
  Variable keqb : K -> K -> bool.
  Variable kcmp : K -> K -> comparison.
  Hypothesis keqb_spec : forall a b, keqb a b = true <-> a = b.
  Hypothesis kcmp_spec : forall a b, kcmp a b = Eq <-> a = b.

  Lemma keqb_refl a : keqb a a = true.
  Proof. apply keqb_spec; reflexivity. Qed.

  Lemma aget_aset (m : list (K * A)) k k' x :
    aget keqb (aset kcmp m k x) k' = if keqb k k' then Some x else aget keqb m k'.
  Proof.
    induction m as [|[k0 y] m IH]; cbn; [reflexivity|].
    destruct (kcmp k0 k) eqn:E; cbn.
    - apply kcmp_spec in E; subst k0. destruct (keqb k k'); reflexivity.
    - rewrite IH. destruct (keqb k0 k') eqn:E0, (keqb k k') eqn:E1; auto.
      apply keqb_spec in E0, E1; subst. rewrite (proj2 (kcmp_spec k' k') eq_refl) in E. discriminate.
    - reflexivity.
  Qed.

  Lemma aget_adel (m : list (K * A)) k k' :
    aget keqb (adel keqb m k) k' = if keqb k k' then None else aget keqb m k'.
  Proof.
    unfold adel. induction m as [|[k0 y] m IH]; cbn.
    - destruct (keqb k k'); reflexivity.
    - destruct (keqb k0 k) eqn:E0; cbn; rewrite IH.
      + apply keqb_spec in E0; subst k0. destruct (keqb k k'); reflexivity.
      + destruct (keqb k k') eqn:E1; auto. apply keqb_spec in E1; subst k'. rewrite E0. reflexivity.
  Qed.

  Lemma aget_amap (f : K -> A -> A) (m : list (K * A)) k :
    aget keqb (amap f m) k = option_map (f k) (aget keqb m k).
  Proof.
    unfold amap. induction m as [|[k0 y] m IH]; cbn; auto.
    destruct (keqb k0 k) eqn:E; auto. apply keqb_spec in E; subst. reflexivity.
  Qed.

  Lemma aget_map_val {B} (f : A -> B) (m : list (K * A)) k :
    aget keqb (map (fun kv => (fst kv, f (snd kv))) m) k = option_map f (aget keqb m k).
  Proof. induction m as [|[k0 y] m IH]; cbn; auto. destruct (keqb k0 k); auto. Qed.

  Lemma aget_filter (P : K -> bool) (m : list (K * A)) k :
    aget keqb (filter (fun kv => P (fst kv)) m) k = if P k then aget keqb m k else None.
  Proof.
    induction m as [|[k0 y] m IH]; cbn.
    - destruct (P k); reflexivity.
    - destruct (P k0) eqn:E0; cbn; rewrite IH;
        destruct (keqb k0 k) eqn:E; auto; apply keqb_spec in E; subst; rewrite E0; reflexivity.
  Qed.

  Lemma aget_aset_all (m l : list (K * A)) k :
    aget keqb (aset_all kcmp m l) k = match aget keqb l k with Some x => Some x | None => aget keqb m k end.
  Proof.
    unfold aset_all. induction l as [|[k0 y] l IH]; cbn; auto.
    rewrite aget_aset. cbn. destruct (keqb k0 k); auto.
  Qed.

  Lemma aget_in {m : list (K * A)} {k x} : aget keqb m k = Some x -> In (k, x) m.
  Proof.
    induction m as [|[k0 y] m IH]; cbn; [discriminate|].
    destruct (keqb k0 k) eqn:E; auto.
    apply keqb_spec in E; subst. intros H; inversion H; auto.
  Qed.

  Lemma in_keys_aget (m : list (K * A)) k : In k (map fst m) <-> aget keqb m k <> None.
  Proof.
    induction m as [|[k0 y] m IH]; cbn.
    - split; [tauto | congruence].
    - destruct (keqb k0 k) eqn:E.
      + apply keqb_spec in E; subst. split; [congruence | auto].
      + rewrite <- IH. split; [intros [->|H]; auto; rewrite keqb_refl in E; discriminate | auto].
  Qed.

  Lemma ahas_true (m : list (K * A)) k : ahas keqb m k = true <-> In k (map fst m).
  Proof.
    unfold ahas. rewrite in_keys_aget. destruct (aget keqb m k); cbn; split; congruence.
  Qed.
End AssocLemmas.

(* Kind.max_opt: the largest element *)
Lemma fold_max_spec r : forall x,
  let m := fold_left Nat.max r x in (m = x \/ In m r) /\ x <= m /\ (forall y, In y r -> y <= m).
Proof.
  induction r as [|z r IH]; intros x; cbn.
  - repeat split; auto. tauto.
  - specialize (IH (Nat.max x z)). cbv zeta in IH. destruct IH as (H0 & H1 & H2).
    split; [|split].
    + destruct H0 as [E|E]; [|auto].
      destruct (Nat.max_spec x z) as [[_ Em]|[_ Em]]; rewrite Em in *;
        [right; left; symmetry; exact E | left; exact E].
    + lia.
    + intros y [<-|Hy]; [lia|auto].
Qed.

Lemma max_opt_spec l :
  match max_opt l with
  | Some m => In m l /\ (forall x, In x l -> x <= m)
  | None => l = []
  end.
Proof.
  destruct l as [|x r]; cbn; auto.
  destruct (fold_max_spec r x) as ([E|E] & H1 & H2); split; auto; intros y [->|Hy]; auto.
Qed.

Lemma max_opt_lt l j : In j l -> j < match max_opt l with Some m => S m | None => 0 end.
Proof.
  intros H. pose proof (max_opt_spec l) as Hs. destruct (max_opt l) as [m|]; [|subst; contradiction].
  destruct Hs as [_ Hs]. specialize (Hs _ H). lia.
Qed.

Lemma member_or_undefined v k : member v (or_undefined k) = member v k.
Proof. destruct k as [[] a o], v; reflexivity. Qed.

Lemma member_remove_undefined v k : member v (remove_undefined k) = member v k.
Proof. destruct k as [[] a o], v; reflexivity. Qed.

Lemma member_unknown_kind_exact v x : member v (unknown_kind_u (UExact x)) = member v x.
Proof. unfold unknown_kind_u, existing_kind. rewrite member_or_undefined, member_remove_undefined. reflexivity. Qed.

Lemma member_unknown_kind_inf v i : member v (unknown_kind_u (UInf i)) = member v (kind_of_inf i).
Proof. unfold unknown_kind_u, existing_kind. rewrite member_or_undefined, member_remove_undefined. reflexivity. Qed.

Lemma p_undefined_or_undefined k : p_undefined (prims_of (or_undefined k)) = true.
Proof. destruct k as [[] a o]; reflexivity. Qed.

Lemma p_undefined_unknown_kind u : p_undefined (prims_of (unknown_kind_u u)) = true.
Proof. apply p_undefined_or_undefined. Qed.

Lemma or_undefined_id k : p_undefined (prims_of k) = true -> or_undefined k = k.
Proof. destruct k as [[] a o]. cbn. intros ->. reflexivity. Qed.

Lemma member_or_null v k : member v k = true -> member v (or_null k) = true.
Proof. destruct k as [[] a o], v; cbn; auto. Qed.

Lemma member_null_or_null k : member VNull (or_null k) = true.
Proof. destruct k as [[] a o]; reflexivity. Qed.

Lemma is_never_eq k : is_never k = true -> k = k_never.
Proof.
  destruct k as [[] a o]. unfold is_never, p_is_none. cbn.
  rewrite !andb_true_iff, !negb_true_iff, !orb_false_iff.
  intros [[H Ha] Ho]. destruct a, o; try discriminate. decompose [and] H; subst. reflexivity.
Qed.

Lemma member_never v : member v k_never = false.
Proof. destruct v; reflexivity. Qed.

Lemma member_is_never v k : is_never k = true -> member v k = false.
Proof. intros H. rewrite (is_never_eq k H). apply member_never. Qed.

Lemma member_not_never v k : member v k = true -> is_never k = false.
Proof. intros H. destruct (is_never k) eqn:E; auto. rewrite (member_is_never _ _ E) in H. discriminate. Qed.

Lemma is_never_or_undefined k : is_never (or_undefined k) = false.
Proof. destruct k as [[] a o]. unfold is_never, p_is_none. cbn. rewrite !orb_true_r. reflexivity. Qed.

Lemma is_undefined_never k : is_undefined k = is_never (remove_undefined k).
Proof. destruct k; reflexivity. Qed.

Lemma member_is_undefined v k : is_undefined k = true -> member v k = false.
Proof. rewrite is_undefined_never, <- (member_remove_undefined v k). apply member_is_never. Qed.

Lemma not_defined_no_member {v k} : contains_any_defined k = false -> member v k = false.
Proof. intros H. apply member_is_undefined, negb_false_iff, H. Qed.

Lemma member_defined v k : member v k = true -> contains_any_defined k = true.
Proof.
  intros H. destruct (contains_any_defined k) eqn:E; auto.
  rewrite (not_defined_no_member E) in H. discriminate.
Qed.

Lemma is_undefined_eq k : is_undefined k = true -> or_undefined k = k_undefined.
Proof.
  rewrite is_undefined_never. intros H. apply is_never_eq in H.
  destruct k as [[] a o]. inversion H. reflexivity.
Qed.

Lemma or_undefined_unknown_kind {K} (c : coll_ K kind) : or_undefined (unknown_kind c) = unknown_kind c.
Proof. apply or_undefined_id, p_undefined_unknown_kind. Qed.

(* the kind of a key that cannot be there *)
Lemma unknown_undefined_only {K} (c : coll_ K kind) : contains_any_defined (unknown_kind c) = false ->
  unknown_kind c = k_undefined.
Proof. intros H. rewrite <- or_undefined_unknown_kind. apply is_undefined_eq, negb_false_iff, H. Qed.

Section CollAt.
  Context {K : Type}.
  Variable keqb : K -> K -> bool.
  Variable kcmp : K -> K -> comparison.
  Hypothesis keqb_spec : forall a b, keqb a b = true <-> a = b.
  Hypothesis kcmp_spec : forall a b, kcmp a b = Eq <-> a = b.

  Lemma coll_at_known {c : coll_ K kind} {key x} : aget keqb (known c) key = Some x -> coll_at keqb c key = x.
  Proof. unfold coll_at. intros ->. reflexivity. Qed.

  Lemma coll_at_unknown {c : coll_ K kind} {key} : aget keqb (known c) key = None -> coll_at keqb c key = unknown_kind c.
  Proof. unfold coll_at. intros ->. reflexivity. Qed.

  Lemma coll_at_set (c : coll_ K kind) f x g :
    coll_at keqb (set_known c (aset kcmp (known c) f x)) g = if keqb f g then x else coll_at keqb c g.
  Proof.
    unfold coll_at. cbn [set_known known unknown_kind unknown]. rewrite (aget_aset keqb kcmp keqb_spec kcmp_spec).
    destruct (keqb f g); reflexivity.
  Qed.

  (* writing back what a key already has changes nothing that can be observed *)
  Lemma coll_at_set_same (c : coll_ K kind) f x g : aget keqb (known c) f = Some x ->
    coll_at keqb (set_known c (aset kcmp (known c) f x)) g = coll_at keqb c g.
  Proof.
    intros E. rewrite coll_at_set. destruct (keqb f g) eqn:Eg; auto.
    apply keqb_spec in Eg; subst g. symmetry. apply coll_at_known, E.
  Qed.

  (* the side condition on the keys a container value lacks, as `member` states it *)
  Lemma absent_keys_spec (present : K -> bool) (c : coll_ K kind) :
    forallb (fun key => present key || p_undefined (prims_of (coll_at keqb c key))) (map fst (known c)) = true
    <-> forall key, present key = false -> p_undefined (prims_of (coll_at keqb c key)) = true.
  Proof.
    rewrite forallb_forall. split.
    - intros H key Hp. destruct (aget keqb (known c) key) as [x|] eqn:E.
      + assert (In key (map fst (known c))) as Hin by (apply (in_keys_aget keqb keqb_spec); congruence).
        specialize (H _ Hin). rewrite Hp in H. exact H.
      + rewrite (coll_at_unknown E). apply p_undefined_unknown_kind.
    - intros H key _. destruct (present key) eqn:E; auto. apply H, E.
  Qed.
End CollAt.
Arguments coll_at_known {K keqb c key x}.
Arguments coll_at_unknown {K keqb c key}.

Lemma aget_aset' (m : list (nat * kind)) k x n :
  aget Nat.eqb (aset Nat.compare m k x) n = if Nat.eqb k n then Some x else aget Nat.eqb m n.
Proof. apply (aget_aset Nat.eqb Nat.compare Nat.eqb_eq Nat.compare_eq_iff). Qed.

Lemma aget_adel' (m : list (nat * kind)) k n :
  aget Nat.eqb (adel Nat.eqb m k) n = if Nat.eqb k n then None else aget Nat.eqb m n.
Proof. apply (aget_adel Nat.eqb Nat.eqb_eq). Qed.

Lemma coll_at_set_a (c : acoll) i x n :
  coll_at Nat.eqb (set_known c (aset Nat.compare (known c) i x)) n = if Nat.eqb i n then x else coll_at Nat.eqb c n.
Proof. apply (coll_at_set _ _ Nat.eqb_eq Nat.compare_eq_iff). Qed.

Lemma forallb_i_spec {A} (f : nat -> A -> bool) l : forall s,
  forallb_i f s l = true <-> (forall i x, nth_error l i = Some x -> f (s + i) x = true).
Proof.
  induction l as [|y l IH]; intros s; cbn.
  - split; auto. intros _ [|i] x; discriminate.
  - rewrite andb_true_iff, IH. split.
    + intros [H0 H] [|i] x; cbn.
      * intros E; inversion E; subst. rewrite Nat.add_0_r. auto.
      * intros E. replace (s + S i) with (S s + i) by lia. auto.
    + intros H. split.
      * specialize (H 0 y eq_refl). rewrite Nat.add_0_r in H. auto.
      * intros i x E. replace (S s + i) with (s + S i) by lia. apply H. auto.
Qed.

Definition arr_ok (vs : list value) (c : acoll) : bool :=
  forallb_i (fun i x => member x (coll_at Nat.eqb c i)) 0 vs
  && forallb (fun i => Nat.ltb i (length vs) || p_undefined (prims_of (coll_at Nat.eqb c i))) (map fst (known c)).

Definition obj_ok (kvs : list (bytes * value)) (c : ocoll) : bool :=
  forallb (fun kv => member (snd kv) (coll_at bytes_eqb c (fst kv))) kvs
  && forallb (fun f => is_some (obj_get kvs f) || p_undefined (prims_of (coll_at bytes_eqb c f))) (map fst (known c)).

Lemma member_arr vs k :
  member (VArr vs) k = match arr_of k with None => false | Some c => arr_ok vs c end.
Proof.
  cbn [member]. destruct (arr_of k) as [c|]; auto. unfold arr_ok. f_equal.
  generalize 0. induction vs as [|x r IH]; intros s; cbn; auto; rewrite IH; reflexivity.
Qed.

Lemma member_obj kvs k :
  member (VObj kvs) k = match obj_of k with None => false | Some c => obj_ok kvs c end.
Proof. cbn [member]. destruct (obj_of k) as [c|]; reflexivity. Qed.

(* A container value is a member of a collection when every key it has holds a member of what the
   collection assigns to that key, and every key it lacks is assigned a kind that admits undefined.
   Arrays and objects differ only in what having and lacking a key means. *)
Definition fits {K} (keqb : K -> K -> bool) (has : K -> value -> Prop) (lacks : K -> Prop) (c : coll_ K kind) : Prop :=
  (forall key w, has key w -> member w (coll_at keqb c key) = true)
  /\ (forall key, lacks key -> p_undefined (prims_of (coll_at keqb c key)) = true).

Definition arr_has (vs : list value) (i : nat) (x : value) : Prop := nth_error vs i = Some x.
Definition arr_lacks (vs : list value) (i : nat) : Prop := length vs <= i.
Definition obj_has (kvs : list (bytes * value)) (f : bytes) (w : value) : Prop := In (f, w) kvs.
Definition obj_lacks (kvs : list (bytes * value)) (f : bytes) : Prop := obj_get kvs f = None.

Lemma arr_ok_fits vs c : arr_ok vs c = true <-> fits Nat.eqb (arr_has vs) (arr_lacks vs) c.
Proof.
  unfold arr_ok, fits, arr_has, arr_lacks.
  rewrite andb_true_iff, forallb_i_spec, (absent_keys_spec Nat.eqb Nat.eqb_eq). cbn [Nat.add].
  split; intros [H1 H2]; (split; [exact H1|]); intros i Hl; apply H2; apply Nat.ltb_ge; exact Hl.
Qed.

Lemma obj_ok_fits kvs c : obj_ok kvs c = true <-> fits bytes_eqb (obj_has kvs) (obj_lacks kvs) c.
Proof.
  unfold obj_ok, fits, obj_has, obj_lacks.
  rewrite andb_true_iff, forallb_forall, (absent_keys_spec bytes_eqb bytes_eqb_eq). split; intros [H1 H2]; split.
  - intros f w Hin. apply (H1 (f, w) Hin).
  - intros f Hg. apply H2. rewrite Hg. reflexivity.
  - intros [f w] Hin. apply (H1 f w Hin).
  - intros f Hp. apply H2. destruct (obj_get kvs f); [discriminate | reflexivity].
Qed.

Lemma arr_ok_intro vs c :
  (forall i x, nth_error vs i = Some x -> member x (coll_at Nat.eqb c i) = true) ->
  (forall i, length vs <= i -> p_undefined (prims_of (coll_at Nat.eqb c i)) = true) ->
  arr_ok vs c = true.
Proof. intros H1 H2. apply arr_ok_fits. split; assumption. Qed.

Lemma arr_ok_elem {vs c i x} : arr_ok vs c = true -> nth_error vs i = Some x ->
  member x (coll_at Nat.eqb c i) = true.
Proof. intros H. apply (proj1 (proj1 (arr_ok_fits vs c) H)). Qed.

Lemma arr_ok_absent {vs c i} : arr_ok vs c = true -> length vs <= i ->
  p_undefined (prims_of (coll_at Nat.eqb c i)) = true.
Proof. intros H. apply (proj2 (proj1 (arr_ok_fits vs c) H)). Qed.

Lemma obj_ok_intro kvs c :
  (forall f w, In (f, w) kvs -> member w (coll_at bytes_eqb c f) = true) ->
  (forall f, obj_get kvs f = None -> p_undefined (prims_of (coll_at bytes_eqb c f)) = true) ->
  obj_ok kvs c = true.
Proof. intros H1 H2. apply obj_ok_fits. split; assumption. Qed.

Lemma obj_ok_elem {kvs c f w} : obj_ok kvs c = true -> In (f, w) kvs ->
  member w (coll_at bytes_eqb c f) = true.
Proof. intros H. apply (proj1 (proj1 (obj_ok_fits kvs c) H)). Qed.

Lemma obj_ok_absent {kvs c f} : obj_ok kvs c = true -> obj_get kvs f = None ->
  p_undefined (prims_of (coll_at bytes_eqb c f)) = true.
Proof. intros H. apply (proj2 (proj1 (obj_ok_fits kvs c) H)). Qed.

Section FitsLemmas.
  Context {K : Type}.
  Variable keqb : K -> K -> bool.
  Variable kcmp : K -> K -> comparison.
  Hypothesis keqb_spec : forall a b, keqb a b = true <-> a = b.
  Hypothesis kcmp_spec : forall a b, kcmp a b = Eq <-> a = b.
  Variables (has : K -> value -> Prop) (lacks : K -> Prop).

  Lemma fits_pointwise (c c' : coll_ K kind) :
    (forall key, coll_at keqb c' key = coll_at keqb c key) -> fits keqb has lacks c -> fits keqb has lacks c'.
  Proof. intros He [H1 H2]. split; intros key; rewrite He; auto. Qed.

  (* a collection that is `c` off `key` and `x` at `key` *)
  Lemma fits_set (c : coll_ K kind) key x :
    (forall g w, g <> key -> has g w -> member w (coll_at keqb c g) = true) ->
    (forall g, g <> key -> lacks g -> p_undefined (prims_of (coll_at keqb c g)) = true) ->
    (forall w, has key w -> member w x = true) -> (lacks key -> p_undefined (prims_of x) = true) ->
    fits keqb has lacks (set_known c (aset kcmp (known c) key x)).
  Proof.
    intros H1 H2 Hx Hu.
    split; intros g; rewrite (coll_at_set keqb kcmp keqb_spec kcmp_spec);
      (destruct (keqb key g) eqn:E; [apply keqb_spec in E; subst g; auto|]);
      (assert (g <> key) by (intros ->; rewrite (keqb_refl keqb keqb_spec) in E; discriminate)); auto.
  Qed.
End FitsLemmas.

Lemma coll_at_inf {K} (keqb : K -> K -> bool) i key :
  coll_at keqb (mkC [] (UInf i)) key = unknown_kind_u (UInf i).
Proof. reflexivity. Qed.

Lemma implb'_elim a b : implb' a b = true -> a = true -> b = true.
Proof. intros H ->. exact H. Qed.

Lemma inf_superset_spec j i : inf_superset j i = true ->
  (i_bytes i = true -> i_bytes j = true) /\ (i_integer i = true -> i_integer j = true)
  /\ (i_float i = true -> i_float j = true) /\ (i_boolean i = true -> i_boolean j = true)
  /\ (i_timestamp i = true -> i_timestamp j = true) /\ (i_regex i = true -> i_regex j = true)
  /\ (i_null i = true -> i_null j = true) /\ (i_array i = true -> i_array j = true)
  /\ (i_object i = true -> i_object j = true).
Proof. unfold inf_superset. rewrite !andb_true_iff. intuition eauto using implb'_elim. Qed.

Lemma member_inf_mono v : forall i j, inf_superset j i = true ->
  member v (kind_of_inf i) = true -> member v (kind_of_inf j) = true.
Proof.
  induction v using value_ind'; intros i j Hs;
    destruct (inf_superset_spec j i Hs) as (Sb & Si & Sf & SB & St & Sr & Sn & Sa & So);
    try (cbn; auto; fail); rewrite Forall_forall in H.
  - rewrite !member_obj. cbn [obj_of kind_of_inf].
    destruct (i_object i); [|discriminate]. rewrite (So eq_refl). intros Hm. apply obj_ok_intro; [|reflexivity].
    intros f w Hin. rewrite coll_at_inf, member_unknown_kind_inf. apply (H (f, w) Hin i j Hs).
    rewrite <- member_unknown_kind_inf. apply (obj_ok_elem Hm Hin).
  - rewrite !member_arr. cbn [arr_of kind_of_inf].
    destruct (i_array i); [|discriminate]. rewrite (Sa eq_refl). intros Hm. apply arr_ok_intro; [|reflexivity].
    intros n x Hn. rewrite coll_at_inf, member_unknown_kind_inf. apply (H x (nth_error_In _ _ Hn) i j Hs).
    rewrite <- member_unknown_kind_inf. apply (arr_ok_elem Hm Hn).
Qed.

Lemma member_inf_any v : member v (kind_of_inf inf_any) = true.
Proof.
  induction v using value_ind'; try reflexivity; rewrite Forall_forall in H.
  - rewrite member_obj. apply obj_ok_intro; [|reflexivity].
    intros f w Hin. rewrite coll_at_inf, member_unknown_kind_inf. apply (H (f, w) Hin).
  - rewrite member_arr. apply arr_ok_intro; [|reflexivity].
    intros n x Hn. rewrite coll_at_inf, member_unknown_kind_inf. apply (H x (nth_error_In _ _ Hn)).
Qed.

Lemma inf_is_any_eq i : inf_is_any i = true -> i = inf_any.
Proof.
  destruct i. unfold inf_is_any. cbn. rewrite !andb_true_iff. intros H. decompose [and] H. subst. reflexivity.
Qed.

Lemma member_k_any v : member v k_any = true.
Proof.
  replace k_any with (or_undefined (kind_of_inf inf_any)) by reflexivity.
  rewrite member_or_undefined. apply member_inf_any.
Qed.

(* Kind::get (undefined upgraded to null): a missing value reads as null *)
Lemma upgrade_sound o k : member_opt o k = true ->
  match o with Some w => member w (upgrade_undefined k) | None => p_null (prims_of (upgrade_undefined k)) || is_never k end = true.
Proof.
  unfold upgrade_undefined. destruct (is_never k) eqn:Hn.
  - destruct o; cbn; auto using orb_true_r.
  - destruct o as [w|]; cbn [member_opt]; intros H.
    + destruct (contains_undefined k); auto. apply member_or_null. rewrite member_remove_undefined. auto.
    + rewrite H. rewrite orb_false_r. destruct k as [[] a o]; reflexivity.
Qed.

Lemma member_upgrade v k : member v k = true -> member v (upgrade_undefined k) = true.
Proof. intros H. apply (upgrade_sound (Some v) k H). Qed.

Lemma upgrade_defined k : p_undefined (prims_of k) = false -> upgrade_undefined k = k.
Proof. unfold upgrade_undefined, contains_undefined. intros ->. destruct (is_never k); reflexivity. Qed.
