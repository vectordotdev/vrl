(* The real-valued bound for round / ceil / floor with a precision, on the regime where it holds: the multiplier w is a
   finite positive binary64, the product x * w is exact (no rounding in the multiplication) and the final quotient does not
   overflow.  Then the only rounding is the final division, and the result y satisfies
       |y - x| <= 1/w + ulp(y)/2,      ceil: x <= y,      floor: y <= x
   over the reals (with w = 10^p exactly this is the rounding clause of C29, up to the representation error of y).
   Flocq 4.1: Bmult/Bdiv through the SpecFloat bridge, Bdiv_correct, error_le_half_ulp_round, round_le.
   Depends on the four axioms of Coq's classical reals, like Proofs/NumFnsFloatProofs.v. *)
From Coq Require Import ZArith Reals Floats SpecFloat Bool Psatz.
From Flocq Require Import Core.Core IEEE754.BinarySingleNaN IEEE754.PrimFloat.
From VRL Require Import Base.Bytes Base.Value Model.ConvRes Model.Arith Model.NumFns.
From VRL Require Import Proofs.ArithFloatProofs Proofs.NumFnsProofs Proofs.NumFnsFloatProofs.
Local Open Scope Z_scope.

Local Existing Instance Hprec.
Local Existing Instance Hmax.

Lemma cond_Zopp_mul s a b : cond_Zopp s (a * b) = cond_Zopp s a * b.
Proof. destruct s; cbn; lia. Qed.

Lemma int_value_R f n : f_int_value f = Some n -> R_of f = IZR n.
Proof.
  destruct f as [s|s| |s m e]; unfold f_int_value; try discriminate.
  - intros [= <-]. reflexivity.
  - destruct (Z.leb_spec 0 e) as [He|He].
    + intros H. replace n with (cond_Zopp s (Zpos m * 2 ^ e)) by congruence.
      rewrite cond_Zopp_mul. apply R_of_int, He.
    + destruct (Z.eqb_spec (Zpos m mod 2 ^ (- e)) 0) as [Hz|Hz]; [|discriminate].
      intros H. replace n with (cond_Zopp s (Zpos m / 2 ^ (- e))) by congruence.
      destruct (scale_divmod (Zpos m) e He) as (HD & Hdm & _).
      apply (Rmult_eq_reg_r (IZR (2 ^ (- e)))); [|apply not_0_IZR; lia].
      rewrite (R_of_scaled s m e He), <- mult_IZR, <- cond_Zopp_mul. do 2 f_equal. lia.
Qed.

Lemma f_rint_R k t : valid_binary prec emax t = true -> f_is_finite t = true ->
  let T := R_of t in
  let K := R_of (f_rint k t) in
  match k with
  | KFloor => (K <= T < K + 1)%R
  | KCeil => (K - 1 < T <= K)%R
  | KRound => (Rabs (T - K) <= / 2)%R
  end.
Proof.
  intros Hv Hf. cbv zeta. destruct t as [s|s| |s m e]; try discriminate.
  - cbn. destruct k; try rewrite Rminus_0_r, Rabs_R0; lra.
  - destruct (Z.leb_spec 0 e) as [He|He].
    + rewrite (f_rint_integer k s m e He). destruct k; try (rewrite Rminus_diag_eq by reflexivity; rewrite Rabs_R0); lra.
    + destruct (f_rint_spec k s m e He (valid_mantissa_bound s m e Hv)) as (n & Hval & _ & Hlaw). cbv zeta in Hlaw.
      rewrite (int_value_R _ n Hval). pose proof (R_of_scaled s m e He) as Hs.
      assert (Hd : (0 < IZR (2 ^ (- e)))%R) by (apply IZR_lt, Z.pow_pos_nonneg; lia).
      (* the integer inequalities, read over the reals with M = T * D *)
      set (T := R_of (S754_finite s m e)) in *. clearbody T. destruct k.
      * destruct Hlaw as [Hl _]. apply IZR_le in Hl.
        rewrite mult_IZR, abs_IZR, minus_IZR, mult_IZR, <- Hs, <- Rmult_minus_distr_r, Rabs_mult in Hl.
        rewrite (Rabs_pos_eq (IZR _)) in Hl by lra. nra.
      * destruct Hlaw as [H1 H2]. apply IZR_lt in H1. apply IZR_le in H2.
        rewrite mult_IZR, <- Hs in H1, H2. rewrite minus_IZR in H1. split; nra.
      * destruct Hlaw as [H1 H2]. apply IZR_le in H1. apply IZR_lt in H2.
        rewrite mult_IZR, <- Hs in H1, H2. rewrite plus_IZR in H2. split; nra.
Qed.

Theorem round_good_R (k : rkind) (x w : spec_float) :
  valid_binary prec emax x = true -> valid_binary prec emax w = true -> (0 < R_of w)%R ->
  let t := f_mul x w in
  let y := f_div (f_rint k t) w in
  R_of t = (R_of x * R_of w)%R ->          (* the multiplication does not round *)
  f_is_finite t = true ->
  f_is_finite y = true ->                   (* the quotient does not overflow *)
  (Rabs (R_of y - R_of x) <= / R_of w + / 2 * ulp radix2 (fexp prec emax) (R_of y))%R
  /\ (k = KCeil -> (R_of x <= R_of y)%R)
  /\ (k = KFloor -> (R_of y <= R_of x)%R).
Proof.
  intros Hvx Hvw Hwpos t y Hexact Hft Hfy.
  pose proof (f_mul_valid x w Hvx Hvw) as Hvt. fold t in Hvt.
  pose proof (f_rint_R k t Hvt Hft) as Hrint. cbv zeta in Hrint.
  unfold y. rewrite (f_div_R _ w (f_rint_valid k t Hvt) Hvw) by (lra || exact Hfy).
  (* x is a binary64 number: rounding it is the identity, so x <= q gives x <= rnd q *)
  assert (HrX : rnd (R_of x) = R_of x) by (destruct (valid_is_B x Hvx) as (bx & ->); rewrite SF2R_B2SF; apply round_B2R).
  set (X := R_of x) in *. set (W := R_of w) in *. set (K := R_of (f_rint k t)) in *. set (T := R_of t) in *.
  assert (HX : X = (T / W)%R) by (rewrite Hexact; field; lra).
  assert (Hinv : (0 < / W)%R) by (apply Rinv_0_lt_compat; exact Hwpos).
  assert (Hle : forall a b, (a <= b)%R -> (rnd a <= rnd b)%R).
  { intros a b. apply round_le; [apply fexp_correct; exact Hprec | apply valid_rnd_round_mode]. }
  split; [|split; intros ->; rewrite <- HrX; apply Hle; rewrite HX; apply Rmult_le_compat_r; lra].
  assert (Hdist : (Rabs (K / W - X) <= / W)%R).
  { rewrite HX. replace (K / W - T / W)%R with ((K - T) * / W)%R by (field; lra).
    rewrite Rabs_mult, (Rabs_pos_eq (/ W)) by lra.
    assert (Rabs (K - T) <= 1)%R by (destruct k; [rewrite Rabs_minus_sym | apply Rabs_le | apply Rabs_le]; lra).
    nra. }
  assert (Herr : (Rabs (rnd (K / W) - K / W) <= / 2 * ulp radix2 (fexp prec emax) (rnd (K / W)))%R)
    by (apply error_le_half_ulp_round; [apply fexp_correct; exact Hprec | apply fexp_monotone]).
  replace (rnd (K / W) - X)%R with ((rnd (K / W) - K / W) + (K / W - X))%R by ring.
  eapply Rle_trans; [apply Rabs_triang|]. lra.
Qed.

(* the same number at a smaller exponent *)
Lemma F2R_rescale s m e e0 : e0 <= e ->
  (IZR (cond_Zopp s m) * bpow radix2 e = IZR (cond_Zopp s (m * 2 ^ (e - e0))) * bpow radix2 e0)%R.
Proof.
  intros H. rewrite cond_Zopp_mul, mult_IZR, (IZR_Zpower radix2) by lia.
  rewrite Rmult_assoc, <- bpow_plus. do 2 f_equal. lia.
Qed.

Lemma product_exact_R x w t : product_exact x w t = true -> R_of t = (R_of x * R_of w)%R.
Proof.
  destruct x as [sx|sx| |sx mx ex]; destruct w as [sw|sw| |sw mw ew]; destruct t as [st|st| |st mt et];
    cbn [product_exact]; try discriminate.
  - intros _. cbn. ring.
  - intros H. apply andb_true_iff in H. destruct H as [Hs Hm]. apply eqb_prop in Hs. apply Z.eqb_eq in Hm.
    unfold SF2R, F2R. cbn [Fnum Fexp]. set (e := Z.min (ex + ew) et) in *.
    rewrite (F2R_rescale st _ et e), <- Hm, <- (F2R_rescale st _ (ex + ew) e), bpow_plus by lia.
    replace (cond_Zopp st (Zpos mx * Zpos mw)) with (cond_Zopp sx (Zpos mx) * cond_Zopp sw (Zpos mw))
      by (subst st; destruct sx, sw; cbn [xorb cond_Zopp]; lia).
    rewrite mult_IZR. ring.
Qed.

(* what RcGood says about one call: nothing overflows or vanishes, 0 <= p, and the product is exact *)
Lemma round_class_good k x p w : round_class k x p w = RcGood ->
  let t := f_mul x w in
  f_is_finite w = true /\ 0 <= p /\ product_exact x w t = true /\ f_is_finite t = true
  /\ f_is_finite (f_div (f_rint k t) w) = true.
Proof.
  unfold round_class. set (t := f_mul x w). set (y := f_div (f_rint k t) w). cbv zeta.
  destruct (negb (f_is_finite w) || f_is_zero w || negb (f_is_zero x) && (f_is_zero t || negb (f_is_finite t))
            || negb (f_is_finite y)) eqn:E1; [discriminate|].
  destruct (match t with S754_finite _ _ e => 0 <=? e | _ => false end); [discriminate|].
  destruct ((p <? 0) || (22 <? p)) eqn:E3; [discriminate|].
  destruct (product_exact x w t) eqn:E4; [intros _|discriminate].
  rewrite !orb_false_iff, !negb_false_iff in E1. destruct E1 as [[[Ew _] _] Ey].
  apply orb_false_iff in E3. destruct E3 as [Ep _]. apply Z.ltb_ge in Ep.
  repeat split; try assumption. destruct t; try reflexivity; destruct x, w; discriminate.
Qed.

(* one call in the regime RcGood, for a positive multiplier w = pow10 p of any value *)
Theorem round_fn_good_R pow10 k x p :
  valid_binary prec emax x = true -> valid_binary prec emax (pow10 p) = true -> (0 < R_of (pow10 p))%R ->
  round_class k x p (pow10 p) = RcGood ->
  exists y, round_fn pow10 k (VFloat x) (Some (VInt p)) = ROk (VFloat y)
    /\ f_is_finite y = true
    /\ (Rabs (R_of y - R_of x) <= / R_of (pow10 p) + / 2 * ulp radix2 (fexp prec emax) (R_of y))%R
    /\ (k = KCeil -> (R_of x <= R_of y)%R)
    /\ (k = KFloor -> (R_of y <= R_of x)%R).
Proof.
  intros Hvx Hvw Hwpos Hc. destruct (round_class_good k x p _ Hc) as (_ & _ & Hex & Hft & Hfy).
  exists (round_to_precision pow10 x p k). split; [|split; [exact Hfy|]].
  - unfold round_fn. change (f_is_finite (round_to_precision pow10 x p k) = true) in Hfy.
    destruct (round_to_precision pow10 x p k); try discriminate; reflexivity.
  - exact (round_good_R k x _ Hvx Hvw Hwpos (product_exact_R _ _ _ Hex) Hft Hfy).
Qed.

(* 10.0 is 10^1 *)
Lemma ten_R : R_of (S754_finite false 5629499534213120 (-49)) = IZR (10 ^ 1).
Proof.
  unfold SF2R, F2R. cbn [cond_Zopp Fnum Fexp].
  change (bpow radix2 (-49)) with (/ IZR (Z.pow_pos 2 49))%R.
  change (Z.pow_pos 2 49) with 562949953421312. change (10 ^ 1) with 10. field.
Qed.
