(* A BTreeMap is modelled as a key-sorted association list.  Whatever the insertion function does with a key
   that is already present, inserting the entries of a strictly sorted list in order, each key above all the
   keys present, rebuilds that list.  Used for obj_set (JSON objects) and map_insert (key-value parser). *)
From Coq Require Import List Sorted.
From VRL Require Import Base.Bytes.
Import ListNotations.

Definition key_lt (a b : bytes) : Prop := bytes_cmp a b = Lt.

Lemma key_lt_trans : Relation_Definitions.transitive _ key_lt.
Proof. exact bytes_cmp_lt_trans. Qed.

(* a boolean check that compares each key with the next one establishes sortedness *)
Lemma adjacent_Sorted {V} (chk : list (bytes * V) -> bool) :
  (forall k v k' v' l, chk ((k, v) :: (k', v') :: l) = true -> key_lt k k' /\ chk ((k', v') :: l) = true) ->
  forall l, chk l = true -> Sorted key_lt (map fst l).
Proof.
  intros H l. induction l as [|[k v] l IH]; [constructor|]. destruct l as [|[k' v'] l]; [repeat constructor|].
  intros Hc. apply H in Hc as [Hlt Hc]. constructor; [exact (IH Hc) | constructor; exact Hlt].
Qed.

Section Insert.
  Variable V : Type.
  Variable step : list (bytes * V) -> bytes * V -> list (bytes * V).
  Hypothesis step_above : forall m kv, Forall (fun e => key_lt (fst e) (fst kv)) m -> step m kv = m ++ [kv].

  Lemma fold_step_sorted l : forall m,
    StronglySorted key_lt (map fst l) -> Forall (fun e => Forall (key_lt (fst e)) (map fst l)) m ->
    fold_left step l m = m ++ l.
  Proof.
    induction l as [|kv l IH]; intros m Hs Hm; cbn [fold_left map] in *; [symmetry; apply app_nil_r|].
    apply StronglySorted_inv in Hs as [Hs Hkv].
    rewrite step_above, IH, <- app_assoc; [reflexivity | exact Hs | |].
    - apply Forall_app. split; [|repeat constructor; exact Hkv].
      eapply Forall_impl; [|exact Hm]. intros e H. exact (Forall_inv_tail H).
    - eapply Forall_impl; [|exact Hm]. intros e H. exact (Forall_inv H).
  Qed.

  Lemma fold_step_Sorted l : Sorted key_lt (map fst l) -> fold_left step l [] = l.
  Proof.
    intros H. apply fold_step_sorted; [|constructor]. apply Sorted_StronglySorted; [exact key_lt_trans | exact H].
  Qed.
End Insert.
