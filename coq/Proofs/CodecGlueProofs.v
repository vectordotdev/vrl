(* Proofs for Model/CodecGlue.v: the VRL-level round trip of every library codec, for every option
   combination, derived from the library's own inverse law (a Section hypothesis: trusted, exercised by the
   search leg of the check). *)
From Coq Require Import List NArith ZArith Bool Lia.
From VRL Require Import Base.Bytes Model.Base16 Model.CodecUtf8 Model.Punycode Model.CodecGlue
     Proofs.StrUtf8 Proofs.PunycodeProofs.
Import ListNotations.
Local Open Scope Z_scope.

Section Flate.
  Variable lib_enc : Z -> bytes -> lres.
  Variable lib_dec : bytes -> lres.
  (* flate2: every level the backend supports (0..9) compresses, and decompression inverts it *)
  Hypothesis lib_inverse : forall l b, 0 <= l <= 9 -> exists e, lib_enc l b = LOk e /\ lib_dec e = LOk b.

  Theorem flate_roundtrip lvl v :
    as_u32 lvl <= 9 ->
    exists e, encode_flate lib_enc lvl v = ROk e /\ decode_flate lib_dec e = ROk v.
  Proof.
    intros Hl. unfold encode_flate, decode_flate, max_flate_level.
    assert (H0 : 0 <= as_u32 lvl) by (unfold as_u32; apply Z.mod_pos_bound; lia).
    destruct (lib_inverse (as_u32 lvl) v (conj H0 Hl)) as [e [He Hd]].
    exists e. destruct (10 <? as_u32 lvl) eqn:E; [apply Z.ltb_lt in E; lia|].
    rewrite He, Hd. split; reflexivity.
  Qed.

  (* a level above 10 (after the `as u32` conversion) is an error, never a panic or a wrong answer *)
  Theorem flate_level_rejected lvl v : 10 < as_u32 lvl -> encode_flate lib_enc lvl v = RErr.
  Proof.
    intros H. unfold encode_flate, max_flate_level. apply Z.ltb_lt in H. rewrite H. reflexivity.
  Qed.
End Flate.

Section Zstd.
  Variable lib_enc : Z -> bytes -> lres.
  Variable lib_dec : bytes -> lres.
  (* zstd::encode_all clamps the level into its supported range; decode_all inverts it *)
  Hypothesis lib_inverse : forall l b, exists e, lib_enc l b = LOk e /\ lib_dec e = LOk b.

  Theorem zstd_roundtrip lvl v :
    exists e, encode_zstd lib_enc lvl v = ROk e /\ decode_zstd lib_dec e = ROk v.
  Proof.
    destruct (lib_inverse (as_i32 lvl) v) as [e [He Hd]]. exists e.
    unfold encode_zstd, decode_zstd. rewrite He, Hd. split; reflexivity.
  Qed.
End Zstd.

Section Snappy.
  Variable lib_enc : bytes -> lres.
  Variable lib_dec : bytes -> lres.
  Hypothesis lib_inverse : forall b, exists e, lib_enc b = LOk e /\ lib_dec e = LOk b.

  Theorem snappy_roundtrip v :
    exists e, encode_snappy lib_enc v = ROk e /\ decode_snappy lib_dec e = ROk v.
  Proof.
    destruct (lib_inverse v) as [e [He Hd]]. exists e.
    unfold encode_snappy, decode_snappy. rewrite He, Hd. split; reflexivity.
  Qed.
End Snappy.

Local Open Scope N_scope.

Lemma size_prefix n : n < 4294967296 ->
  match size_le n with
  | [b0; b1; b2; b3] => read_le b0 b1 b2 b3 = n
  | _ => False
  end.
Proof.
  intros H. unfold size_le, read_le. rewrite (N.mod_small (n / 16777216)) by (apply N.div_lt_upper_bound; lia).
  change 65536 with (256 * 256). change 16777216 with (256 * 256 * 256). rewrite <- !N.div_div by discriminate.
  pose proof (N.div_mod' n 256). pose proof (N.div_mod' (n / 256) 256). pose proof (N.div_mod' (n / 256 / 256) 256).
  lia.
Qed.

Lemma size_le_bytes n : wf_bytes (size_le n) = true.
Proof.
  unfold size_le, wf_bytes. cbn [forallb].
  repeat (rewrite (proj2 (N.ltb_lt _ 256)) by (apply N.mod_lt; lia)). reflexivity.
Qed.

Definition magic_len : N := 407708164.         (* 0x184D2204: the length whose LE bytes are the frame magic *)

(* the prefix is the frame magic only if n is the number the magic spells *)
Lemma size_le_not_magic n rest :
  n < 4294967296 -> n <> magic_len -> starts_with lz4_magic (size_le n ++ rest) = false.
Proof.
  intros Hn Hne. apply not_true_is_false. intros [t E]%starts_with_iff. apply Hne.
  pose proof (size_prefix n Hn) as P. unfold size_le in *. injection E as E0 E1 E2 E3 _.
  rewrite E0, E1, E2, E3 in P. symmetry. exact P.
Qed.

Section Lz4.
  Variable compress : bytes -> bytes.
  Variable decompress : bytes -> N -> lres.
  Variable frame_dec : bytes -> lres.
  (* lz4_flex block format: decompression into a buffer that is large enough inverts compression *)
  Hypothesis lib_inverse : forall b n, N.of_nat (length b) <= n -> decompress (compress b) n = LOk b.
  (* a block never starts with the frame magic (its first token would announce a match without literals) *)
  Hypothesis block_not_frame : forall b, starts_with lz4_magic (compress b) = false.

  Theorem lz4_roundtrip (prepend : bool) (buf : Z) v :
    N.of_nat (length v) < 4294967296 ->
    (0 <= buf < 2 ^ 32)%Z ->
    (prepend = true -> N.of_nat (length v) <> magic_len) ->
    (prepend = false -> (Z.of_nat (length v) <= buf)%Z) ->
    exists e, encode_lz4 compress prepend v = ROk e /\ decode_lz4 decompress frame_dec buf prepend e = ROk v.
  Proof.
    intros Hlen [Hb0 Hb1] Hmagic Hbuf. unfold encode_lz4. eexists. split; [reflexivity|].
    assert (Ebv : buf_valid buf = true).
    { unfold buf_valid. rewrite (proj2 (Z.leb_le _ _) Hb0), (proj2 (Z.ltb_lt _ _) Hb1). reflexivity. }
    unfold decode_lz4. rewrite Ebv. cbn [negb]. destruct prepend.
    - rewrite (size_le_not_magic _ (compress v) Hlen (Hmagic eq_refl)).
      assert (P := size_prefix _ Hlen). unfold size_le in *. cbn [app].
      rewrite P, lib_inverse by lia. reflexivity.
    - assert (Hb2 := Hbuf eq_refl). rewrite block_not_frame, lib_inverse by lia. reflexivity.
  Qed.
End Lz4.

(* with both functions' defaults (prepend_size: true, prepended_size: false) the decoder hands the
   size-prefixed data to the block decompressor: the default pair is not a matching pair *)
Theorem lz4_default_options (compress : bytes -> bytes) (decompress : bytes -> N -> lres) (frame_dec : bytes -> lres) v :
  N.of_nat (length v) < 4294967296 -> N.of_nat (length v) <> magic_len ->
  exists e, encode_lz4 compress default_prepend_size v = ROk e /\
    decode_lz4 decompress frame_dec default_buf_size default_prepended_size e
    = map_err (decompress (size_le (N.of_nat (length v)) ++ compress v) 1000000).
Proof.
  intros Hlen Hm. eexists. split; [reflexivity|].
  unfold decode_lz4, default_prepended_size, default_prepend_size.
  cbn [buf_valid default_buf_size negb]. rewrite (size_le_not_magic _ (compress v) Hlen Hm). reflexivity.
Qed.

Theorem lz4_default_options_refuted compress decompress frame_dec v :
  (N.of_nat (length v) < 4294967296)%N -> N.of_nat (length v) <> magic_len ->
  decompress (size_le (N.of_nat (length v)) ++ compress v) 1000000%N <> LOk v ->
  exists e, encode_lz4 compress default_prepend_size v = ROk e /\
            decode_lz4 decompress frame_dec default_buf_size default_prepended_size e <> ROk v.
Proof.
  intros Hlen Hm Hbad.
  destruct (lz4_default_options compress decompress frame_dec v Hlen Hm) as [e [He Hd]].
  exists e. split; [exact He|]. rewrite Hd. intros H. apply Hbad.
  destruct (decompress _ _); [injection H as -> | discriminate..]. reflexivity.
Qed.

(* buf_size outside 0..2^32-1 is rejected with an error, whatever the data and the other option *)
Theorem lz4_bufsize_rejected decompress frame_dec (buf : Z) (prepended : bool) v :
  (buf < 0 \/ 2 ^ 32 <= buf)%Z -> decode_lz4 decompress frame_dec buf prepended v = RErr.
Proof.
  intros Hb.
  assert (E : buf_valid buf = false).
  { unfold buf_valid. destruct Hb as [H|H].
    - rewrite (proj2 (Z.leb_gt _ _) H). reflexivity.
    - rewrite (proj2 (Z.ltb_ge _ _) H). apply andb_false_r. }
  unfold decode_lz4. rewrite E. reflexivity.
Qed.

Section Charset.
  Variable E : Type.
  Variable for_label : bytes -> option E.
  Variable cs_encode cs_decode : E -> bytes -> bytes.
  Variable representable : E -> bytes -> Prop.
  (* encoding_rs: decoding what the encoder produced gives the text back, for text the encoding represents *)
  Hypothesis lib_inverse : forall e t, representable e t -> cs_decode e (cs_encode e t) = t.

  Theorem charset_roundtrip label e t :
    for_label label = Some e -> valid_utf8 t = true -> representable e t ->
    exists b, encode_charset for_label cs_encode label t = ROk b
              /\ decode_charset for_label cs_decode label b = ROk t.
  Proof.
    intros Hl Hv Hr. exists (cs_encode e t). unfold encode_charset, decode_charset.
    rewrite Hl, (lossy_valid t Hv). rewrite (lib_inverse e t Hr). split; reflexivity.
  Qed.

  Theorem charset_unknown_label label t :
    for_label label = None ->
    encode_charset for_label cs_encode label t = RErr /\ decode_charset for_label cs_decode label t = RErr.
  Proof.
    intros Hl. unfold encode_charset, decode_charset. rewrite Hl. split; reflexivity.
  Qed.
End Charset.

Section PunycodeValidate.
  Variable to_ascii : bytes -> option bytes.
  Variable to_unicode : bytes -> bytes * bool.
  Variable valid_domain : bytes -> Prop.
  (* idna (UTS #46): a valid, already normalised domain is converted to an ASCII string from which
     domain_to_unicode recovers it without errors; when no label needed punycode the string is unchanged *)
  Hypothesis lib_inverse : forall s, valid_domain s ->
    exists a, to_ascii s = Some a /\ valid_utf8 a = true /\ to_unicode a = (s, false)
              /\ (contains xn_prefix a = false -> a = s).

  Theorem punycode_validate_roundtrip s :
    valid_utf8 s = true -> valid_domain s ->
    exists a, encode_punycode_validate to_ascii s = ROk a /\ decode_punycode_validate to_unicode a = ROk s.
  Proof.
    intros Hv Hd. destruct (lib_inverse s Hd) as [a [Ha [Hva [Hu Hp]]]]. exists a.
    unfold encode_punycode_validate, decode_punycode_validate.
    rewrite (lossy_valid s Hv), Ha, (lossy_valid a Hva). split; [reflexivity|].
    destruct (contains xn_prefix a) eqn:Ec; cbn [negb].
    - rewrite Hu. reflexivity.
    - rewrite (Hp eq_refl). reflexivity.
  Qed.
End PunycodeValidate.
