(* C23: the algorithm tables of encrypt / decrypt agree, and decrypt inverts encrypt for every accepted
   name, every plaintext, and every key / IV of the sizes the name requires — over any block cipher with
   D k (E k b) = b and any AEAD with open (seal p) = Some p. *)
From Coq Require Import String.
From Coq Require Import List NArith ZArith Bool Arith Lia.
From VRL Require Import Base.Bytes Base.Lit Model.ConvRes Model.Padding Model.Aes Model.CipherGlue
     Proofs.PaddingProofs Proofs.ModesProofs.
Import ListNotations.

Lemma tables_equal : enc_table = dec_table.
Proof. reflexivity. Qed.

Lemma lookup_found {A} (t : list (string * A)) name :
  lookup t name <> None <-> exists s, In s (map fst t) /\ bytes_eqb (ascii_bytes s) name = true.
Proof.
  induction t as [|[s x] r IH]; cbn [lookup map fst In].
  - split; [congruence | intros (s & [] & _)].
  - destruct (bytes_eqb (ascii_bytes s) name) eqn:E.
    + split; [eauto | discriminate].
    + rewrite IH. split; intros (s' & Hin & Hs); [eauto|]. destruct Hin as [<-|Hin]; [congruence | eauto].
Qed.

(* inclusion of one finite table of names in another, decided by evaluation *)
Lemma incl_names (l1 l2 : list string) :
  forallb (fun s => existsb (String.eqb s) l2) l1 = true -> incl l1 l2.
Proof.
  rewrite forallb_forall. intros H s Hs. apply H, existsb_exists in Hs as (s' & Hin & E).
  apply String.eqb_eq in E. subst. exact Hin.
Qed.

(* the two lists name the same algorithms, in different orders *)
Lemma valid_names_same s : In s valid_names <-> In s (map fst enc_table).
Proof. split; apply incl_names; reflexivity. Qed.

Lemma is_valid_iff name : is_valid_algorithm name = true <-> lookup enc_table name <> None.
Proof.
  unfold is_valid_algorithm. rewrite existsb_exists, lookup_found.
  split; intros (s & Hin%valid_names_same & Hs); eauto.
Qed.

(* every name is treated alike by the three tables: same primitive, same padding, same key and IV sizes *)
Theorem names_paired name :
  lookup enc_table name = lookup dec_table name
  /\ (is_valid_algorithm name = true <-> lookup enc_table name <> None).
Proof. split; [rewrite tables_equal; reflexivity | apply is_valid_iff]. Qed.

(* the run-time functions and the compile-time check accept the same spellings *)
Lemma encrypt_alg_iff (P : prims) filler name p k iv :
  encrypt P filler name p k iv = CErrAlg <-> lookup enc_table (upper_name name) = None.
Proof.
  unfold encrypt. destruct (lookup enc_table (upper_name name)) as [pr|]; [|tauto].
  split; [|discriminate]. destruct (negb _); [discriminate|]. destruct (negb _); discriminate.
Qed.

Lemma decrypt_alg_iff (P : prims) name c k iv :
  decrypt P name c k iv = CErrAlg <-> lookup enc_table (upper_name name) = None.
Proof.
  unfold decrypt. rewrite <- tables_equal.
  destruct (lookup enc_table (upper_name name)) as [pr|]; [|tauto].
  split; [|discriminate]. destruct (negb _); [discriminate|]. destruct (negb _); [discriminate|].
  destruct pr; cbn [prim_decrypt]; try discriminate.
  - destruct (negb _); [discriminate|]. destruct (unpad _ _); discriminate.
  - destruct (pOpen _ _ _ _ _); discriminate.
Qed.

Corollary accepted_alike (P : prims) filler name p c k iv :
  (encrypt P filler name p k iv = CErrAlg <-> decrypt P name c k iv = CErrAlg)
  /\ (encrypt P filler name p k iv = CErrAlg <-> compiles_with_constant name = false).
Proof.
  rewrite encrypt_alg_iff, decrypt_alg_iff. split; [tauto|].
  unfold compiles_with_constant. pose proof (is_valid_iff (upper_name name)) as V.
  destruct (is_valid_algorithm (upper_name name)), (lookup enc_table (upper_name name)); intuition congruence.
Qed.

Section RoundTrip.
  Variable P : prims.
  Hypothesis E_len : forall k b, length b = 16%nat -> length (pE P k b) = 16%nat.
  Hypothesis block_inv : forall k b, length b = 16%nat -> pD P k (pE P k b) = b.
  Hypothesis open_seal : forall a k n p, pOpen P a k n (pSeal P a k n p) = Some p.

  Lemma prim_roundtrip pr filler p k iv :
    length iv = iv_len pr ->
    prim_decrypt P pr (prim_encrypt P pr filler p k iv) k iv = COk p.
  Proof.
    intros Hiv. destruct pr as [ks|ks|fl ks|ks s|a]; cbn [prim_encrypt prim_decrypt].
    - rewrite (cfb_roundtrip (pE P) E_len) by exact Hiv. reflexivity.
    - rewrite (ofb_roundtrip (pE P) E_len) by exact Hiv. reflexivity.
    - rewrite (ctr_roundtrip (pE P) E_len) by exact Hiv. reflexivity.
    - assert (Hm : (length (pad s filler p) mod 16 = 0)%nat) by (rewrite pad_length; apply padded_len_mod).
      rewrite (cbc_encrypt_length (pE P) E_len) by (exact Hiv || exact Hm).
      rewrite Hm. cbn [Nat.eqb negb].
      rewrite (cbc_roundtrip (pE P) (pD P) E_len block_inv) by (exact Hiv || exact Hm).
      rewrite unpad_pad. reflexivity.
    - rewrite open_seal. reflexivity.
  Qed.

  Theorem roundtrip name pr filler p k iv :
    lookup enc_table (upper_name name) = Some pr ->
    length k = key_len pr -> length iv = iv_len pr ->
    exists c, encrypt P filler name p k iv = COk c /\ decrypt P name c k iv = COk p.
  Proof.
    intros L Hk Hiv. unfold encrypt, decrypt. rewrite <- tables_equal, L.
    rewrite Hk, Hiv, !Nat.eqb_refl. cbn [negb].
    eexists. split; [reflexivity|]. apply prim_roundtrip. exact Hiv.
  Qed.
End RoundTrip.

(* ciphertext lengths, given that the AEADs append / prepend a 16-byte tag *)
Section Length.
  Variable P : prims.
  Hypothesis E_len : forall k b, length b = 16%nat -> length (pE P k b) = 16%nat.
  Hypothesis seal_len : forall a k n p, length (pSeal P a k n p) = (length p + 16)%nat.

  Theorem cipher_length name pr filler p k iv c :
    lookup enc_table (upper_name name) = Some pr ->
    encrypt P filler name p k iv = COk c -> length c = cipher_len pr (length p).
  Proof.
    intros L. unfold encrypt. rewrite L.
    destruct (negb (Nat.eqb (length k) (key_len pr))); [discriminate|].
    destruct (negb (Nat.eqb (length iv) (iv_len pr))) eqn:Eiv; [discriminate|].
    apply negb_false_iff, Nat.eqb_eq in Eiv.
    intros [= <-].
    destruct pr as [ks|ks|fl ks|ks s|a]; cbn [prim_encrypt cipher_len].
    - apply (cfb_encrypt_length (pE P) E_len). exact Eiv.
    - apply (ofb_apply_length (pE P) E_len). exact Eiv.
    - apply (ctr_apply_length (pE P) E_len). exact Eiv.
    - rewrite (cbc_encrypt_length (pE P) E_len); [apply pad_length | exact Eiv |].
      rewrite pad_length. apply padded_len_mod.
    - apply seal_len.
  Qed.
End Length.

(* the accepted names are exactly the upper-casings into the table: e.g. lower case and the two non-ASCII
   letters whose upper case is ASCII are accepted; so the theorem is not about the 32 literal spellings only *)
Example accepted_lowercase :
  lookup enc_table (upper_name (ascii_bytes "aes-128-cbc-pkcs7")) = Some (PCbc K128 Pkcs7).
Proof. reflexivity. Qed.
Example accepted_dotless_i :
  lookup enc_table (upper_name (hx "6165732d3132382d73c4b176")) = Some (PAead Siv128).   (* "aes-128-sıv" *)
Proof. reflexivity. Qed.

(* a toy block cipher: xor every byte with the key's first byte, then rotate the block by one position *)
Definition toy_k (k : bytes) : N := match k with x :: _ => x | [] => 7%N end.
Definition toy_E (k b : bytes) : bytes :=
  match map (N.lxor (toy_k k)) b with x :: r => r ++ [x] | [] => [] end.
Definition toy_D (k b : bytes) : bytes :=
  map (N.lxor (toy_k k)) (match rev b with x :: r => x :: rev r | [] => [] end).
Definition toy_seal (a : aead) (k n p : bytes) : bytes := repeat 0%N 16 ++ p.
Definition toy_open (a : aead) (k n c : bytes) : option bytes :=
  if Nat.ltb (length c) 16 then None else Some (skipn 16 c).
Definition toy_prims : prims := mkPrims toy_E toy_D toy_seal toy_open.

Lemma toy_E_len k b : length b = 16%nat -> length (toy_E k b) = 16%nat.
Proof.
  intros H. unfold toy_E. destruct b as [|x b]; [discriminate|]. cbn [map].
  rewrite app_length, map_length. cbn in *. lia.
Qed.

Lemma toy_block_inv k b : length b = 16%nat -> toy_D k (toy_E k b) = b.
Proof.
  intros _. unfold toy_D, toy_E. destruct b as [|x b]; [reflexivity|]. cbn [map].
  rewrite rev_app_distr. cbn [rev app]. rewrite rev_involutive.
  change (map (N.lxor (toy_k k)) (map (N.lxor (toy_k k)) (x :: b)) = x :: b).
  rewrite map_map. rewrite <- (map_id (x :: b)) at 2. apply map_ext.
  intros y. rewrite <- N.lxor_assoc, N.lxor_nilpotent, N.lxor_0_l. reflexivity.
Qed.

Lemma toy_open_seal a k n p : toy_open a k n (toy_seal a k n p) = Some p.
Proof. reflexivity. Qed.

(* real AES on the FIPS-197 appendix C vectors (pins Model/Aes.v, which the correspondence run uses as E/D) *)
Example aes128_fips :
  aes_enc (hx "000102030405060708090a0b0c0d0e0f") (hx "00112233445566778899aabbccddeeff")
  = hx "69c4e0d86a7b0430d8cdb78070b4c55a"
  /\ aes_dec (hx "000102030405060708090a0b0c0d0e0f") (hx "69c4e0d86a7b0430d8cdb78070b4c55a")
     = hx "00112233445566778899aabbccddeeff".
Proof. split; vm_compute; reflexivity. Qed.
Example aes192_fips :
  aes_enc (hx "000102030405060708090a0b0c0d0e0f1011121314151617") (hx "00112233445566778899aabbccddeeff")
  = hx "dda97ca4864cdfe06eaf70a0ec0d7191"
  /\ aes_dec (hx "000102030405060708090a0b0c0d0e0f1011121314151617") (hx "dda97ca4864cdfe06eaf70a0ec0d7191")
     = hx "00112233445566778899aabbccddeeff".
Proof. split; vm_compute; reflexivity. Qed.
Example aes256_fips :
  aes_enc (hx "000102030405060708090a0b0c0d0e0f101112131415161718191a1b1c1d1e1f") (hx "00112233445566778899aabbccddeeff")
  = hx "8ea2b7ca516745bfeafc49904b496089"
  /\ aes_dec (hx "000102030405060708090a0b0c0d0e0f101112131415161718191a1b1c1d1e1f") (hx "8ea2b7ca516745bfeafc49904b496089")
     = hx "00112233445566778899aabbccddeeff".
Proof. split; vm_compute; reflexivity. Qed.
