(* Agreement of the two readers on arbitrary texts free of template syntax: if the VRL source reading (Model/VrlPathLex.v)
   and the path-string parser (Model/PathText.v) both accept a text, they return the same target path. *)
From Coq Require Import List NArith ZArith Bool Lia.
From VRL Require Import Base.Value Model.PathText Model.VrlPathLex Proofs.PathTextProofs Proofs.VrlPathProofs.
Import ListNotations.
Local Open Scope N_scope.

Lemma ident_continue_jit c : is_ident_continue c = true -> jit_char c = true.
Proof. cls. Qed.

(* between segments the machine rejects whitespace *)
Lemma jit_ws st c x out : index_ok st = true -> is_ws c = true -> jit st (c :: x) out = PErr.
Proof.
  intros Hst Hc.
  assert ((c =? 46) = false /\ jit_char c = false /\ (c =? 91) = false /\ (c =? 34) = false) as (H46 & Hj & H91 & H34)
    by (repeat split; cls).
  destruct st; try discriminate; cbn [jit]; rewrite ?H46, Hj, ?H91, ?H34; reflexivity.
Qed.

(* an index state that gets through has read digits up to a closing bracket *)
Lemma jit_idx_shape neg cs out p' :
  jit (jidx neg (sgn neg 0)) cs out = POk p' ->
  exists ds rest, cs = ds ++ 93 :: rest /\ forallb is_digit ds = true
                  /\ jit JContinue rest (SIndex (sgn neg (acc_pos ds 0)) :: out) = POk p'.
Proof.
  intros H. destruct (span is_digit cs) as [ds rest0] eqn:Hs. apply span_spec in Hs as (-> & Hd & Hn).
  rewrite jit_digits in H by (auto; lia || destruct neg; reflexivity).
  destruct (in_isize _); [|discriminate].
  destruct rest0 as [|c rest]; [destruct neg; discriminate|].
  assert (c = 93) as ->.
  { destruct neg; cbn [jidx jit] in H; rewrite Hn in H; destruct (N.eqb_spec c 93); (assumption || discriminate). }
  exists ds, rest. repeat split; auto. destruct neg; exact H.
Qed.

(* both readers on an index: if the machine gets through, it ends where vindex ends, with the same index *)
Lemma index_agree x i rest out p' :
  vindex x = Some (i, rest) -> jit JIndexStart x out = POk p' ->
  jit JContinue rest (SIndex i :: out) = POk p' /\ exists pre, x = pre ++ rest.
Proof.
  intros Hv Hj.
  assert (exists neg cs, x = sign neg ++ cs /\ jit (jidx neg (sgn neg 0)) cs out = POk p') as (neg & cs & -> & Hj').
  { destruct x as [|c r]; [discriminate|]. destruct (is_digit c) eqn:Ed.
    - exists false, (c :: r). rewrite <- (jit_indexstart false) by exact Ed. auto.
    - cbn [jit] in Hj. rewrite Ed in Hj. destruct (N.eqb_spec c 45) as [->|]; [|discriminate]. exists true, r. auto. }
  destruct (jit_idx_shape neg cs out p' Hj') as ([|d ds] & rest' & -> & Hd & Hj2).
  - (* "[]", "[-]": the machine reads "[-]" as index 0, VRL reads neither as an integer *)
    destruct neg; discriminate.
  - rewrite vindex_digits in Hv by exact Hd. destruct (in_isize _); [|discriminate]. injection Hv as <- <-.
    split; [exact Hj2|]. exists (sign neg ++ (d :: ds) ++ [93]). rewrite <- !app_assoc. reflexivity.
Qed.

(* both readers inside a quoted field, the machine in either of its quote states *)
Lemma quote_agree n : forall z esc x raw0 raw rest out p',
  (length z <= n)%nat -> esc || clean x = true ->
  string_lit z raw0 = Some (raw, rest) -> jit (qst esc x) z out = POk p' ->
  exists content u, raw = raw0 ++ content /\ unescape content = Some u /\ z = content ++ 34 :: rest
                    /\ jit JContinue rest (SField (x ++ u) :: out) = POk p'.
Proof.
  induction n as [|n IH]; intros [|c r] esc x raw0 raw rest out p' Hlen Hx Hs Hj;
    try discriminate; try (cbn in Hlen; lia).
  cbn in Hlen. cbn [string_lit] in Hs. destruct (N.eqb_spec c 34) as [->|N34].
  - injection Hs as <- <-. rewrite jit_q_close in Hj. exists [], []. rewrite !app_nil_r. auto.
  - destruct (N.eqb_spec c 92) as [->|N92].
    + destruct r as [|e r2]; [discriminate|]. rewrite jit_q_escaped in Hj by exact Hx.
      destruct (special e) eqn:Es; [|discriminate]. destruct (valid_escape e); [|discriminate].
      destruct (IH r2 true (x ++ [e]) _ _ _ _ _ ltac:(cbn in Hlen; lia) eq_refl Hs Hj)
        as (content & u & -> & Hu & -> & Hj').
      exists (92 :: e :: content), (e :: u). rewrite <- !app_assoc in *. repeat split; auto.
      cbn [unescape]. change (92 =? 92) with true. cbn iota. rewrite (proj2 (special_escape e Es)), Hu. reflexivity.
    + assert (Es : special c = false) by cls.
      rewrite jit_q_plain in Hj by exact Es.
      destruct (IH r esc (x ++ [c]) _ _ _ _ _ ltac:(lia) (clean_snoc _ _ _ Es Hx) Hs Hj)
        as (content & u & -> & Hu & -> & Hj').
      exists (c :: content), (c :: u). rewrite <- !app_assoc in *. repeat split; auto.
      cbn [unescape]. rewrite (proj2 (N.eqb_neq c 92) N92), Hu. reflexivity.
Qed.

(* an identifier token is the run of identifier units it begins *)
Lemma vident_span d z k rest :
  vident (d :: z) = Some (k, rest) -> is_ident_continue d = true /\ span is_ident_continue (d :: z) = (k, rest).
Proof.
  unfold vident. destruct (is_ident_start d) eqn:Eis.
  - destruct (span is_ident_continue (d :: z)) as [tok rst]. intros H. split.
    + unfold is_ident_continue. rewrite Eis. apply orb_true_r.
    + destruct tok as [|u [|u2 tl]]; [| destruct (u =? 95); [discriminate|] |]; injection H as <- <-; reflexivity.
  - destruct (is_digit d) eqn:Edg; [|discriminate].
    destruct (span is_digit_or_us (d :: z)) as [pre [|e tl]]; [discriminate|].
    destruct (is_ident_continue e); [|discriminate]. intros [= H]. split; [|exact H].
    unfold is_ident_continue. rewrite Edg. reflexivity.
Qed.

(* Where the machine is when the VRL reading stands at a segment boundary before the text r: in one of the four
   states of index_ok.  VRL has then accumulated `flush st out`, its `first` is `path_start st`, and if the machine
   is still inside an unquoted field, the VRL token has ended: r does not go on with an identifier unit. *)
Definition synced (st : jstate) (r : text) : Prop :=
  index_ok st = true /\ match st with JField _ => stops is_ident_continue r | _ => True end.

(* one field, both readers *)
Lemma field_agree st y k rest out p' :
  boundary st = true -> tf y ->
  vfield y = Some (k, rest) -> jit st y out = POk p' ->
  exists st' out', synced st' rest /\ path_start st' = false /\ flush st' out' = SField k :: out
                   /\ jit st' rest out' = POk p' /\ tf rest.
Proof.
  intros Hb Hnb Hv Hj. destruct y as [|d z]; [discriminate|]. apply (tf_app_r [d]) in Hnb.
  cbn [vfield] in Hv. destruct (N.eqb_spec d 34) as [->|N34].
  - destruct (string_lit z []) as [[raw rest0]|] eqn:Hs; [|discriminate].
    destruct (field_of_raw raw) as [f|] eqn:Hf; [|discriminate]. injection Hv as -> ->.
    rewrite jit_boundary_quote in Hj by exact Hb.
    destruct (quote_agree (length z) z false [] [] raw rest out p' (le_n _) eq_refl Hs Hj)
      as (content & u & -> & Hu & -> & Hj'). cbn [app] in Hf, Hj'.
    rewrite field_of_raw_plain, Hu in Hf by exact (tf_app_l _ _ Hnb). injection Hf as <-.
    exists JContinue, (SField u :: out). repeat split; auto. exact (tf_app_r [34] rest (tf_app_r _ _ Hnb)).
  - apply vident_span in Hv as [Hd (E & Hk & Hstop)%span_spec].
    destruct k as [|d' a]; [cbn in E; subst rest; cbn in Hstop; congruence|]. injection E as <- ->.
    rewrite jit_field_start in Hj by (auto; exact (forallb_impl _ _ _ ident_continue_jit Hk)).
    exists (JField (d :: a)), out. repeat split; auto. exact (tf_app_r _ _ Hnb).
Qed.

Lemma sim_agree fuel : forall r st out p p',
  tf r -> synced st r ->
  vsegs fuel (path_start st) r (flush st out) = Some p -> jit st r out = POk p' -> p = p'.
Proof.
  induction fuel as [|f IH]; intros r st out p p' Hnb [Hst Hfld] Hv Hj; [discriminate|].
  cbn [vsegs] in Hv. destruct (all_ws r) eqn:Haw.
  - (* the VRL reading ends here; so must the text, as the machine rejects whitespace *)
    injection Hv as <-. destruct r as [|w r'].
    + destruct st; try discriminate; cbn in Hj |- *; congruence.
    + apply andb_true_iff in Haw as [Hw _]. rewrite jit_ws in Hj by assumption. discriminate.
  - destruct r as [|c x]; [discriminate|]. apply (tf_app_r [c]) in Hnb as Hx.
    destruct (N.eqb_spec c 91) as [->|N91]; [|destruct (N.eqb_spec c 46) as [->|N46]].
    + destruct (vindex x) as [[i rest]|] eqn:Hvi; [|discriminate].
      rewrite jit_bracket in Hj by exact Hst.
      destruct (index_agree x i rest _ p' Hvi Hj) as (Hj' & pre & ->).
      apply (IH rest JContinue (SIndex i :: flush st out) p p'); auto; [exact (tf_app_r _ _ Hx) | split; reflexivity].
    + destruct (path_start st) eqn:Hps; [discriminate|].
      destruct (vfield x) as [[k rest]|] eqn:Hvf; [|discriminate].
      rewrite jit_end_dot in Hj by (destruct st; try discriminate; reflexivity).
      destruct (field_agree JDot x k rest _ p' eq_refl Hx Hvf Hj) as (st' & out' & Hs' & Hps' & Hfl & Hj' & Hnb').
      rewrite <- Hps', <- Hfl in Hv. exact (IH _ _ _ _ _ Hnb' Hs' Hv Hj').
    + destruct (vfield (c :: x)) as [[k rest]|] eqn:Hvf; [|discriminate].
      assert (boundary st = true /\ flush st out = out) as [Hb Hfl].
      { destruct st; try discriminate; auto.
        (* the machine is still inside an unquoted field: the VRL token ended, so c is not an identifier
           unit; then c must open a quoted field, which the machine rejects *)
        exfalso. cbn [vfield] in Hvf. destruct (N.eqb_spec c 34) as [->|N34]; [discriminate|].
        apply vident_span in Hvf as [Hc _]. cbn in Hfld. congruence. }
      rewrite Hfl in Hv.
      destruct (field_agree st (c :: x) k rest out p' Hb Hnb Hvf Hj) as (st' & out' & Hs' & Hps' & Hfl' & Hj' & Hnb').
      rewrite <- Hps', <- Hfl' in Hv. exact (IH _ _ _ _ _ Hnb' Hs' Hv Hj').
Qed.

Theorem agree_general s a b :
  template_syntax s = false -> vrl_path s = Some a -> parse_target_path s = POk b -> a = b.
Proof.
  intros Hnb Hv Hp. destruct s as [|c r]; [discriminate|]. destruct (is_ws c) eqn:Hw.
  - (* leading whitespace: VRL skips it, the path-string parser rejects it *)
    exfalso. assert ((c =? 46) = false /\ (c =? 37) = false) as [H46 H37] by (split; cls).
    unfold parse_target_path, parse_value_path in Hp. cbn [get_target_prefix] in Hp.
    rewrite H46, H37, jit_ws in Hp by auto. discriminate.
  - assert (exists pre, c = prefix_char pre) as [pre ->].
    { unfold vrl_path in Hv. cbn [skip_ws] in Hv. rewrite Hw in Hv.
      destruct (N.eqb_spec c 46) as [->|]; [exists Event; reflexivity|].
      destruct (N.eqb_spec c 37) as [->|]; [exists Metadata; reflexivity | discriminate]. }
    rewrite vrl_path_prefix in Hv. rewrite parse_target_prefix in Hp.
    destruct (vsegs _ _ _ _) as [p|] eqn:Hvs; [|discriminate]. destruct (jit _ _ _) as [p'| | |] eqn:Hj; try discriminate.
    injection Hv as <-. injection Hp as <-. f_equal.
    apply (sim_agree (S (length r)) r (prefix_state pre) [] p p' (tf_app_r [_] r Hnb));
      [destruct pre; repeat constructor | destruct pre; exact Hvs | exact Hj].
Qed.

Lemma no_brace_concat w : Forall (fun a => no_brace a = true) w -> no_brace (concat w) = true.
Proof.
  induction 1 as [|a w Ha _ IH]; [reflexivity|]. cbn [concat]. unfold no_brace in *.
  rewrite forallb_app, Ha, IH. reflexivity.
Qed.

(* the alphabet has no brace, so every text over it, of any length, is template-free *)
Theorem agree_short w :
  Forall (fun a => In a alphabet) w ->
  forall a b, vrl_path (concat w) = Some a -> parse_target_path (concat w) = POk b -> a = b.
Proof.
  intros Hw a b. apply agree_general, no_brace_tf, no_brace_concat.
  eapply Forall_impl; [|exact Hw]. intros x Hx.
  assert (Hall : forallb no_brace alphabet = true) by reflexivity.
  rewrite forallb_forall in Hall. auto.
Qed.
