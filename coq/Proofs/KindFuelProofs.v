(* The fuel `depth a + depth b` given to the kind-recursive functions always suffices: with at least
   that much, the result does not depend on the amount (so the out-of-fuel answers `any` / `false` are
   never what `union`, `merge_keep`, `is_superset` return). *)
From Coq Require Import List ZArith Lia.
From VRL Require Import Base.Bytes Model.Kind Model.KindCrud Proofs.KindBasics.
Import ListNotations.

Definition dk_list {K} (l : list (K * kind)) : nat :=
  fold_right (fun kv acc => Nat.max (depth (snd kv)) acc) 0 l.
Definition du (u : unk) : nat := match u with UExact x => depth x | UInf _ => 1 end.
Definition dcoll {K} (o : option (coll_ K kind)) : nat :=
  match o with None => 0 | Some c => Nat.max (dk_list (known c)) (du (unknown c)) end.

Lemma depth_unfold k : depth k = S (Nat.max (dcoll (arr_of k)) (dcoll (obj_of k))).
Proof.
  destruct k as [p [ca|] [co|]]; cbn [depth arr_of obj_of dcoll];
    try destruct (unknown ca); try destruct (unknown co); reflexivity.
Qed.

Lemma depth_pos k : 1 <= depth k.
Proof. rewrite depth_unfold. lia. Qed.

Lemma coll_depth_a k c : arr_of k = Some c -> dcoll (Some c) < depth k.
Proof. intros H. rewrite depth_unfold, H. lia. Qed.

Lemma coll_depth_o k c : obj_of k = Some c -> dcoll (Some c) < depth k.
Proof. intros H. rewrite depth_unfold, H. lia. Qed.

Lemma in_depth {K} (l : list (K * kind)) key x : In (key, x) l -> depth x <= dk_list l.
Proof.
  induction l as [|kv l IH]; [intros []|]. intros [->|H]; unfold dk_list; cbn [fold_right snd]; fold (dk_list l).
  - apply Nat.le_max_l.
  - specialize (IH H). etransitivity; [exact IH | apply Nat.le_max_r].
Qed.

Lemma depth_or_undefined k : depth (or_undefined k) = depth k.
Proof. destruct k; reflexivity. Qed.
Lemma depth_remove_undefined k : depth (remove_undefined k) = depth k.
Proof. destruct k; reflexivity. Qed.

Lemma depth_kind_of_inf i : depth (kind_of_inf i) <= 2.
Proof. unfold kind_of_inf. destruct (i_array i), (i_object i); cbn; lia. Qed.

(* the kinds inside a collection are shallower than a kind that holds the collection *)
Lemma coll_depth {K} (c : coll_ K kind) d : dcoll (Some c) < d ->
  (forall key x, In (key, x) (known c) -> depth x < d) /\ du (unknown c) < d /\ depth (unknown_kind c) <= d.
Proof.
  cbn [dcoll]. intros H. repeat split; [|lia|].
  - intros key x Hin. pose proof (in_depth _ _ _ Hin). lia.
  - unfold unknown_kind, unknown_kind_u, existing_kind. rewrite depth_or_undefined, depth_remove_undefined.
    destruct (unknown c) as [x|i]; cbn [du] in H; [lia | pose proof (depth_kind_of_inf i); lia].
Qed.

Lemma amap_ext_in {K} (f g : K -> kind -> kind) (l : list (K * kind)) :
  (forall key x, In (key, x) l -> f key x = g key x) -> amap f l = amap g l.
Proof.
  intros H. unfold amap. apply map_ext_in. intros [key x] Hin. cbn. rewrite (H key x Hin). reflexivity.
Qed.

Section CMergeExt.
  Context {K : Type}.
  Variable keqb : K -> K -> bool.
  Variable kcmp : K -> K -> comparison.
  Hypothesis keqb_spec : forall a b, keqb a b = true <-> a = b.
  Variables M U M' U' : kind -> kind -> kind.
  Variables (l r : coll_ K kind) (dl dr : nat).
  (* dl, dr: depths of the kinds that own l and r *)
  Hypothesis Hl : dcoll (Some l) < dl.
  Hypothesis Hr : dcoll (Some r) < dr.
  Hypothesis HU : forall x y, depth x + depth y < dl + dr -> U x y = U' x y.
  Hypothesis HM : forall x y, depth x + depth y < dl + dr -> M x y = M' x y.

  (* Collection::merge only applies its function arguments to pairs shallower than its operands *)
  Lemma cmerge_ext ow : cmerge keqb kcmp M U ow l r = cmerge keqb kcmp M' U' ow l r.
  Proof.
    destruct (coll_depth l dl Hl) as (Hlk & Hlu & Hluk). destruct (coll_depth r dr Hr) as (Hrk & Hru & Hruk).
    unfold cmerge. f_equal.
    - f_equal.
      + apply amap_ext_in. intros key sk Hin. unfold merge_self_entry. pose proof (Hlk _ _ Hin).
        destruct (aget keqb (known r) key) as [ok|] eqn:E.
        * pose proof (Hrk _ _ (aget_in keqb keqb_spec E)). destruct ow; auto. apply HU. lia.
        * destruct (contains_any_defined (unknown_kind r)); auto.
          destruct ow; apply HU; rewrite ?depth_remove_undefined; lia.
      + apply map_ext_in. intros [key ok] Hin. cbn. f_equal. apply filter_In in Hin. destruct Hin as [Hin _].
        pose proof (Hrk _ _ Hin). unfold merge_other_entry.
        destruct (contains_any_defined (unknown_kind l)); auto. destruct ow; auto. apply HU. lia.
    - destruct (unknown l) as [x|i], (unknown r) as [y|j]; cbn [umerge]; auto.
      f_equal. apply HM. cbn [du] in *. lia.
  Qed.
End CMergeExt.

Lemma merge_opt_ext {A} (f g : A -> A -> A) a b :
  (forall x y, a = Some x -> b = Some y -> f x y = g x y) -> merge_opt f a b = merge_opt g a b.
Proof. intros H. destruct a, b; cbn; auto. f_equal. auto. Qed.

Theorem merge_f_fuel : forall n m ow a b, depth a + depth b <= n -> depth a + depth b <= m ->
  merge_f n ow a b = merge_f m ow a b.
Proof.
  induction n as [|n IH]; intros m ow a b Hn Hm; [pose proof (depth_pos a); lia|].
  destruct m as [|m]; [pose proof (depth_pos a); lia|].
  cbn [merge_f]. f_equal; apply merge_opt_ext; intros ca cb Ea Eb.
  - apply (cmerge_ext Nat.eqb Nat.compare Nat.eqb_eq _ _ _ _ ca cb (depth a) (depth b));
      auto using coll_depth_a; intros x y Hd; apply IH; lia.
  - apply (cmerge_ext bytes_eqb bytes_cmp bytes_eqb_eq _ _ _ _ ca cb (depth a) (depth b));
      auto using coll_depth_o; intros x y Hd; apply IH; lia.
Qed.

Lemma forallb_ext_in {A} (f g : A -> bool) l : (forall x, In x l -> f x = g x) -> forallb f l = forallb g l.
Proof.
  induction l as [|x l IH]; cbn; auto. intros H. rewrite (H x (or_introl eq_refl)), IH; auto.
Qed.

Section CSupExt.
  Context {K : Type}.
  Variable keqb : K -> K -> bool.
  Hypothesis keqb_spec : forall a b, keqb a b = true <-> a = b.
  Variables S S' : kind -> kind -> bool.
  Variables (l r : coll_ K kind) (dl dr : nat).
  Hypothesis Hl : dcoll (Some l) < dl.
  Hypothesis Hr : dcoll (Some r) < dr.
  Hypothesis HS : forall x y, depth x + depth y < dl + dr -> S x y = S' x y.

  Lemma csuperset_ext : csuperset keqb S l r = csuperset keqb S' l r.
  Proof.
    destruct (coll_depth l dl Hl) as (Hlk & Hlu & Hluk). destruct (coll_depth r dr Hr) as (Hrk & Hru & Hruk).
    unfold csuperset. f_equal; [f_equal|].
    - destruct (unknown l) as [x|i], (unknown r) as [y|j]; cbn [usuperset du] in *; auto.
      + apply HS. rewrite !depth_remove_undefined. lia.
      + destruct (inf_is_any i); auto. apply HS. pose proof (depth_kind_of_inf i). lia.
    - apply forallb_ext_in. intros [key ok] Hin. cbn. pose proof (Hrk _ _ Hin). apply HS.
      unfold coll_at. destruct (aget keqb (known l) key) as [sk|] eqn:E; [|lia].
      pose proof (Hlk _ _ (aget_in keqb keqb_spec E)). lia.
    - apply forallb_ext_in. intros [key sk] Hin. cbn. pose proof (Hlk _ _ Hin).
      destruct (ahas keqb (known r) key); auto. cbn. apply HS. lia.
  Qed.
End CSupExt.

Lemma sup_opt_ext {A} (f g : A -> A -> bool) a b :
  (forall x y, a = Some x -> b = Some y -> f x y = g x y) -> sup_opt f a b = sup_opt g a b.
Proof. intros H. destruct a, b; cbn; auto. Qed.

Theorem superset_f_fuel : forall n m a b, depth a + depth b <= n -> depth a + depth b <= m ->
  superset_f n a b = superset_f m a b.
Proof.
  induction n as [|n IH]; intros m a b Hn Hm; [pose proof (depth_pos a); lia|].
  destruct m as [|m]; [pose proof (depth_pos a); lia|].
  cbn [superset_f]. f_equal; [f_equal|]; apply sup_opt_ext; intros ca cb Ea Eb.
  - apply (csuperset_ext Nat.eqb Nat.eqb_eq _ _ ca cb (depth a) (depth b));
      auto using coll_depth_a; intros x y Hd; apply IH; lia.
  - apply (csuperset_ext bytes_eqb bytes_eqb_eq _ _ ca cb (depth a) (depth b));
      auto using coll_depth_o; intros x y Hd; apply IH; lia.
Qed.

Theorem union_fuel_adequate a b n : depth a + depth b <= n -> merge_f n false a b = union a b.
Proof. intros H. apply merge_f_fuel; auto. Qed.

Theorem merge_keep_fuel_adequate a b ow n : depth a + depth b <= n -> merge_f n ow a b = merge_keep a b ow.
Proof. intros H. apply merge_f_fuel; auto. Qed.

Theorem is_superset_fuel_adequate a b n : depth a + depth b <= n -> superset_f n a b = is_superset a b.
Proof. intros H. apply superset_f_fuel; auto. Qed.
