(* One value of a scalar kind through the wire: encoder -> wire value -> decoder, single records and packed
   payloads (Model/Proto.v). *)
From Coq Require Import List NArith ZArith Znumtheory Bool Arith Lia.
From VRL Require Import Base.Bytes Base.Lit Model.CodecUtf8 Model.Proto Proofs.ProtoWireProofs.
Import ListNotations.

Local Open Scope Z_scope.

Definition len_ok (b : bytes) : Prop := (N.of_nat (length b) < 2 ^ 64)%N.

(* a value of a non-message kind, in the range of the kind *)
Definition wt_plain (k : skind) (v : pval) : Prop :=
  match k, v with
  | (KInt32 | KSint32 | KSfixed32), PInt z => - 2 ^ 31 <= z < 2 ^ 31
  | (KInt64 | KSint64 | KSfixed64), PInt z => - 2 ^ 63 <= z < 2 ^ 63
  | (KUint32 | KFixed32), PInt z => 0 <= z < 2 ^ 32
  | (KUint64 | KFixed64), PInt z => 0 <= z < 2 ^ 64
  | KDouble, PF64 f => f64_of_bits (f64_to_bits f) = f /\ 0 <= f64_to_bits f < 2 ^ 64
  | KFloat, PF32 f => f32_of_bits (f32_to_bits f) = f /\ 0 <= f32_to_bits f < 2 ^ 32
  | KBool, PBool _ => True
  | KString, PStr s => valid_utf8 s = true /\ len_ok s
  | KBytes, PBytes s => len_ok s
  | KEnum _ _, PEnum z => - 2 ^ 31 <= z < 2 ^ 31
  | _, _ => False
  end.

Definition is_msg_kind (k : skind) : bool := match k with KMsg _ => true | _ => false end.

Lemma packable_not_msg k : is_packable k = true -> is_msg_kind k = false.
Proof. destruct k; try reflexivity; discriminate. Qed.

Lemma wrap_s_id bits z : 0 < bits -> - 2 ^ (bits - 1) <= z < 2 ^ (bits - 1) -> wrap_s bits z = z.
Proof.
  intros Hb Hz. unfold wrap_s.
  pose proof (pow2_split bits Hb) as Hp.
  destruct (Z.neg_nonneg_cases z).
  - (* z mod 2^bits = z + 2^bits *)
    rewrite <- (Z.mod_unique_pos z (2 ^ bits) (-1) (z + 2 ^ bits)) by lia.
    destruct (Z.ltb_spec (z + 2 ^ bits) (2 ^ (bits - 1))); lia.
  - rewrite Z.mod_small by lia. destruct (Z.ltb_spec z (2 ^ (bits - 1))); lia.
Qed.

Lemma wrap_s_mod64 bits z : 0 < bits <= 64 -> wrap_s bits (z mod two64) = wrap_s bits z.
Proof.
  intros Hb. unfold wrap_s. change two64 with (2 ^ 64).
  rewrite <- (Zmod_div_mod (2 ^ bits) (2 ^ 64) z); [reflexivity | apply Z.pow_pos_nonneg; lia | reflexivity |].
  exists (2 ^ (64 - bits)). rewrite <- Z.pow_add_r by lia. f_equal. lia.
Qed.

Lemma wrap_s_u bits z : 0 < bits -> wrap_s bits (wrap_u bits z) = wrap_s bits z.
Proof. intros Hb. unfold wrap_s, wrap_u. rewrite Z.mod_mod by (apply Z.pow_nonzero; lia). reflexivity. Qed.

Lemma wrap_u_bound bits z : 0 < bits -> 0 <= wrap_u bits z < 2 ^ bits.
Proof. intros Hb. apply Z.mod_pos_bound. apply Z.pow_pos_nonneg; lia. Qed.

Lemma wrap_u_id bits z : 0 <= z < 2 ^ bits -> wrap_u bits z = z.
Proof. apply Z.mod_small. Qed.

(* `as u<bits>` and back `as i<bits>` *)
Lemma wrap_s_of_u bits z : 0 < bits -> - 2 ^ (bits - 1) <= z < 2 ^ (bits - 1) -> wrap_s bits (wrap_u bits z) = z.
Proof. intros Hb Hz. rewrite wrap_s_u by exact Hb. exact (wrap_s_id bits z Hb Hz). Qed.

Lemma wrap_u_zero bits z : 0 < bits -> - 2 ^ (bits - 1) <= z < 2 ^ (bits - 1) -> (wrap_u bits z =? 0) = (z =? 0).
Proof.
  intros Hb Hz. destruct (Z.eqb_spec z 0) as [->|Hn]; [reflexivity|].
  apply Z.eqb_neq. intros E. apply Hn. rewrite <- (wrap_s_of_u bits z Hb Hz), E. apply wrap_s_id; lia.
Qed.

Lemma to_u64_of z : Z.of_N (to_u64 z) = z mod two64.
Proof. unfold to_u64. pose proof (Z.mod_pos_bound z two64 eq_refl). lia. Qed.

Lemma to_u64_lt z : (to_u64 z < 2 ^ 64)%N.
Proof. pose proof (to_u64_of z) as H. pose proof (Z.mod_pos_bound z two64 eq_refl). change two64 with (Z.of_N (2 ^ 64)) in *. lia. Qed.

Lemma signed_through_u64 bits z :
  0 < bits <= 64 -> - 2 ^ (bits - 1) <= z < 2 ^ (bits - 1) -> wrap_s bits (Z.of_N (to_u64 z)) = z.
Proof. intros Hb Hz. rewrite to_u64_of, wrap_s_mod64 by lia. apply wrap_s_id; lia. Qed.

(* a number of n bytes written little-endian and read back *)
Lemma fixed_roundtrip (n : nat) z : 0 <= z < 256 ^ Z.of_nat n -> Z.of_N (le_val (le_bytes n (Z.to_N z))) = z.
Proof.
  intros H. rewrite le_roundtrip; [lia|].
  apply N2Z.inj_lt. rewrite N2Z.inj_pow, nat_N_Z. cbn [Z.of_N]. lia.
Qed.

Section Plain.
  Variable P : pool.
  Variable em : msgdesc -> dmsg -> bytes.

  Lemma plain_roundtrip k v :
    is_msg_kind k = false -> wt_plain k v ->
    exists w, enc_scalar P em k v = Some w /\ wf_wval w /\ dec_plain k w = POk v.
  Proof.
    intros Hk Hw.
    destruct k; try discriminate; destruct v; cbn [wt_plain] in Hw; try contradiction;
      cbn [enc_scalar]; eexists; (split; [reflexivity|]);
      cbn [wf_wval dec_plain expect_varint expect_f32 expect_f64 expect_len pbind].
    - (* int32 *) split; [apply to_u64_lt | rewrite signed_through_u64 by lia; reflexivity].
    - (* int64 *) split; [apply to_u64_lt | rewrite signed_through_u64 by lia; reflexivity].
    - (* uint32 *) split; [lia | rewrite Z2N.id, wrap_u_id by lia; reflexivity].
    - (* uint64 *) split; [lia | rewrite Z2N.id by lia; reflexivity].
    - (* sint32 *) pose proof (zigzag_bound 32 z eq_refl Hw) as Hz. split; [cbn in Hz |- *; lia|].
      rewrite N.mod_small, zigzag_roundtrip by exact Hz. reflexivity.
    - (* sint64 *) split; [exact (zigzag_bound 64 z eq_refl Hw) | rewrite zigzag_roundtrip; reflexivity].
    - (* fixed32 *) split; [apply le_bytes_length | rewrite wrap_u_id, (fixed_roundtrip 4) by lia; reflexivity].
    - (* fixed64 *) split; [apply le_bytes_length | rewrite wrap_u_id, (fixed_roundtrip 8) by lia; reflexivity].
    - (* sfixed32 *) split; [apply le_bytes_length|].
      rewrite (fixed_roundtrip 4), wrap_s_of_u by (exact (wrap_u_bound 32 z eq_refl) || lia). reflexivity.
    - (* sfixed64 *) split; [apply le_bytes_length|].
      rewrite (fixed_roundtrip 8), wrap_s_of_u by (exact (wrap_u_bound 64 z eq_refl) || lia). reflexivity.
    - (* double *) split; [apply le_bytes_length | rewrite (fixed_roundtrip 8), (proj1 Hw) by exact (proj2 Hw); reflexivity].
    - (* float *) split; [apply le_bytes_length | rewrite (fixed_roundtrip 4), (proj1 Hw) by exact (proj2 Hw); reflexivity].
    - (* bool *) split; destruct b; reflexivity.
    - (* string *) split; [apply Hw | rewrite (proj1 Hw); reflexivity].
    - (* bytes *) split; [exact Hw | reflexivity].
    - (* enum *) split; [apply to_u64_lt | rewrite signed_through_u64 by lia; reflexivity].
  Qed.

  (* a packed payload holds the same bytes as the single records would, under the kind's own wire type *)
  Lemma packed_elem_wire k v w :
    is_packable k = true -> enc_scalar P em k v = Some w -> wire_type w = packed_wt k /\ enc_packed_elem k v = ser_wval w.
  Proof. destruct k; try discriminate; destruct v; try discriminate; intros _ [= <-]; split; reflexivity. Qed.
End Plain.

Lemma ser_wval_nonempty w : wf_wval w -> (1 <= length (ser_wval w))%nat.
Proof.
  destruct w as [n|b|b|b]; cbn [ser_wval wf_wval]; intros Hw; rewrite ?app_length; try lia.
  - pose proof (encode_varint_length n). lia.
  - pose proof (encode_varint_length (N.of_nat (length b))). lia.
Qed.

Lemma packed_wt_not_len k : packed_wt k <> 2%N.
Proof. destruct k; cbn; discriminate. Qed.

Section Packed.
  Variable k : skind.
  Hypothesis packable : is_packable k = true.

  (* what a value of kind k becomes on the wire; the pool and the message encoder play no part for these kinds *)
  Lemma packed_elem v : wt_plain k v ->
    exists w, wf_wval w /\ dec_plain k w = POk v /\ wire_type w = packed_wt k /\ enc_packed_elem k v = ser_wval w.
  Proof.
    intros Hv. destruct (plain_roundtrip [] (fun _ _ => []) k v (packable_not_msg k packable) Hv) as (w & He & Hw & Hd).
    exists w. split; [exact Hw|]. split; [exact Hd|]. exact (packed_elem_wire _ _ k v w packable He).
  Qed.

  Lemma dec_packed_chunk fuel v rest : wt_plain k v ->
    dec_packed_f (S fuel) k (enc_packed_elem k v ++ rest) = pbind (dec_packed_f fuel k rest) (fun vs => POk (v :: vs)).
  Proof.
    intros Hv. destruct (packed_elem v Hv) as (w & Hw & Hd & Ht & ->).
    pose proof (wval_roundtrip w rest Hw) as E.
    cbn [dec_packed_f]. rewrite <- Ht. destruct (ser_wval w ++ rest); [destruct w; discriminate E|].
    rewrite E. cbn [pbind]. rewrite Hd. reflexivity.
  Qed.

  Lemma packed_roundtrip l fuel : Forall (wt_plain k) l ->
    (length (concat (map (enc_packed_elem k) l)) <= fuel)%nat ->
    dec_packed_f fuel k (concat (map (enc_packed_elem k) l)) = POk l.
  Proof.
    intros Hl. revert fuel.
    apply (chunks_roundtrip (enc_packed_elem k) (wt_plain k) (fun fuel => dec_packed_f fuel k)); [| | | exact Hl].
    - destruct fuel; reflexivity.
    - intros fuel v rest. apply dec_packed_chunk.
    - intros v Hv. destruct (packed_elem v Hv) as (w & Hw & _ & _ & ->). exact (ser_wval_nonempty w Hw).
  Qed.
End Packed.
