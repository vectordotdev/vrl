(* Top-level copies of the inner loops of Model/TypeInfo.v `type_info` and the unfolding equations. *)
From Coq Require Import List Bool.
From VRL Require Import Base.Bytes Base.Value Model.Kind Model.KindCrud Model.Expr Model.TypeInfo.
Import ListNotations.

Section TypeInfoEqs.
  Variable binop : opcode -> value -> value -> option value.
  Variable T : fname -> list tdef -> list tdef -> tdef.
  Notation ti := (type_info binop T).

  Fixpoint ti_blk (es : list expr) (s : tstate) (result : tdef) (fallible after_never : bool) (returns : kind)
    {struct es} : tstate * tdef :=
    match es with
    | [] => (s, td_with_ret (td_maybe_fallible result fallible) returns)
    | e1 :: es' =>
        let '(s', r) := ti e1 s in
        ti_blk es' s' r (fallible || (negb after_never && td_fal r))
               (after_never || is_never (td_kind r)) (union returns (td_ret r))
    end.

  Definition ti_block (scoped : bool) (es : list expr) (s : tstate) : tstate * tdef :=
    let '(s', r) := ti_blk es s (td_of k_null) false false k_never in
    (if scoped then mkTs (apply_child_scope (locals s) (locals s')) (tgt s') (mdk s') else s', r).

  Fixpoint ti_arr (es : list expr) (s : tstate) (acc : list tdef) (fallible : bool) {struct es} : tstate * tdef :=
    match es with
    | [] =>
        let tds := rev acc in
        (s, mkTd fallible (arr_kind (map td_kind tds)) (fold_left (fun r t => union r (td_ret t)) tds k_never))
    | e1 :: es' =>
        let '(s', r0) := ti e1 s in
        let r := td_upgrade r0 in
        let fallible' := fallible || td_fal r in
        if is_never (td_kind r) then (s', mkTd fallible' k_never k_never)
        else ti_arr es' s' (r :: acc) fallible'
    end.

  Fixpoint ti_obj (kvs : list (bytes * expr)) (s : tstate) (acc : list (bytes * kind)) (fallible : bool)
    (returns : kind) {struct kvs} : tstate * tdef :=
    match kvs with
    | [] => (s, mkTd fallible (obj_kind (rev acc)) returns)
    | (k, e1) :: kvs' =>
        let '(s', r0) := ti e1 s in
        let r := td_upgrade r0 in
        let returns' := union returns (td_ret r) in
        let fallible' := fallible || td_fal r in
        if is_never (td_kind r) then (s', mkTd fallible' k_never returns')
        else ti_obj kvs' s' ((k, td_kind r) :: acc) fallible' returns'
    end.

  Lemma ti_block_eq es s : ti (EBlock es) s = ti_block true es s.
  Proof. reflexivity. Qed.
  Lemma ti_arr_eq es s : ti (EArr es) s = ti_arr es s [] false.
  Proof. reflexivity. Qed.
  Lemma ti_obj_eq kvs s : ti (EObj kvs) s = ti_obj kvs s [] false k_never.
  Proof. reflexivity. Qed.
  Lemma ti_program_eq es s : program_type_info binop T es s = ti_blk es s (td_of k_null) false false k_never.
  Proof.
    change (program_type_info binop T es s)
      with (let '(s', r) := ti_blk es s (td_of k_null) false false k_never in (s', r)).
    destruct (ti_blk es s (td_of k_null) false false k_never); reflexivity.
  Qed.

  Lemma ti_if_eq c t f s :
    ti (EIf c t f) s =
    let '(s1, pr) := ti_block false c s in
    let '(si, ri) := ti_block true t s1 in
    match f with
    | Some fb =>
        let '(se, re) := ti_block true fb s1 in
        let r := td_union ri re in
        (ts_merge si se, td_with_ret r (union (td_ret r) (td_ret pr)))
    | None =>
        let r := td_with_kind ri (or_null (td_kind ri)) in
        (ts_merge si s1, td_with_ret r (union (td_ret r) (td_ret pr)))
    end.
  Proof. reflexivity. Qed.
End TypeInfoEqs.
