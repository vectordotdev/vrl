(* Proofs about the timestamp conversions of Model/Conversion.v: when the default timezone does not matter, the
   RFC 3339 text, and the full-precision layouts of Model/TsText.v used as conversion formats. *)
From Coq Require Import String.
From Coq Require Import List NArith ZArith Bool Lia.
From VRL Require Import Base.Bytes Base.Value Model.ConvRes Model.IntText Model.NumFns Model.UnixTs Model.TsText.
From VRL Require Import Proofs.TsTextProofs.
From VRL Require Import Model.Conversion Proofs.ConversionProofs.
Import ListNotations.
Local Open Scope Z_scope.

Section TzIndep.
  Variable tzT : Type.
  Variable cz : bytes -> bytes -> option dt.
  Variable c3 c2 : bytes -> option dt.

  (* a format with (what format_has_zone takes for) a zone: neither the default timezone nor anything chrono does with
     a timezone is consulted *)
  Theorem tz_indep_fmt (cl cl' : tzT -> bytes -> bytes -> option dt) fmt tz1 tz2 s :
    format_has_zone fmt = true ->
    convert tzT cl cz c3 c2 (conv_timestamp tzT fmt tz1) s = convert tzT cl' cz c3 c2 (conv_timestamp tzT fmt tz2) s.
  Proof. intros H. unfold conv_timestamp. rewrite H. reflexivity. Qed.

  Definition tz_free (c : conversion tzT) : bool :=
    match c with CTimestamp _ | CTimestampFmt _ _ => false | _ => true end.

  (* by name: whatever the name, unless it denotes the auto-detecting conversion or a format without a zone, the
     result is the same under every default timezone *)
  Theorem tz_indep_names (cl cl' : tzT -> bytes -> bytes -> option dt) name tz1 tz2 c1 s :
    parse_conv tzT name tz1 = Some c1 -> tz_free c1 = true ->
    exists c2', parse_conv tzT name tz2 = Some c2' /\
                convert tzT cl cz c3 c2 c1 s = convert tzT cl' cz c3 c2 c2' s.
  Proof.
    unfold parse_conv. destruct (split_bar name) as [a [fmt|]].
    - destruct (bytes_eqb (trim a) name_timestamp); [|discriminate].
      unfold conv_timestamp. destruct (format_has_zone (trim fmt)).
      + intros H _. inversion H; subst. eexists. split; reflexivity.
      + intros H F. inversion H; subst. discriminate.
    - (* a name of the table: only `timestamp` itself mentions the timezone *)
      rewrite plain_name_documented. unfold documented.
      intros [[? ->]|[[? ->]|[[? ->]|[[? ->]|[_ ->]]]]] F; [eexists; rewrite plain_name_documented .. | discriminate];
        (split; [unfold documented; auto 10 | reflexivity]).
  Qed.

  Lemma first_local_none (cl : tzT -> bytes -> bytes -> option dt) tz s fmts :
    (forall f, In f fmts -> cl tz s f = None) -> first_local tzT cl tz s fmts = None.
  Proof.
    induction fmts as [|f r IH]; intros H; cbn [first_local]; [reflexivity|].
    unfold datetime_from_str. rewrite (H f (or_introl eq_refl)). apply IH. intros g Hg. apply H. right. exact Hg.
  Qed.

  (* the auto-detecting conversion: a text that no zone-less format of the list accepts, under either timezone, is
     converted to the same instant (or the same error) under both *)
  Theorem tz_indep_auto (cl : tzT -> bytes -> bytes -> option dt) tz1 tz2 s :
    (forall f, In f local_formats -> cl tz1 s f = None /\ cl tz2 s f = None) ->
    convert tzT cl cz c3 c2 (CTimestamp tz1) s = convert tzT cl cz c3 c2 (CTimestamp tz2) s.
  Proof.
    intros H. cbn [convert]. unfold Conversion.parse_timestamp.
    rewrite (first_local_none cl tz1 s local_formats) by (intros f Hf; apply (H f Hf)).
    rewrite (first_local_none cl tz2 s local_formats) by (intros f Hf; apply (H f Hf)).
    reflexivity.
  Qed.
End TzIndep.

Lemma parse_digits_bad neg radix c : to_digit radix c = None ->
  forall s acc, In c s -> parse_digits neg radix s acc = None.
Proof.
  intros Hc. induction s as [|x s IH]; intros acc Hin; [destruct Hin|].
  cbn [parse_digits]. destruct Hin as [->|Hin].
  - rewrite Hc. reflexivity.
  - destruct (to_digit radix x); [|reflexivity].
    destruct (ConvRes.in_i64 (acc * radix)); [|reflexivity].
    destruct (ConvRes.in_i64 (if neg then acc * radix - _ else acc * radix + _)); [|reflexivity].
    apply IH. exact Hin.
Qed.

Lemma not_int_T c0 s : In 84%N s -> parse_i64 (c0 :: s) = None.
Proof.
  intros Hin. unfold parse_i64, from_str_radix.
  assert (HT : to_digit 10 84%N = None) by reflexivity.
  destruct s as [|c1 r]; [destruct Hin|].
  destruct (c0 =? 43)%N; [|destruct (c0 =? 45)%N]; apply parse_digits_bad with (c := 84%N);
    try exact HT; [exact Hin | exact Hin | right; exact Hin].
Qed.

Lemma year_text_nonempty y : exists c r, year_text y = c :: r.
Proof.
  unfold year_text. destruct ((0 <=? y) && (y <=? 9999)).
  - cbn [pad_digits]. destruct (pad_digits 3 (y / 10)); cbn; eauto.
  - eauto.
Qed.

Lemma rfc3339_text_not_int ns : parse_i64 (format_layout LRfc3339 ns) = None.
Proof.
  unfold format_layout. cbv zeta.
  destruct (civil_from_days (ns / 1000000000 / 86400)) as [[y m] d].
  destruct (year_text_nonempty y) as (c & r & ->).
  cbn [app]. apply not_int_T.
  apply in_or_app. right. right. apply in_or_app. right. right. apply in_or_app. right. left. reflexivity.
Qed.

Lemma datetime_to_utc_of_ns ns : datetime_to_utc (dt_of_ns ns) = ROk ns.
Proof.
  unfold datetime_to_utc, dt_of_ns.
  replace (ns mod 1000000000 <? 1000000000) with true by (symmetry; apply Z.ltb_lt; apply Z.mod_pos_bound; lia).
  cbn [orb]. f_equal. pose proof (Z.div_mod ns 1000000000 ltac:(lia)). lia.
Qed.

Section Rfc3339.
  Variable tzT : Type.
  Variable cl : tzT -> bytes -> bytes -> option dt.
  Variable cz : bytes -> bytes -> option dt.
  Variable c3 c2 : bytes -> option dt.

  (* chrono, about the text DateTime::<Utc>::to_rfc3339() prints (= format_layout LRfc3339, tied by the correspondence):
     none of the zone-less formats accepts it (each of them ends where the offset begins: TOO_LONG), and
     parse_from_rfc3339 reads it back *)
  Hypothesis local_reject : forall tz ns f, In f local_formats -> cl tz (format_layout LRfc3339 ns) f = None.
  Hypothesis rfc3339_reads_back : forall ns, ts_in_range ns = true ->
    c3 (format_layout LRfc3339 ns) = Some (dt_of_ns ns).

  Theorem rfc3339_roundtrip ns tz : ts_in_range ns = true ->
    convert tzT cl cz c3 c2 (CTimestamp tz) (format_layout LRfc3339 ns) = COk (VTs ns).
  Proof.
    intros Hr. cbn [convert]. unfold Conversion.parse_timestamp.
    rewrite (first_local_none tzT cl tz _ local_formats) by (intros f Hf; apply local_reject; exact Hf).
    unfold parse_unix_timestamp. rewrite rfc3339_text_not_int.
    rewrite (rfc3339_reads_back ns Hr), datetime_to_utc_of_ns. reflexivity.
  Qed.
End Rfc3339.

(* the full-precision layouts of Model/TsText.v as conversion formats *)

Definition layout_fmt (l : layout) : bytes :=
  ascii_bytes (match l with
               | LIsoNano => "%Y-%m-%dT%H:%M:%S%.9f%z"
               | LIsoAuto => "%Y-%m-%dT%H:%M:%S%.f%:z"
               | LRfc3339 => "%+"
               | LSpaceNum => "%Y-%m-%d %H:%M:%S.%f"
               end)%string.

Lemma layout_fmt_ok l : layout_of (layout_fmt l) = Some l.
Proof. destruct l; reflexivity. Qed.

Definition zoned_layout (l : layout) : bool := match l with LSpaceNum => false | _ => true end.

Lemma zoned_layout_has_zone l : format_has_zone (layout_fmt l) = zoned_layout l.
Proof. destruct l; vm_compute; reflexivity. Qed.

Section Layouts.
  Variable tzT : Type.
  Variable cl : tzT -> bytes -> bytes -> option dt.
  Variable cz : bytes -> bytes -> option dt.
  Variable c3 c2 : bytes -> option dt.
  Variable utc : tzT.

  (* chrono agrees with the parser model of Model/TsText.v (which C25's correspondence ties to chrono) wherever that
     model gives an answer: DateTime::parse_from_str for the zoned layouts, the UTC default timezone for the other *)
  Definition agrees (chrono : bytes -> bytes -> option dt) (l : layout) : Prop :=
    forall s ns, parse_layout l s = Some (ROk ns) ->
      exists d, chrono s (layout_fmt l) = Some d /\ datetime_to_utc d = ROk ns.

  Theorem layout_roundtrip_zoned l ns tz : zoned_layout l = true -> agrees cz l -> ts_in_range ns = true ->
    convert tzT cl cz c3 c2 (conv_timestamp tzT (layout_fmt l) tz) (format_layout l ns) = COk (VTs ns).
  Proof.
    intros Hz Ha Hr. unfold conv_timestamp. rewrite zoned_layout_has_zone, Hz. cbn [convert].
    destruct (Ha _ _ (layout_roundtrip l ns Hr)) as (d & -> & ->). reflexivity.
  Qed.

  Theorem layout_roundtrip_local ns : agrees (cl utc) LSpaceNum -> ts_in_range ns = true ->
    convert tzT cl cz c3 c2 (conv_timestamp tzT (layout_fmt LSpaceNum) utc) (format_layout LSpaceNum ns) = COk (VTs ns).
  Proof.
    intros Ha Hr. unfold conv_timestamp. rewrite zoned_layout_has_zone. cbn [zoned_layout convert].
    unfold datetime_from_str.
    destruct (Ha _ _ (layout_roundtrip LSpaceNum ns Hr)) as (d & -> & ->). reflexivity.
  Qed.
End Layouts.

(* a chrono that is the TsText model: it satisfies `agrees` for every layout (Properties/C35.v,
   C35_layout_fmt_partial_inhabited), so the hypotheses above can be met *)
Definition model_chrono (s fmt : bytes) : option dt :=
  match layout_of fmt with
  | Some l => match parse_layout l s with
              | Some (ROk ns) => Some (dt_of_ns ns)
              | _ => None
              end
  | None => None
  end.
