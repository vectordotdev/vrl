(* Proofs about Model/Casing.v (C28): on printable ASCII, snakecase / kebabcase / screamingsnakecase are idempotent,
   because the words they produce are found again when the joined result is segmented a second time. *)
From Coq Require Import List NArith Bool Lia.
(* ZifyBool: its instances stay registered for lia in every file that requires this one *)
From Coq Require Import ZifyBool.
From VRL Require Import Base.Bytes.
From VRL Require Import Model.Casing.
Import ListNotations.
Local Open Scope N_scope.

Definition is_letter (c : N) : bool := is_lower c || is_upper c.

(* a pair of neighbours inside one word of the segmentation never is letter|digit or digit|letter *)
Definition pair_ok (c0 c1 : N) : bool :=
  negb (is_letter c0 && is_digit c1) && negb (is_digit c0 && is_letter c1).

Fixpoint adj_ok (w : bytes) : bool :=
  match w with
  | c0 :: ((c1 :: _) as r) => pair_ok c0 c1 && adj_ok r
  | _ => true
  end.

Definition no_sep (w : bytes) : bool := forallb (fun c => negb (is_sep c)) w.
Definition okw (w : bytes) : Prop := w <> [] /\ no_sep w = true /\ adj_ok w = true.

(* with the classes unfolded, facts about single characters are linear arithmetic on boolean comparisons, which lia
   reads directly (ZifyBool) *)
Lemma sep_class c : is_sep c = true -> is_letter c = false /\ is_digit c = false.
Proof. unfold is_letter, is_lower, is_upper, is_digit, is_sep. lia. Qed.

(* what a case mapping has to respect *)
Definition keeps_class (f : N -> N) : Prop :=
  forall c, is_letter (f c) = is_letter c /\ is_digit (f c) = is_digit c /\ is_sep (f c) = is_sep c.

Lemma to_lower_keeps : keeps_class to_lower.
Proof.
  intros c. unfold to_lower. destruct (is_upper c) eqn:U; [|repeat split].
  unfold is_letter, is_lower, is_upper, is_digit, is_sep in *. lia.
Qed.

Lemma to_lower_not_upper c : is_upper (to_lower c) = false.
Proof. unfold to_lower. destruct (is_upper c) eqn:U; [|exact U]. unfold is_upper in *. lia. Qed.

Lemma to_upper_keeps : keeps_class to_upper.
Proof.
  intros c. unfold to_upper. destruct (is_lower c) eqn:L; [|repeat split].
  unfold is_letter, is_lower, is_upper, is_digit, is_sep in *. lia.
Qed.

Lemma to_upper_not_lower c : is_lower (to_upper c) = false.
Proof. unfold to_upper. destruct (is_lower c) eqn:L; [|exact L]. unfold is_lower in *. lia. Qed.

Lemma sep_pair_ok c d : is_sep d = true -> pair_ok c d = true.
Proof. intros [L D]%sep_class. unfold pair_ok. rewrite L, D, !andb_false_r. reflexivity. Qed.

(* the four letter|digit boundaries are exactly what pair_ok forbids *)
Lemma lb_pair c c1 r : letter_boundary c (c1 :: r) = false -> pair_ok c c1 = true.
Proof.
  unfold letter_boundary, pair_ok, is_letter. rewrite !orb_false_iff. intros ((((_ & H1) & H2) & H3) & H4).
  rewrite andb_orb_distrib_l, andb_orb_distrib_r, H1, H2, H3, H4. reflexivity.
Qed.

Lemma adj_ok_cons2 a b w : adj_ok (a :: b :: w) = pair_ok a b && adj_ok (b :: w).
Proof. reflexivity. Qed.

Lemma adj_ok_app_single l x : adj_ok (l ++ [x]) = adj_ok l && match rev l with p :: _ => pair_ok p x | [] => true end.
Proof.
  induction l as [|a [|b l] IH]; [reflexivity | cbn; apply andb_comm |].
  cbn [app] in *. rewrite !adj_ok_cons2, IH, andb_assoc. f_equal.
  cbn [rev]. destruct (rev l ++ [b]) eqn:E; [destruct (rev l); discriminate | reflexivity].
Qed.

(* the current word is kept reversed *)
Lemma push_okw cur acc : no_sep (rev cur) = true -> adj_ok (rev cur) = true -> Forall okw acc ->
  Forall okw (push_word cur acc).
Proof.
  destruct cur as [|p q]; [trivial|]. intros Hs Ha Hacc. constructor; [|exact Hacc].
  repeat split; [cbn [rev]; destruct (rev q); discriminate | exact Hs | exact Ha].
Qed.

Lemma words_go_okw s : forall cur, no_sep (rev cur) = true -> adj_ok (rev cur) = true ->
  match cur, s with p :: _, c :: _ => pair_ok p c = true | _, _ => True end ->
  Forall okw (words_go s cur).
Proof.
  induction s as [|c r IH]; intros cur Hs Ha Hp; cbn [words_go]; [apply push_okw; trivial|].
  destruct (is_sep c) eqn:Sc; [apply push_okw; trivial; apply IH; trivial|].
  assert (Hs' : no_sep (rev (c :: cur)) = true).
  { cbn [rev]. unfold no_sep in *. rewrite forallb_app, Hs. cbn. rewrite Sc. reflexivity. }
  assert (Ha' : adj_ok (rev (c :: cur)) = true).
  { cbn [rev]. rewrite adj_ok_app_single, Ha, rev_involutive. destruct cur; [reflexivity | exact Hp]. }
  destruct (letter_boundary c r) eqn:B.
  - apply (push_okw (c :: cur)); [exact Hs' | exact Ha' | apply IH; trivial].
  - apply IH; [exact Hs' | exact Ha' |]. destruct r as [|c1 r']; [exact I | exact (lb_pair c c1 r' B)].
Qed.

Theorem words_okw s : Forall okw (words s).
Proof. apply words_go_okw; trivial. Qed.

Definition one_case (t : bytes) : Prop :=
  Forall (fun c => is_upper c = false) t \/ Forall (fun c => is_lower c = false) t.

Lemma one_case_app_r a b : one_case (a ++ b) -> one_case b.
Proof. intros [H|H]; [left|right]; apply Forall_app in H; apply H. Qed.

(* in a string without capitals (or without small letters) a zero-width boundary needs a letter|digit pair *)
Lemma lb_flat c0 r : one_case (c0 :: r) ->
  match r with c1 :: _ => pair_ok c0 c1 = true | [] => True end -> letter_boundary c0 r = false.
Proof.
  destruct r as [|c1 r']; [reflexivity|]. intros Hc Hp. unfold pair_ok, is_letter in Hp.
  rewrite andb_true_iff, !negb_true_iff, andb_orb_distrib_l, andb_orb_distrib_r, !orb_false_iff in Hp.
  destruct Hp as [[P1 P2] [P3 P4]]. unfold letter_boundary. rewrite P1, P2, P3, P4, !orb_false_r.
  destruct Hc as [H|H]; inversion_clear H as [|? ? H0 H']; inversion_clear H' as [|? ? H1 H2]; rewrite H0.
  - rewrite H1, andb_false_r. reflexivity.
  - destruct H2 as [|c2 ? H2 _]; [|rewrite H2]; rewrite andb_false_r; reflexivity.
Qed.

Lemma adj_ok_cons c w : adj_ok (c :: w) = true ->
  match w with c1 :: _ => pair_ok c c1 = true | [] => True end /\ adj_ok w = true.
Proof. destruct w; [split; trivial | apply andb_true_iff]. Qed.

(* a clean word followed by the end or by a separator comes out as one word *)
Lemma words_go_clean w : forall tail cur,
  no_sep w = true -> adj_ok w = true -> one_case (w ++ tail) ->
  match tail with [] => True | d :: _ => is_sep d = true end ->
  words_go (w ++ tail) cur =
  push_word (rev w ++ cur) (match tail with [] => [] | _ :: rest => words_go rest [] end).
Proof.
  induction w as [|c w IH]; intros tail cur Hs Ha Hc Ht.
  - destruct tail as [|d rest]; [reflexivity|]. cbn [app words_go rev]. rewrite Ht. reflexivity.
  - cbn [app words_go]. unfold no_sep in Hs. cbn [forallb] in Hs.
    apply andb_true_iff in Hs as [Sc%negb_true_iff Hs]. apply adj_ok_cons in Ha as [Hp Ha]. rewrite Sc, lb_flat.
    + rewrite (IH tail (c :: cur) Hs Ha (one_case_app_r [c] _ Hc) Ht). cbn [rev]. rewrite <- app_assoc. reflexivity.
    + exact Hc.
    + destruct w; [|exact Hp]. destruct tail; [exact I | apply sep_pair_ok, Ht].
Qed.

Lemma push_word_rev w acc : w <> [] -> push_word (rev w) acc = w :: acc.
Proof.
  intros H. unfold push_word. destruct (rev w) eqn:E; [|rewrite <- E, rev_involutive; reflexivity].
  apply (f_equal (@rev N)) in E. rewrite rev_involutive in E. contradiction.
Qed.

Lemma join_with_cons d w ws : ws <> [] -> join_with d (w :: ws) = w ++ d ++ join_with d ws.
Proof. destruct ws; [contradiction | reflexivity]. Qed.

Lemma words_join d ws : is_sep d = true -> Forall okw ws -> one_case (join_with [d] ws) ->
  words (join_with [d] ws) = ws.
Proof.
  intros Hd. unfold words. induction 1 as [|w ws (Hne & Hs & Ha) _ IH]; intros Hc; [reflexivity|].
  destruct ws as [|w2 ws].
  - pose proof (words_go_clean w [] [] Hs Ha) as E. rewrite !app_nil_r in E. cbn [join_with] in *.
    rewrite (E Hc I). apply push_word_rev, Hne.
  - rewrite join_with_cons in * by discriminate.
    rewrite (words_go_clean w _ [] Hs Ha Hc Hd), app_nil_r, push_word_rev by exact Hne.
    f_equal. apply IH, (one_case_app_r [d]), (one_case_app_r w), Hc.
Qed.

Lemma okw_map f w : keeps_class f -> okw w -> okw (map f w).
Proof.
  intros Hf (Hne & Hs & Ha). repeat split.
  - destruct w; [contradiction | discriminate].
  - rewrite <- Hs. unfold no_sep. clear -Hf. induction w as [|c w IH]; [reflexivity|].
    cbn [map forallb]. rewrite IH. destruct (Hf c) as (_ & _ & ->). reflexivity.
  - rewrite <- Ha. clear -Hf. induction w as [|a [|b w] IH]; try reflexivity.
    cbn [map] in *. rewrite !adj_ok_cons2, IH. unfold pair_ok.
    destruct (Hf a) as (-> & -> & _), (Hf b) as (-> & -> & _). reflexivity.
Qed.

Lemma Forall_join (P : N -> Prop) d ws : Forall P d -> Forall (Forall P) ws -> Forall P (join_with d ws).
Proof.
  intros Hd. induction 1 as [|w [|w2 ws] Hw _ IH]; [constructor | exact Hw |].
  rewrite join_with_cons by discriminate. rewrite !Forall_app. auto.
Qed.

Lemma Forall_join_map (P : N -> Prop) (f : N -> N) d ws : P d -> (forall c, P (f c)) ->
  Forall P (join_with [d] (map (map f) ws)).
Proof.
  intros Hd Hf. apply Forall_join; [repeat constructor; exact Hd|].
  apply Forall_map, Forall_forall. intros w _. apply Forall_map, Forall_forall. intros c _. apply Hf.
Qed.

Lemma convert_map_idem (f : N -> N) d s : is_sep d = true -> keeps_class f ->
  (forall c, is_upper (f c) = false) \/ (forall c, is_lower (f c) = false) -> (forall c, f (f c) = f c) ->
  join_with [d] (map (map f) (words (join_with [d] (map (map f) (words s)))))
  = join_with [d] (map (map f) (words s)).
Proof.
  intros Hd Hf Hcase Hidem. rewrite words_join; [| exact Hd | |].
  - f_equal. rewrite map_map. apply map_ext. intros w. rewrite map_map. apply map_ext, Hidem.
  - apply Forall_map. eapply Forall_impl; [|apply words_okw]. intros w. apply okw_map, Hf.
  - apply sep_class in Hd as [[L U]%orb_false_iff _].
    destruct Hcase as [H|H]; [left | right]; apply Forall_join_map; assumption.
Qed.

Theorem lowercase_convert_idem d s : is_sep d = true ->
  convert PLowercase [d] (convert PLowercase [d] s) = convert PLowercase [d] s.
Proof.
  intros Hd. apply (convert_map_idem to_lower d s Hd).
  - exact to_lower_keeps.
  - left. exact to_lower_not_upper.
  - intros c. unfold to_lower at 1. rewrite to_lower_not_upper. reflexivity.
Qed.

Theorem uppercase_convert_idem d s : is_sep d = true ->
  convert PUppercase [d] (convert PUppercase [d] s) = convert PUppercase [d] s.
Proof.
  intros Hd. apply (convert_map_idem to_upper d s Hd).
  - exact to_upper_keeps.
  - right. exact to_upper_not_lower.
  - intros c. unfold to_upper at 1. rewrite to_upper_not_lower. reflexivity.
Qed.

Theorem snakecase_idem s : snakecase (snakecase s) = snakecase s.
Proof. apply lowercase_convert_idem. reflexivity. Qed.
Theorem kebabcase_idem s : kebabcase (kebabcase s) = kebabcase s.
Proof. apply lowercase_convert_idem. reflexivity. Qed.
Theorem screamingsnakecase_idem s : screamingsnakecase (screamingsnakecase s) = screamingsnakecase s.
Proof. apply uppercase_convert_idem. reflexivity. Qed.
