(* Proofs about Model/DdSearch.v (C30): the query level — negation, AND / OR lists, groups — and the round trip of
   whole trees: by induction over the tree, every safe node is read back when printed as a whole (sub)query, as an
   item of a list and as a clause (reads_as_query / reads_as_item / reads_as_clause), for every text that may follow. *)
From Coq Require Import String List NArith Bool Lia PeanoNat.
From Coq Require Import Floats.SpecFloat.
From VRL Require Import Base.Bytes Model.DdNode Model.DdSearch
  Proofs.DdSearchProofs Proofs.DdSearchNum Proofs.DdSearchRT Proofs.DdSearchWild.
Import ListNotations.
Local Open Scope N_scope.

Definition is_none_node (n : node) : bool := match n with NNone => true | _ => false end.
Definition is_not_all (n : node) : bool := match n with NNot NAll => true | _ => false end.
Definition is_not_not (n : node) : bool := match n with NNot (NNot _) => true | _ => false end.

Section Safe.
  Variable fok : spec_float -> bool.

  Definition cmp_val_ok (cv : cval) : bool :=
    match cv with
    | CUnb => false
    | CInt z => i64_range z
    | CStr s => term_ok s && negb (numlike s)
    | CFloat f => fok f
    end.

  (* the leaves whose text is read back as the same clause *)
  Definition leaf_ok (n : node) : bool :=
    match n with
    | NAll => true
    | NExists a | NMissing a => raw_ok a
    | NTerm a v | NPrefix a v => attr_ok a && term_ok v
    | NQuoted a _ => attr_ok a
    | NCmp a _ cv => attr_ok a && cmp_val_ok cv
    | NRange a lo li hi ui => attr_ok a && Bool.eqb li ui && bound_ok fok lo && bound_ok fok hi
    | NWild a v => attr_ok a && wild_ok a v
    | _ => false
    end.

  (* safe n: n printed as a whole (sub)query is read back as n (NNot NAll as NNone).
     Under a NOT / as an item of a list: not NNone, not NNot NAll (a parenthesised "NOT *:*" is folded
     to NNone); as an AND item moreover not a double negation (printed "NOT NOT x"). *)
  Fixpoint safe (n : node) : bool :=
    match n with
    | NNone => true
    | NNot m => negb (is_none_node m) && negb (is_not_all m) && safe m
    | NBool op ns =>
        (2 <=? List.length ns)%nat &&
        (fix go (l : list node) : bool :=
           match l with
           | [] => true
           | x :: r =>
               negb (is_none_node x) && safe x
               && (match op with BAnd => negb (is_not_not x) | BOr => true end)
               && go r
           end) ns
    | _ => leaf_ok n
    end.

  Definition item_ok (op : bop) (x : node) : bool :=
    negb (is_none_node x) && safe x && (match op with BAnd => negb (is_not_not x) | BOr => true end).

  Lemma safe_bool op ns : safe (NBool op ns) = (2 <=? List.length ns)%nat && forallb (item_ok op) ns.
  Proof.
    cbn [safe]. apply f_equal. induction ns as [|x r IH]; [reflexivity|]. cbn [forallb]. unfold item_ok at 1.
    rewrite <- IH. reflexivity.
  Qed.
End Safe.

Section Print.
  Variable fdisp : spec_float -> bytes.
  Notation tl := (to_lucene fdisp).

  (* how a node is printed after "NOT " or as an item: NOT-nodes and lists in parentheses *)
  Definition wrapped (n : node) : bytes :=
    if is_not_node n || is_bool_node n then paren (tl n) else tl n.

  Definition item_text (n : node) : bytes :=
    match n with
    | NNot m => bs "NOT " ++ wrapped m
    | _ => wrapped n
    end.

  Lemma tl_not m : tl (NNot m) = bs "NOT " ++ wrapped m.
  Proof. cbn [to_lucene]. unfold wrapped. destruct (is_not_node m || is_bool_node m); reflexivity. Qed.

  Definition sep (op : bop) : bytes := match op with BAnd => bs " AND " | BOr => bs " OR " end.

  Fixpoint items_text (op : bop) (ns : list node) : bytes :=
    match ns with
    | [] => []
    | x :: r => sep op ++ item_text x ++ items_text op r
    end.

  (* how to_lucene prints an item of a list: a NOT inside an AND list stands without parentheses *)
  Definition list_item (op : bop) (x : node) : bytes :=
    match op, x with
    | BAnd, NNot m => bs "NOT " ++ (if is_bool_node m then paren (tl m) else tl m)
    | _, _ => if is_bool_node x then paren (tl x) else tl x
    end.

  Lemma list_item_text op x :
    (match op with BAnd => negb (is_not_not x) | BOr => true end) = true -> list_item op x = item_text x.
  Proof.
    intros H. destruct x; try (destruct op; reflexivity). destruct op; [|apply tl_not].
    cbn [item_text list_item]. unfold wrapped. destruct x; try reflexivity. discriminate.
  Qed.

  (* the loop of to_lucene over a list, after its first item *)
  Lemma items_loop op l :
    Forall (fun y => list_item op y = item_text y) l ->
    (fix go (l : list node) (first : bool) {struct l} : bytes :=
       match l with
       | [] => []
       | x :: r => (if first then [] else sep op) ++ list_item op x ++ go r false
       end) l false = items_text op l.
  Proof. induction 1 as [|y l Hy _ IH]; [reflexivity|]. cbn [items_text]. rewrite <- Hy, <- IH. reflexivity. Qed.

  Lemma tl_items op x ns :
    Forall (fun y => list_item op y = item_text y) (x :: ns) ->
    tl (NBool op (x :: ns)) = item_text x ++ items_text op ns.
  Proof.
    intros F. inversion F as [|? ? Hx F']; subst. rewrite <- Hx, <- (items_loop op ns F'). destruct op; reflexivity.
  Qed.
End Print.

Lemma strip_prefix_some p s r : strip_prefix p s = Some r -> s = p ++ r.
Proof.
  revert s; induction p as [|c p IH]; intros s; cbn.
  - intros H; inversion H; reflexivity.
  - destruct s as [|x s]; [discriminate|]. destruct (N.eqb_spec x c) as [->|]; [|discriminate].
    intros H. apply IH in H. subst. reflexivity.
Qed.

(* the end of a (sub)query: end of input or the closing parenthesis *)
Definition group_end (rest : bytes) : bool :=
  match rest with [] => true | c :: _ => c =? 41 end.

Lemma group_end_term_end rest : group_end rest = true -> term_end rest = true.
Proof. destruct rest as [|c r]; [reflexivity|]. cbn. intros ->. rewrite !orb_true_r. reflexivity. Qed.

Lemma follows_conj_term_end rest : follows_conj rest = true -> term_end rest = true.
Proof.
  destruct rest as [|c r]; [discriminate|]. cbn. intros H. apply andb_true_iff in H as [-> _]. reflexivity.
Qed.

Definition is_default_term (n : node) : bool :=
  match n with NTerm a _ => bytes_eqb a DEFAULT_FIELD | _ => false end.

Section Leaves.
  Variable sub : bytes -> bytes -> option (list qitem * bytes).
  Variable fdisp : spec_float -> bytes.
  Variable fok : spec_float -> bool.
  Hypothesis Hfloat : forall f, fok f = true -> num_text_ok (fdisp f) (CFloat f).
  Notation tl := (to_lucene fdisp).

  (* every printed leaf is read back as its clause, whatever follows it (rest: what may follow a term); only a
     bare term that no AND / OR follows can open a multiterm *)
  Lemma leaf_reads n rest :
    leaf_ok fok n = true -> term_end rest = true ->
    clause_reads sub (tl n ++ rest) n rest (is_default_term n && negb (follows_conj rest)).
  Proof.
    intros L E. destruct n; cbn [leaf_ok] in L; try discriminate; rewrite ?andb_true_iff in L;
      cbn [to_lucene is_default_term andb].
    - (* *:* *) repeat split.
    - apply (clause_pseudo sub EXISTS_FIELD NExists); auto.
    - apply (clause_pseudo sub MISSING_FIELD NMissing); auto.
    - (* range *) destruct L as [[[A B] Hlo] Hhi]. apply eqb_prop in B. subst ui. apply clause_range with (fok := fok); auto.
    - (* comparison with a string, an integer, a float *)
      destruct L as [A C]. rewrite <- !app_assoc. destruct v as [|s|z|f]; cbn [cmp_val_ok cval_lucene] in *; try discriminate.
      + apply andb_true_iff in C as [T NL]. apply negb_true_iff in NL.
        apply (clause_of_value sub attr _ (PVCmp op false (lucene_escape s)) _ _ false); auto using andb_false_r.
        * rewrite clause_node_attr, unescape_lucene_escape by exact A. reflexivity.
        * apply opener_value; [destruct op; cbn; tauto | apply parse_value_cmp_str; auto].
      + apply clause_cmp_num; auto. apply int_text_ok; exact C.
      + apply clause_cmp_num; auto.
    - (* term *) destruct L as [A T]. rewrite <- app_assoc.
      apply (clause_of_value sub attr _ (PVTerm (lucene_escape v)) _ _ (negb (follows_conj rest))); auto using term_value.
      rewrite clause_node_attr, unescape_lucene_escape by exact A. reflexivity.
    - (* quoted *) rewrite <- app_assoc. cbn [app]. rewrite <- app_assoc.
      apply (clause_of_value sub attr _ (PVPhrase (quoted_escape v)) _ _ false); auto using andb_false_r.
      + rewrite clause_node_attr, unescape_quoted_escape by exact L. reflexivity.
      + apply opener_value; [cbn; tauto | apply parse_value_quoted].
    - (* prefix *) destruct L as [A T]. rewrite <- !app_assoc. cbn [app].
      apply (clause_of_value sub attr _ (PVPrefix (lucene_escape v)) _ _ false); auto using andb_false_r, prefix_value.
      rewrite clause_node_attr, unescape_lucene_escape by exact A. reflexivity.
    - (* wildcard *) destruct L as [A T]. rewrite <- app_assoc. apply clause_wild; auto.
  Qed.

  (* the text of a leaf with an explicit field, or of _exists_ / _missing_, starts with raw text and a colon *)
  Definition colon_form (n : node) : Prop :=
    exists a X, raw_ok a = true /\ forall rest, tl n ++ rest = a ++ 58 :: X ++ rest.

End Leaves.

Definition items_of (n : node) : list qitem :=
  match n with
  | NNot m => [QMod true; QClause (VOk m)]
  | _ => [QClause (VOk n)]
  end.

Definition is_or (op : bop) : bool := match op with BAnd => false | BOr => true end.

Fixpoint list_items (isor : bool) (ns : list node) : list qitem :=
  match ns with
  | [] => []
  | x :: r => QConj isor :: items_of x ++ list_items isor r
  end.

Local Notation finish := finish_query.

Lemma fold_items_nil df grp grps :
  fold_items df [] false grp grps = finish (new_boolean BOr (rev (new_boolean BAnd (rev grp) :: grps))).
Proof. reflexivity. Qed.

Lemma fold_items_of df x its grp grps :
  fold_items df (items_of x ++ its) false grp grps = fold_items df its false (x :: grp) grps.
Proof. destruct x; reflexivity. Qed.

Lemma fold_and df ns : forall grp grps,
  fold_items df (list_items false ns) false grp grps = fold_items df [] false (rev ns ++ grp) grps.
Proof.
  induction ns as [|y ns IH]; intros grp grps; [reflexivity|].
  cbn [list_items]. cbn [fold_items]. rewrite fold_items_of, IH. cbn [rev]. rewrite <- app_assoc. reflexivity.
Qed.

Lemma fold_or df ns : forall g grps,
  fold_items df (list_items true ns) false [g] grps = finish (new_boolean BOr (rev grps ++ g :: ns)).
Proof.
  induction ns as [|y ns IH]; intros g grps.
  - rewrite fold_items_nil. reflexivity.
  - cbn [list_items]. cbn [fold_items]. rewrite fold_items_of, IH. cbn [rev new_boolean].
    rewrite <- app_assoc. reflexivity.
Qed.

Theorem fold_and_list df x y ns :
  fold_query df (items_of x ++ list_items false (y :: ns)) = VOk (NBool BAnd (x :: y :: ns)).
Proof.
  unfold fold_query. rewrite fold_items_of, fold_and, fold_items_nil.
  rewrite rev_app_distr, rev_involutive. reflexivity.
Qed.

Theorem fold_or_list df x y ns :
  fold_query df (items_of x ++ list_items true (y :: ns)) = VOk (NBool BOr (x :: y :: ns)).
Proof. unfold fold_query. rewrite fold_items_of, fold_or. reflexivity. Qed.

Theorem fold_single df x : fold_query df (items_of x) = finish x.
Proof.
  unfold fold_query. rewrite <- (app_nil_r (items_of x)), fold_items_of, fold_items_nil. reflexivity.
Qed.

Section End.
  Variable sub : bytes -> bytes -> option (list qitem * bytes).

  Lemma parse_next_end rest : group_end rest = true -> parse_next sub DEFAULT_FIELD (skip rest) = None.
  Proof.
    destruct rest as [|c r]; [reflexivity|]. cbn [group_end]. intros H. apply N.eqb_eq in H. subst c. reflexivity.
  Qed.

  Lemma parse_more_end fuel rest : group_end rest = true -> parse_more sub fuel DEFAULT_FIELD rest = ([], rest).
  Proof. intros H. destruct fuel; [reflexivity|]. cbn [parse_more]. rewrite parse_next_end by exact H. reflexivity. Qed.
End End.

Lemma multiterm_more_end fuel rest : group_end rest = true -> multiterm_more fuel rest = ([], rest).
Proof.
  intros H. destruct fuel; [reflexivity|]. destruct rest as [|c r]; [reflexivity|].
  cbn [group_end] in H. apply N.eqb_eq in H. subst c. reflexivity.
Qed.

Section Main.
  Variable fdisp : spec_float -> bytes.
  Variable fok : spec_float -> bool.
  Hypothesis Hfloat : forall f, fok f = true -> num_text_ok (fdisp f) (CFloat f).
  Notation tl := (to_lucene fdisp).
  Notation wrapped := (wrapped fdisp).
  Notation item_text := (item_text fdisp).
  Notation items_text := (items_text fdisp).
  Notation safe := (safe fok).
  Notation leaf_ok := (leaf_ok fok).

  (* The three ways a node is printed, each read back (f: the fuel left for the groups inside). *)

  (* as a clause, in parentheses when it is a NOT or a list *)
  Definition reads_as_clause (n : node) : Prop :=
    forall f rest, (List.length (wrapped n) <= f)%nat -> term_end rest = true ->
    clause_reads (parse_query f) (wrapped n ++ rest) n rest (is_default_term n && negb (follows_conj rest)).

  (* as an item of a list, NOT being the modifier *)
  Definition reads_as_item (n : node) : Prop :=
    forall f rest, (List.length (item_text n) <= f)%nat -> term_end rest = true ->
    skip (item_text n ++ rest) = item_text n ++ rest /\
    parse_mod_clause (parse_query f) DEFAULT_FIELD (item_text n ++ rest) = Some (items_of n, rest) /\
    multiterm_lookahead (item_text n ++ rest) = is_default_term n && negb (follows_conj rest).

  (* as a whole (sub)query *)
  Definition reads_as_query (n : node) : Prop :=
    forall f rest, (List.length (tl n) <= f)%nat -> group_end rest = true ->
    skip (tl n ++ rest) = tl n ++ rest /\
    exists items, parse_query (S f) DEFAULT_FIELD (tl n ++ rest) = Some (items, rest) /\
                  fold_query DEFAULT_FIELD items = finish n.

  Lemma item_of_clause n : is_not_node n = false -> reads_as_clause n -> reads_as_item n.
  Proof.
    intros N Hc f rest D E.
    assert (item_text n = wrapped n /\ items_of n = [QClause (VOk n)]) as [Ei ->] by (destruct n; try discriminate; auto).
    rewrite Ei in *. destruct (Hc f rest D E) as (C & S & M & L). unfold parse_mod_clause. rewrite M, S, C. auto.
  Qed.

  Lemma not_item m : reads_as_clause m -> reads_as_item (NNot m).
  Proof.
    intros Hc f rest D E. cbn [DdSearchQuery.item_text items_of is_default_term andb] in *.
    rewrite app_length in D. rewrite <- app_assoc. destruct (Hc f rest ltac:(lia) E) as (C & S & _).
    repeat split. unfold parse_mod_clause.
    change (parse_modifiers (bs "NOT " ++ wrapped m ++ rest)) with (Some (true, 32 :: wrapped m ++ rest)).
    cbv beta iota. change (skip (32 :: wrapped m ++ rest)) with (skip (wrapped m ++ rest)).
    rewrite S, C. reflexivity.
  Qed.

  (* a (sub)query made of one `modifiers? ~ clause` *)
  Lemma query_one f s rest its :
    group_end rest = true -> parse_multiterm (s ++ rest) = None ->
    parse_mod_clause (parse_query f) DEFAULT_FIELD (s ++ rest) = Some (its, rest) ->
    parse_query (S f) DEFAULT_FIELD (s ++ rest) = Some (its, rest).
  Proof.
    intros G M P. cbn [parse_query]. unfold parse_query_body.
    rewrite M, P, (parse_more_end _ _ rest G), app_nil_r. reflexivity.
  Qed.

  (* an item that is not a bare term makes a (sub)query on its own *)
  Lemma query_of_item n : is_default_term n = false -> tl n = item_text n -> reads_as_item n -> reads_as_query n.
  Proof.
    intros Dn Et Hi f rest D G. rewrite Et in *. destruct (Hi f rest D (group_end_term_end rest G)) as (S & P & L).
    split; [exact S|]. exists (items_of n). split; [|apply fold_single]. apply query_one; auto.
    unfold parse_multiterm, multiterm_item. rewrite L, Dn. reflexivity.
  Qed.

  Lemma leaf_wrapped n : leaf_ok n = true -> wrapped n = tl n /\ item_text n = tl n /\ is_not_node n = false.
  Proof. destruct n; try discriminate; repeat split. Qed.

  (* a bare term as a (sub)query: read as a multiterm of one *)
  Lemma term_query v : leaf_ok (NTerm DEFAULT_FIELD v) = true -> reads_as_query (NTerm DEFAULT_FIELD v).
  Proof.
    intros L f rest _ G. pose proof (group_end_term_end rest G) as E.
    destruct (leaf_reads (parse_query f) fdisp fok Hfloat _ rest L E) as (_ & S & _ & La). split; [exact S|].
    cbn [DdSearchQuery.leaf_ok] in L. apply andb_true_iff in L as [_ T].
    assert (follows_conj rest = false) as F.
    { destruct rest as [|c r]; [reflexivity|]. cbn [group_end] in G. apply N.eqb_eq in G. subst c. reflexivity. }
    rewrite F in La. change (multiterm_lookahead (lucene_escape v ++ rest) = true) in La.
    change (tl (NTerm DdSearch.DEFAULT_FIELD v)) with (lucene_escape v) in *.
    cbn [parse_query]. unfold parse_query_body, parse_multiterm, multiterm_item.
    rewrite La, S, (lex_term_escaped v rest T (term_end_stops rest E)), (multiterm_more_end _ rest G), (parse_more_end _ _ rest G).
    eexists. split; [reflexivity|]. cbn. rewrite unescape_lucene_escape. reflexivity.
  Qed.

  (* a clause that opens with a parenthesis is a group *)
  Lemma parse_clause_paren sub df T :
    parse_clause sub df (40 :: T) =
    match sub df (skip T) with
    | Some (items, r) => match strip_prefix [41] (skip r) with Some r' => Some (fold_query df items, r') | None => None end
    | None => None
    end.
  Proof. reflexivity. Qed.

  (* a parenthesised NOT / list is read through the sub-query *)
  Lemma clause_of_query n :
    is_not_node n || is_bool_node n = true -> is_not_all n = false -> reads_as_query n -> reads_as_clause n.
  Proof.
    intros W NA Hq f rest D E. unfold DdSearchQuery.wrapped in *. rewrite W in *.
    unfold paren in *. cbn [List.length] in D. rewrite app_length in D. destruct f as [|f]; [lia|].
    destruct (Hq f (41 :: rest) ltac:(lia) eq_refl) as (S & items & Pq & Fq).
    cbn [app]. rewrite <- app_assoc. cbn [app]. unfold clause_reads. rewrite parse_clause_paren, S, Pq.
    change (strip_prefix [41] (skip (41 :: rest))) with (Some rest). cbv iota. rewrite Fq.
    destruct n; try discriminate; repeat split. destruct n; try reflexivity. discriminate.
  Qed.

  Lemma paren_nonws X rest : skip (paren X ++ rest) = paren X ++ rest.
  Proof. reflexivity. Qed.

  Lemma tl_list op x ns :
    forallb (item_ok fok op) (x :: ns) = true -> tl (NBool op (x :: ns)) = item_text x ++ items_text op ns.
  Proof.
    intros H. apply tl_items, Forall_forall. intros y Hy. rewrite forallb_forall in H. apply list_item_text.
    specialize (H y Hy). unfold item_ok in H. apply andb_true_iff in H as [_ H]. exact H.
  Qed.

  Lemma sep_follows op X : follows_conj (sep op ++ X) = true.
  Proof. destruct op; reflexivity. Qed.

  Lemma items_text_end op ns rest :
    group_end rest = true -> term_end (items_text op ns ++ rest) = true.
  Proof.
    intros G. destruct ns as [|x ns]; [apply group_end_term_end; exact G|]. destruct op; reflexivity.
  Qed.

  Lemma items_text_length op ns rest : (List.length ns <= List.length (items_text op ns ++ rest))%nat.
  Proof.
    induction ns as [|x ns IH]; [cbn; lia|]. cbn [DdSearchQuery.items_text]. rewrite <- !app_assoc, !app_length.
    rewrite app_length in IH. assert (1 <= List.length (sep op))%nat by (destruct op; cbn; lia). cbn [List.length]. lia.
  Qed.

  (* after the separator comes conjunction? ~ modifiers? ~ clause, never a multiterm *)
  Lemma next_after_sep f op T :
    parse_next (parse_query f) DEFAULT_FIELD (skip (sep op ++ T)) =
    match parse_mod_clause (parse_query f) DEFAULT_FIELD (skip T) with
    | Some (its, r) => Some (QConj (is_or op) :: its, r)
    | None => None
    end.
  Proof. destruct op; reflexivity. Qed.

  (* MatchNoDocs is printed only as a whole query, NOT *:* not in parentheses *)
  Definition good (n : node) : Prop :=
    safe n = true ->
    reads_as_query n /\ (is_none_node n = false -> reads_as_item n /\ (is_not_all n = false -> reads_as_clause n)).

  Lemma good_item op x : good x -> item_ok fok op x = true -> reads_as_item x.
  Proof.
    unfold item_ok. intros G H. apply andb_true_iff in H as [H _]. apply andb_true_iff in H as [N S].
    apply negb_true_iff in N. apply (G S), N.
  Qed.

  (* the rest of a list: ( AND|OR item )* up to the end of the (sub)query *)
  Lemma more_items op f ns : forall fuel rest,
    Forall good ns -> forallb (item_ok fok op) ns = true ->
    (List.length (items_text op ns) <= f)%nat -> (List.length ns <= fuel)%nat -> group_end rest = true ->
    parse_more (parse_query f) fuel DEFAULT_FIELD (items_text op ns ++ rest) = (list_items (is_or op) ns, rest).
  Proof.
    induction ns as [|y ns IH]; intros fuel rest HG HF D L G.
    - apply parse_more_end; exact G.
    - inversion HG as [|? ? Gy HG']; subst. cbn [forallb] in HF. apply andb_true_iff in HF as [Fy HF].
      destruct fuel as [|fuel]; [cbn in L; lia|].
      cbn [DdSearchQuery.items_text] in *. rewrite !app_length in D. rewrite <- !app_assoc. cbn [parse_more].
      destruct (good_item op y Gy Fy f _ ltac:(lia) (items_text_end op ns rest G)) as (Sy & Py & _).
      rewrite next_after_sep, Sy, Py, (IH fuel rest HG' HF); [reflexivity | lia | cbn in L; lia | exact G].
  Qed.

  Lemma leaf_good n : leaf_ok n = true -> reads_as_query n /\ reads_as_item n /\ reads_as_clause n.
  Proof.
    intros L. destruct (leaf_wrapped n L) as (Ew & Et & Nn).
    assert (reads_as_clause n) as Hc by (intros f rest _ E; rewrite Ew; apply leaf_reads with (fok := fok); auto).
    pose proof (item_of_clause n Nn Hc) as Hi. split; [|auto].
    destruct (is_default_term n) eqn:D; [|apply query_of_item; auto].
    destruct n; try discriminate. apply bytes_eqb_eq in D. subst attr. apply term_query, L.
  Qed.

  Theorem all_good n : good n.
  Proof.
    induction n using node_ind'; intros S; try (destruct (leaf_good _ S) as (Q & I & C); split; auto).
    - (* -*:* *) split; [|discriminate]. intros f rest _ G. split; [reflexivity|].
      exists [QMod true; QClause (VOk NAll)]. split; [|reflexivity].
      apply (query_one f _ rest _ G); reflexivity.
    - (* NOT *)
      cbn [DdSearchQuery.safe] in S. apply andb_true_iff in S as [S Sm]. apply andb_true_iff in S as [Nm NAm].
      apply negb_true_iff in Nm, NAm. destruct (IHn Sm) as [_ Hm]. destruct (Hm Nm) as [_ Hcl].
      pose proof (not_item n (Hcl NAm)) as Hi. pose proof (query_of_item (NNot n) eq_refl (tl_not fdisp n) Hi) as Hq.
      split; [exact Hq|]. intros _. split; [exact Hi|]. intros NA. apply clause_of_query; auto.
    - (* lists *)
      rewrite safe_bool in S. apply andb_true_iff in S as [L F].
      destruct ns as [|x [|y ns]]; try discriminate.
      assert (reads_as_query (NBool op (x :: y :: ns))) as Hq.
      { intros f rest D G. rewrite (tl_list op x (y :: ns) F), app_length in *. rewrite <- app_assoc.
        inversion H as [|? ? Gx H']; subst. cbn [forallb] in F. apply andb_true_iff in F as [Fx F].
        set (R := items_text op (y :: ns) ++ rest).
        assert (follows_conj R = true) as FR.
        { unfold R. cbn [DdSearchQuery.items_text]. rewrite <- app_assoc. apply sep_follows. }
        destruct (good_item op x Gx Fx f R ltac:(lia) (follows_conj_term_end R FR)) as (Sx & Px & Lx).
        split; [exact Sx|]. exists (items_of x ++ list_items (is_or op) (y :: ns)).
        split; [|destruct op; [apply fold_and_list | apply fold_or_list]].
        (* the first item is followed by AND / OR: no multiterm *)
        cbn [parse_query]. unfold parse_query_body, parse_multiterm, multiterm_item. rewrite Lx, FR, andb_false_r, Px.
        unfold R. rewrite (more_items op f (y :: ns) _ rest H' F ltac:(lia) (items_text_length op (y :: ns) rest) G).
        reflexivity. }
      split; [exact Hq|]. intros _.
      assert (reads_as_clause (NBool op (x :: y :: ns))) as Hc by (apply clause_of_query; auto).
      split; [apply item_of_clause; auto | auto].
  Qed.

  Theorem node_roundtrip n :
    safe n = true -> is_not_all n = false -> all_whitespace (tl n) = false ->
    parse (tl n) = PRNode n.
  Proof.
    intros S NA W. unfold parse. rewrite W.
    destruct (all_good n S) as [Hq _].
    destruct (Hq (List.length (tl n)) [] (le_n _) eq_refl) as (_ & items & Pq & Fq).
    rewrite app_nil_r in Pq. rewrite Pq. cbn [skip]. rewrite Fq.
    destruct n; try reflexivity. destruct n; try reflexivity. discriminate.
  Qed.
End Main.

(* the parser never answers NOT *:* for a whole query (visit_query turns it into MatchNoDocs) *)
Lemma finish_not_all q n : finish q = VOk n -> is_not_all n = false.
Proof.
  destruct q; cbn; intros H; inversion H; subst; try reflexivity.
  destruct q; inversion H; subst; reflexivity.
Qed.

Lemma fold_items_not_all df items : forall b grp grps n,
  fold_items df items b grp grps = VOk n -> is_not_all n = false.
Proof.
  induction items as [|it items IH]; intros b grp grps n H.
  - cbn [fold_items] in H. apply finish_not_all in H. exact H.
  - cbn [fold_items] in H. destruct it as [ts|[|]|[|]|[m|]]; try (eapply IH; exact H). discriminate.
Qed.

Theorem parse_not_all q n : parse q = PRNode n -> is_not_all n = false.
Proof.
  unfold parse. destruct (all_whitespace q); [intros H; inversion H; reflexivity|].
  destruct (parse_query _ _ q) as [[items rest]|]; [|discriminate].
  destruct (skip rest); [|discriminate].
  destruct (fold_query DEFAULT_FIELD items) eqn:F; [|discriminate].
  intros H; inversion H; subst. unfold fold_query in F. eapply fold_items_not_all; exact F.
Qed.
