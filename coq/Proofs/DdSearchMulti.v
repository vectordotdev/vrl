(* Proofs about Model/DdSearch.v (C30): a bare multi-word term as the whole query ("a b c"). *)
From Coq Require Import List NArith Bool Lia.
From Coq Require Import Floats.SpecFloat.
From VRL Require Import Base.Bytes Model.DdNode Model.DdSearch
  Proofs.DdSearchProofs Proofs.DdSearchRT.
Import ListNotations.
Local Open Scope N_scope.

Lemma escape_app a b : lucene_escape (a ++ b) = lucene_escape a ++ lucene_escape b.
Proof.
  induction a as [|c a IH]; [reflexivity|]. cbn [app lucene_escape]. rewrite IH.
  destruct (lucene_special c); reflexivity.
Qed.

Lemma escape_join ws : lucene_escape (join_sp ws) = join_sp (map lucene_escape ws).
Proof.
  induction ws as [|w ws IH]; [reflexivity|]. destruct ws as [|w' ws]; [reflexivity|].
  change (join_sp (w :: w' :: ws)) with (w ++ 32 :: join_sp (w' :: ws)).
  change (join_sp (map lucene_escape (w :: w' :: ws)))
    with (lucene_escape w ++ 32 :: join_sp (map lucene_escape (w' :: ws))).
  rewrite escape_app. cbn [lucene_escape]. change (lucene_special 32) with false. cbv iota. rewrite IH. reflexivity.
Qed.

(* what follows the first escaped word: nothing, or a blank and the other escaped words joined by blanks *)
Definition after_first (ws : list bytes) : bytes :=
  match ws with [] => [] | _ => 32 :: join_sp (map lucene_escape ws) end.

Lemma join_cons w ws : join_sp (map lucene_escape (w :: ws)) = lucene_escape w ++ after_first ws.
Proof. destruct ws; cbn; [rewrite app_nil_r|]; reflexivity. Qed.

Lemma after_first_stops ws : stops (after_first ws) = true.
Proof. destruct ws; reflexivity. Qed.

(* a word of the list is one item of the multiterm: behind it stands the end or a blank and the next word *)
Lemma item_words w ws :
  term_ok w = true -> forallb term_ok ws = true ->
  skip (lucene_escape w ++ after_first ws) = lucene_escape w ++ after_first ws /\
  multiterm_item (lucene_escape w ++ after_first ws) = Some (lucene_escape w, after_first ws).
Proof.
  intros T Ts. destruct (escaped_opens w _ T (after_first_stops ws)) as (S & _ & _ & L). split; [exact S|].
  unfold multiterm_item, multiterm_lookahead. rewrite S, L.
  destruct ws as [|w' ws]; [reflexivity|]. cbn [forallb] in Ts. apply andb_true_iff in Ts as [T' _].
  destruct (term_ok_parts w' T') as (_ & _ & _ & K). destruct (escaped_opens w' _ T' (after_first_stops ws)) as (S' & _).
  cbn [after_first]. rewrite join_cons. cbn [N.eqb Pos.eqb orb is_ws skip].
  rewrite S', (no_kw_and_or _ (no_kw_escaped w' _ K (after_first_stops ws))). reflexivity.
Qed.

Lemma more_words ws : forall fuel,
  forallb term_ok ws = true -> (List.length ws <= fuel)%nat ->
  multiterm_more fuel (after_first ws) = (map lucene_escape ws, []).
Proof.
  induction ws as [|w ws IH]; intros fuel Ts L.
  - destruct fuel; reflexivity.
  - destruct fuel as [|fuel]; [cbn in L; lia|]. cbn [forallb] in Ts. apply andb_true_iff in Ts as [T Ts].
    destruct (item_words w ws T Ts) as (S & I).
    cbn [after_first multiterm_more]. rewrite join_cons. cbn [N.eqb Pos.eqb orb is_ws skip].
    rewrite S, I, (IH fuel Ts); [reflexivity | cbn in L; lia].
Qed.

Lemma after_first_length ws : (List.length ws <= List.length (after_first ws))%nat.
Proof.
  induction ws as [|w ws IH]; [cbn; lia|]. cbn [after_first]. rewrite join_cons. cbn [List.length]. rewrite app_length. lia.
Qed.

Lemma map_unescape_escape ws : map unescape (map lucene_escape ws) = ws.
Proof. induction ws as [|w ws IH]; [reflexivity|]. cbn. rewrite unescape_lucene_escape, IH. reflexivity. Qed.

(* "w1 w2 .. wk" as the whole query: read as one multiterm and joined again *)
Theorem multiterm_roundtrip (fdisp : spec_float -> bytes) w ws :
  forallb term_ok (w :: ws) = true ->
  all_whitespace (to_lucene fdisp (NTerm DEFAULT_FIELD (join_sp (w :: ws)))) = false ->
  parse (to_lucene fdisp (NTerm DEFAULT_FIELD (join_sp (w :: ws)))) = PRNode (NTerm DEFAULT_FIELD (join_sp (w :: ws))).
Proof.
  intros Ts Wn. cbn [forallb] in Ts. apply andb_true_iff in Ts as [T Ts].
  change (to_lucene fdisp (NTerm DEFAULT_FIELD (join_sp (w :: ws)))) with (lucene_escape (join_sp (w :: ws))) in *.
  unfold parse. rewrite Wn. rewrite escape_join, join_cons.
  cbn [parse_query]. unfold parse_query_body, parse_multiterm.
  rewrite (proj2 (item_words w ws T Ts)).
  rewrite (more_words ws _ Ts (after_first_length ws)).
  change (parse_more _ (List.length (@nil N)) DEFAULT_FIELD []) with (@nil qitem, @nil N).
  cbv beta iota. cbn [skip app]. unfold fold_query. cbn [fold_items].
  change (lucene_escape w :: map lucene_escape ws) with (map lucene_escape (w :: ws)).
  rewrite map_unescape_escape. reflexivity.
Qed.
