(* Proofs about Model/PathText.v: rendering a path and parsing the text gives the path back; on every text the
   parser returns a path or a syntax error. *)
From Coq Require Import List NArith ZArith Bool Lia.
From VRL Require Import Base.Value Model.PathText.
Import ListNotations.
Local Open Scope N_scope.

(* A fact about byte classes is linear arithmetic once the boolean comparisons are read as
   propositions.  Files that define further classes add them to the unfold database. *)
Create HintDb cls discriminated.
#[export] Hint Unfold jit_char ser_char is_upper is_lower is_digit : cls.
Ltac cls :=
  autounfold with cls in *;
  rewrite <- ?not_true_iff_false in *;
  rewrite ?orb_true_iff, ?andb_true_iff, ?N.leb_le, ?N.eqb_eq in *; lia.

(* jit_char is ser_char and the minus sign *)
Lemma ser_jit c : ser_char c = true -> jit_char c = true.
Proof. unfold jit_char, ser_char. intros ->. reflexivity. Qed.

Lemma digit_jit c : is_digit c = true -> jit_char c = true.
Proof. cls. Qed.

Lemma forallb_impl {A} (f g : A -> bool) l :
  (forall x, f x = true -> g x = true) -> forallb f l = true -> forallb g l = true.
Proof. rewrite !forallb_forall. auto. Qed.

Local Open Scope Z_scope.

(* Decimal rendering.  `acc_pos ds v` is the value an index state holds after reading the digits ds from v. *)
Definition acc_pos (ds : list N) (v : Z) : Z := fold_left (fun a d => a * 10 + digit_val d) ds v.

Lemma acc_pos_app a b v : acc_pos (a ++ b) v = acc_pos b (acc_pos a v).
Proof. apply fold_left_app. Qed.

Lemma dec_fuel_enough n : 0 <= n -> 0 <= n < 2 ^ Z.of_nat (dec_fuel n).
Proof.
  intros Hn. unfold dec_fuel. rewrite Nat2Z.inj_succ, Z2Nat.id by apply Z.log2_nonneg.
  split; [lia|].
  destruct (Z.eq_dec n 0) as [->|Hnz]; [cbn; lia|].
  apply Z.log2_spec; lia.
Qed.

Lemma le_digits_spec fuel : forall n, 0 <= n < 2 ^ Z.of_nat fuel ->
  forallb is_digit (rev (le_digits fuel n)) = true /\ acc_pos (rev (le_digits fuel n)) 0 = n.
Proof.
  induction fuel as [|f IH]; intros n Hn.
  - cbn in *. split; [reflexivity | lia].
  - pose proof (Z.mod_pos_bound n 10) as Hm.
    assert (Hd : is_digit (48 + Z.to_N (n mod 10)) = true) by cls.
    assert (Hv : digit_val (48 + Z.to_N (n mod 10)) = n mod 10) by (unfold digit_val; lia).
    cbn [le_digits rev]. rewrite forallb_app, acc_pos_app. cbn [forallb acc_pos fold_left]. rewrite Hd, Hv.
    destruct (Z.ltb_spec n 10) as [Hlt|Hge].
    + cbn. rewrite Z.mod_small by lia. split; [reflexivity | lia].
    + destruct (IH (n / 10)) as [-> ->].
      * rewrite Nat2Z.inj_succ, Z.pow_succ_r in Hn by lia.
        split; [apply Z.div_pos; lia | apply Z.div_lt_upper_bound; lia].
      * split; [reflexivity|]. pose proof (Z.div_mod n 10). lia.
Qed.

Lemma render_nat_spec n :
  0 <= n -> exists d ds, render_nat n = d :: ds /\ forallb is_digit (d :: ds) = true /\ acc_pos (d :: ds) 0 = n.
Proof.
  intros Hn. destruct (le_digits_spec _ n (dec_fuel_enough n Hn)) as [Hd Hv]. fold (render_nat n) in Hd, Hv.
  destruct (render_nat n) as [|d ds] eqn:E; [|eauto].
  (* there is fuel for one digit at least *)
  unfold render_nat, dec_fuel in E. cbn [le_digits rev] in E. destruct (app_cons_not_nil _ _ _ (eq_sym E)).
Qed.

(* An integer is written as an optional minus sign and the digits of its magnitude; the two index states of
   the machine differ in the sign they give a digit.  Both are treated at once, by the sign. *)
Definition sign (neg : bool) : text := if neg then [45%N] else [].
Definition sgn (neg : bool) (z : Z) : Z := if neg then - z else z.
Definition jidx (neg : bool) (v : Z) : jstate := if neg then JNegIndex v else JIndex v.

Lemma render_int_spec i : exists d ds,
  render_int i = sign (i <? 0) ++ d :: ds /\ forallb is_digit (d :: ds) = true /\ sgn (i <? 0) (acc_pos (d :: ds) 0) = i.
Proof.
  unfold render_int. destruct (Z.ltb_spec i 0);
    [destruct (render_nat_spec (- i)) as (d & ds & -> & Hd & Hv) | destruct (render_nat_spec i) as (d & ds & -> & Hd & Hv)];
    try lia; exists d, ds; cbn [sign sgn app]; repeat split; auto; lia.
Qed.

Lemma digit_val_range c : is_digit c = true -> 0 <= digit_val c <= 9.
Proof. intros H. unfold digit_val. cls. Qed.

Lemma acc_pos_mono ds : forall v, 0 <= v -> forallb is_digit ds = true -> v <= acc_pos ds v.
Proof.
  induction ds as [|d ds IH]; intros v Hv Hd; cbn in *; [lia|].
  apply andb_true_iff in Hd as [Hd1 Hd2]. pose proof (digit_val_range d Hd1).
  etransitivity; [|apply IH; auto; lia]. lia.
Qed.

Lemma in_isize_iff z : in_isize z = true <-> isize_min <= z <= isize_max.
Proof. unfold in_isize. rewrite andb_true_iff, !Z.leb_le. tauto. Qed.

(* a smaller magnitude fits isize if a larger one of the same sign does *)
Lemma in_isize_sgn neg a b : 0 <= a <= b -> in_isize (sgn neg b) = true -> in_isize (sgn neg a) = true.
Proof. rewrite !in_isize_iff. unfold isize_min, isize_max. destruct neg; cbn [sgn]; lia. Qed.

Lemma sgn_add neg a b : sgn neg a + sgn neg b = sgn neg (a + b).
Proof. destruct neg; cbn [sgn]; lia. Qed.

Lemma sgn_mul neg u : sgn neg u * 10 = sgn neg (u * 10).
Proof. destruct neg; cbn [sgn]; lia. Qed.

(* One digit in an index state.  The two checked operations succeed together exactly if the new value fits:
   the product is then the smaller magnitude. *)
Lemma jit_digit neg u d r out :
  is_digit d = true -> 0 <= u ->
  jit (jidx neg (sgn neg u)) (d :: r) out =
    if in_isize (sgn neg (u * 10 + digit_val d)) then jit (jidx neg (sgn neg (u * 10 + digit_val d))) r out else PErr.
Proof.
  intros Hd Hu. pose proof (digit_val_range d Hd) as Hr.
  transitivity (match checked (sgn neg u * 10) with
                | None => PErr
                | Some m => match checked (m + sgn neg (digit_val d)) with
                            | None => PErr
                            | Some v' => jit (jidx neg v') r out
                            end
                end).
  { destruct neg; cbn [jidx jit]; rewrite Hd; reflexivity. }
  unfold checked. rewrite sgn_mul. destruct (in_isize (sgn neg (u * 10 + digit_val d))) eqn:E.
  - rewrite (in_isize_sgn neg (u * 10) (u * 10 + digit_val d)) by (lia || exact E). cbv iota. rewrite sgn_add, E. reflexivity.
  - destruct (in_isize (sgn neg (u * 10))); [|reflexivity]. cbv iota. rewrite sgn_add, E. reflexivity.
Qed.

Lemma jit_indexstart neg d cs out :
  is_digit d = true -> jit JIndexStart (sign neg ++ d :: cs) out = jit (jidx neg (sgn neg 0)) (d :: cs) out.
Proof.
  intros Hd. destruct neg; [reflexivity|]. pose proof (digit_val_range d Hd).
  rewrite (jit_digit false 0) by (exact Hd || lia). cbn [sign app jit sgn jidx Z.mul Z.add]. rewrite Hd.
  replace (in_isize (digit_val d)) with true; [reflexivity|].
  symmetry. apply in_isize_iff. unfold isize_min, isize_max. lia.
Qed.

(* An index state reads a run of digits: to the value they denote if that fits isize, to an error otherwise
   (the magnitude only grows, so a value that does not fit stays an error whatever follows). *)
Lemma jit_digits neg ds : forall u r out,
  forallb is_digit ds = true -> 0 <= u -> in_isize (sgn neg u) = true ->
  jit (jidx neg (sgn neg u)) (ds ++ r) out =
    if in_isize (sgn neg (acc_pos ds u)) then jit (jidx neg (sgn neg (acc_pos ds u))) r out else PErr.
Proof.
  induction ds as [|d ds IH]; intros u r out Hd Hu Hin.
  - cbn. rewrite Hin. reflexivity.
  - apply andb_true_iff in Hd as [Hd1 Hd2]. pose proof (digit_val_range d Hd1) as Hr.
    cbn [app]. rewrite jit_digit by assumption.
    change (acc_pos (d :: ds) u) with (acc_pos ds (u * 10 + digit_val d)).
    pose proof (acc_pos_mono ds (u * 10 + digit_val d) ltac:(lia) Hd2) as Hm.
    destruct (in_isize (sgn neg (u * 10 + digit_val d))) eqn:E.
    + apply IH; auto. lia.
    + destruct (in_isize (sgn neg (acc_pos ds _))) eqn:F; [|reflexivity].
      apply (in_isize_sgn neg (u * 10 + digit_val d)) in F; [congruence | lia].
Qed.

Lemma jit_render_int i r out :
  jit JIndexStart (render_int i ++ r) out = if in_isize i then jit (jidx (i <? 0) i) r out else PErr.
Proof.
  destruct (render_int_spec i) as (d & ds & -> & Hd & Hv). pose proof Hd as [Hd1 _]%andb_true_iff.
  rewrite <- app_assoc. cbn [app]. rewrite jit_indexstart by exact Hd1.
  change (d :: ds ++ r) with ((d :: ds) ++ r).
  rewrite jit_digits, Hv by (auto; lia || destruct (i <? 0); reflexivity). reflexivity.
Qed.

Lemma jit_index i r out :
  in_isize i = true -> jit JIndexStart (render_int i ++ 93%N :: r) out = jit JContinue r (SIndex i :: out).
Proof. intros Hi. rewrite jit_render_int, Hi. destruct (i <? 0); reflexivity. Qed.

(* the decimal text of an integer outside isize, written as an index anywhere a segment may begin, is rejected *)
Theorem index_out_of_range_invalid i r out :
  in_isize i = false -> jit JIndexStart (render_int i ++ r) out = PErr.
Proof. intros Hi. rewrite jit_render_int, Hi. reflexivity. Qed.

Local Open Scope N_scope.

Lemma jit_field_run f : forall acc r out,
  forallb jit_char f = true -> jit (JField acc) (f ++ r) out = jit (JField (acc ++ f)) r out.
Proof.
  induction f as [|c f IH]; intros acc r out Hf.
  - rewrite app_nil_r. reflexivity.
  - apply andb_true_iff in Hf as [Hc Hf].
    cbn [app jit]. rewrite Hc, IH, <- app_assoc by exact Hf. reflexivity.
Qed.

(* Quoted fields.  The machine copies nothing while the text between the quotes is clean (JQuote, the slice read
   so far) and switches to a copy buffer at the first backslash (JEscQuote); from then on it is in the second.
   The two states step alike. *)
Definition special (c : N) : bool := (c =? 34) || (c =? 92).
Definition clean (l : text) : bool := forallb (fun c => negb (special c)) l.
Definition qst (esc : bool) (x : text) : jstate := if esc then JEscQuote x else JQuote x.
#[export] Hint Unfold special : cls.

Lemma clean_app a b : clean (a ++ b) = clean a && clean b.
Proof. apply forallb_app. Qed.

(* `esc || clean x` is what is known of x in the state `qst esc x`; a plain character keeps it *)
Lemma clean_snoc esc x c : special c = false -> esc || clean x = true -> esc || clean (x ++ [c]) = true.
Proof. intros Hc Hx. rewrite clean_app. cbn. rewrite Hc, andb_true_r. exact Hx. Qed.

Lemma esc_replay_clean acc : forall buf, clean acc = true -> esc_replay buf acc = Some (buf ++ acc).
Proof.
  induction acc as [|c acc IH]; intros buf H; cbn [esc_replay].
  - rewrite app_nil_r. reflexivity.
  - apply andb_true_iff in H as [Hc%negb_true_iff H]. unfold special in Hc.
    rewrite Hc, IH, <- app_assoc by exact H. reflexivity.
Qed.

Lemma jit_q_close esc x r out : jit (qst esc x) (34 :: r) out = jit JContinue r (SField x :: out).
Proof. destruct esc; reflexivity. Qed.

Lemma jit_q_plain esc x c r out :
  special c = false -> jit (qst esc x) (c :: r) out = jit (qst esc (x ++ [c])) r out.
Proof. intros [E1 E2]%orb_false_iff. destruct esc; cbn [qst jit]; rewrite E1, E2; reflexivity. Qed.

Lemma jit_q_escaped esc x c r out :
  esc || clean x = true ->
  jit (qst esc x) (92 :: c :: r) out = if special c then jit (JEscQuote (x ++ [c])) r out else PErr.
Proof.
  unfold special. rewrite (orb_comm (c =? 34)). intros Hx.
  destruct esc; cbn [qst jit]; change (92 =? 34) with false; change (92 =? 92) with true; cbn iota;
    rewrite ?esc_replay_clean by exact Hx; reflexivity.
Qed.

Lemma jit_escape_scan g : forall esc x r out,
  esc || clean x = true ->
  jit (qst esc x) (escape_field g ++ 34 :: r) out = jit JContinue r (SField (x ++ g) :: out).
Proof.
  induction g as [|c g IH]; intros esc x r out Hx; cbn [escape_field].
  - rewrite app_nil_r. apply jit_q_close.
  - fold (special c). destruct (special c) eqn:Es; cbn [app].
    + rewrite jit_q_escaped, Es, (IH true), <- app_assoc by auto. reflexivity.
    + rewrite jit_q_plain, IH, <- app_assoc by auto using clean_snoc. reflexivity.
Qed.

(* the text serialize_field writes for a field, without the separator *)
Definition field_body (f : text) : text :=
  if needs_quotes f then 34 :: escape_field f ++ [34] else f.

Lemma serialize_field_body f sep : serialize_field f sep = sep ++ field_body f.
Proof. reflexivity. Qed.

Lemma needs_quotes_false f :
  needs_quotes f = false -> exists c f', f = c :: f' /\ forallb ser_char (c :: f') = true.
Proof.
  destruct f as [|c f']; [discriminate|]. cbn [needs_quotes]. intros H. exists c, f'. split; [reflexivity|].
  rewrite forallb_forall. intros x Hx. destruct (ser_char x) eqn:E; [reflexivity|].
  rewrite (proj2 (existsb_exists _ _)) in H; [discriminate|]. exists x. rewrite E. auto.
Qed.

(* The states between segments.  In the two of `path_start` a path may begin; at a `boundary` a field may begin;
   `index_ok` are the states in which `[` opens an index; `seg_end` are the two a segment can end in, the second
   with an unquoted field still to be emitted: `flush` is the output once it is. *)
Definition path_start (st : jstate) : bool :=
  match st with JStart | JEventRoot => true | _ => false end.
Definition boundary (st : jstate) : bool :=
  match st with JStart | JEventRoot | JContinue | JDot => true | _ => false end.
Definition index_ok (st : jstate) : bool :=
  match st with JStart | JEventRoot | JContinue | JField _ => true | _ => false end.
Definition seg_end (st : jstate) : bool :=
  match st with JContinue | JField _ => true | _ => false end.
Definition flush (st : jstate) (out : list seg) : list seg :=
  match st with JField acc => SField acc :: out | _ => out end.

Lemma jit_boundary_quote st z out : boundary st = true -> jit st (34 :: z) out = jit (JQuote []) z out.
Proof. destruct st; try discriminate; reflexivity. Qed.

Lemma jit_field_start st c f r out :
  boundary st = true -> forallb jit_char (c :: f) = true -> jit st (c :: f ++ r) out = jit (JField (c :: f)) r out.
Proof.
  intros Hb [Hc Hf]%andb_true_iff. rewrite <- (jit_field_run f [c]) by exact Hf.
  assert (H46 : (c =? 46) = false) by cls.
  destruct st; try discriminate; cbn [jit]; rewrite ?H46, Hc; reflexivity.
Qed.

Lemma jit_bracket st r out : index_ok st = true -> jit st (91 :: r) out = jit JIndexStart r (flush st out).
Proof. destruct st; try discriminate; reflexivity. Qed.

Lemma jit_end_dot st r out : seg_end st = true -> jit st (46 :: r) out = jit JDot r (flush st out).
Proof. destruct st; try discriminate; reflexivity. Qed.

Lemma jit_end_nil st out : seg_end st = true -> jit st [] out = POk (rev (flush st out)).
Proof. destruct st; try discriminate; reflexivity. Qed.

Lemma jit_field_body st f r out :
  boundary st = true ->
  jit st (field_body f ++ r) out =
    if needs_quotes f then jit JContinue r (SField f :: out) else jit (JField f) r out.
Proof.
  intros Hst. unfold field_body. destruct (needs_quotes f) eqn:Enq.
  - cbn [app]. rewrite <- app_assoc, jit_boundary_quote by exact Hst. apply (jit_escape_scan f false []). reflexivity.
  - destruct (needs_quotes_false f Enq) as (c & f' & -> & Hf).
    apply jit_field_start; [exact Hst | exact (forallb_impl _ _ _ ser_jit Hf)].
Qed.

(* after a segment, the rest of a rendered path parses to itself *)
Lemma jit_tail p : forall st out,
  seg_end st = true -> indices_in_isize p = true ->
  jit st (render_from false p) out = POk (rev (flush st out) ++ p).
Proof.
  induction p as [|[f|i] p IH]; intros st out Hst Hi; cbn [render_from].
  - rewrite app_nil_r. apply jit_end_nil, Hst.
  - rewrite serialize_field_body. cbn [app]. rewrite jit_end_dot, jit_field_body by auto.
    destruct (needs_quotes f); rewrite IH by auto; cbn [flush rev]; rewrite <- app_assoc; reflexivity.
  - apply andb_true_iff in Hi as [Hi1 Hi].
    rewrite jit_bracket, jit_index, IH by (auto; destruct st; try discriminate; reflexivity).
    cbn [flush rev]. rewrite <- app_assoc. reflexivity.
Qed.

(* from a state in which a path may begin, a non-empty rendered path parses to itself *)
Lemma jit_from_start st s p :
  path_start st = true -> indices_in_isize (s :: p) = true ->
  jit st (render (s :: p)) [] = POk (s :: p).
Proof.
  intros Hst [Hs Hi]%andb_true_iff. assert (boundary st = true /\ index_ok st = true /\ flush st [] = []) as (Hb & Hx & Hf)
    by (destruct st; try discriminate; auto).
  unfold render. destruct s as [f|i]; cbn [render_from].
  - rewrite serialize_field_body. cbn [app]. rewrite jit_field_body by exact Hb.
    destruct (needs_quotes f); rewrite jit_tail by auto; reflexivity.
  - rewrite jit_bracket, jit_index, jit_tail, Hf by auto. reflexivity.
Qed.

(* what the target-path parser does with the two prefixes *)
Definition with_prefix (pre : prefix) (r : pres path) : pres tpath :=
  match r with POk p => POk (pre, p) | PErr => PErr | PPanic => PPanic | PUnreachable => PUnreachable end.

(* the character a target path begins with, and the state of the machine after it *)
Definition prefix_char (pre : prefix) : N := match pre with Event => 46 | Metadata => 37 end.
Definition prefix_state (pre : prefix) : jstate := match pre with Event => JEventRoot | Metadata => JStart end.

Lemma parse_target_prefix pre t :
  parse_target_path (prefix_char pre :: t) = with_prefix pre (jit (prefix_state pre) t []).
Proof. destruct pre; reflexivity. Qed.

Definition is_root_exception (tp : tpath) : bool :=
  match tp with (Metadata, []) => true | _ => false end.

Theorem roundtrip_target tp :
  is_root_exception tp = false -> indices_in_isize (snd tp) = true ->
  parse_target_path (render_target tp) = POk tp.
Proof.
  destruct tp as [pre [|s p]]; [destruct pre; try discriminate; reflexivity|]. intros _ Hi.
  change (render_target (pre, s :: p)) with (prefix_char pre :: render (s :: p)).
  rewrite parse_target_prefix, jit_from_start by (auto; destruct pre; reflexivity). reflexivity.
Qed.

Lemma event_root_ok : render_target (Event, []) = [46] /\ parse_target_path (render_target (Event, [])) = POk (Event, []).
Proof. split; reflexivity. Qed.

Definition state_ok (st : jstate) : bool :=
  match st with JQuote acc => clean acc | _ => true end.

(* `jit` is structural in the text, but the escape branches take two units at once and recurse on the tail of
   the tail, which a structural induction hypothesis does not reach: the induction is on a bound for the length.
   `state_ok` is kept by every step; the one step that has to show it is a plain character read in JQuote. *)
Lemma jit_settles n : forall cs st out,
  (length cs <= n)%nat -> state_ok st = true -> jit st cs out = PErr \/ exists p, jit st cs out = POk p.
Proof.
  induction n as [|n IH]; intros [|c r] st out Hlen Hst; try (cbn in Hlen; lia);
    try (destruct st; cbn; eauto; fail).
  cbn in Hlen. assert (Hr : (length r <= n)%nat) by lia.
  destruct st; cbn [jit]; rewrite ?esc_replay_clean by exact Hst;
    repeat match goal with
           | |- context [if ?b then _ else _] => destruct b eqn:?
           | |- context [match checked ?z with _ => _ end] => destruct (checked z)
           | |- context [match r with _ => _ end] => destruct r as [|c2 r2]
           end; auto; apply IH; cbn in Hr |- *; try lia; auto.
  (* JQuote, a character that is neither the quote nor the backslash *)
  apply (clean_snoc false); [unfold special; rewrite Heqb, Heqb0; reflexivity | exact Hst].
Qed.

Theorem parse_settles t :
  (parse_value_path t = PErr \/ exists p, parse_value_path t = POk p)
  /\ (parse_target_path t = PErr \/ exists tp, parse_target_path t = POk tp).
Proof.
  assert (H : forall u, parse_value_path u = PErr \/ exists p, parse_value_path u = POk p)
    by (intros u; exact (jit_settles _ u JStart [] (le_n _) eq_refl)).
  split; [apply H|]. unfold parse_target_path. destruct (get_target_prefix t) as [pre vp].
  destruct (H vp) as [-> | [p ->]]; eauto.
Qed.

Lemma tpath_eqb_eq a b : tpath_eqb a b = true -> a = b.
Proof.
  destruct a as [p1 l1], b as [p2 l2]. unfold tpath_eqb. cbn [fst snd]. intros [Hp Hl]%andb_true_iff.
  f_equal; [destruct p1, p2; try discriminate; reflexivity |].
  revert l2 Hl. induction l1 as [|x l1 IH]; intros [|y l2]; try discriminate; auto.
  cbn. intros [->%seg_eqb_eq ->%IH]%andb_true_iff. reflexivity.
Qed.
