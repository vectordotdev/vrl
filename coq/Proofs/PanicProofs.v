(* C04 (runtime part, Core VRL): the two `expect`s of the modelled runtime - Block::resolve on an empty
   block, filter's "compiler guarantees boolean return type" - are the only sources of a panic; a
   program without empty blocks and without filter closures never panics, in any state and under any
   fault schedule, for every function/operator semantics. *)
From Coq Require Import List Bool.
From VRL Require Import Base.Bytes Base.Value Model.ValueCrud Model.Expr Model.Eval Proofs.ExprInd Proofs.EvalProofs.
Import ListNotations.

Definition nonempty {A} (l : list A) : bool := match l with [] => false | _ => true end.

Fixpoint pf (e : expr) : bool :=
  let pl := fix pl (l : list expr) : bool := match l with [] => true | x :: r => pf x && pl r end in
  match e with
  | EBlock es => nonempty es && pl es
  | EIf c t f => nonempty c && pl c && nonempty t && pl t &&
                 match f with Some fb => nonempty fb && pl fb | None => true end
  | EClosure cf arg ps body =>
      match cf with CFilter => false | _ => true end && pf arg && nonempty body && pl body
  | EQExpr e1 _ | EGroup e1 | ENot e1 | EAssign _ e1 | EAssignInf _ _ e1 _ | EReturn e1 => pf e1
  | EArr es | ECall _ es => pl es
  | EObj kvs => (fix go (l : list (bytes * expr)) : bool :=
                   match l with [] => true | kv :: r => pf (snd kv) && go r end) kvs
  | EOp _ a b => pf a && pf b
  | EAbort (Some m) => pf m
  | _ => true
  end.

Definition pfl (es : list expr) : bool := forallb pf es.

Definition no_panic {X} (r : X + err) : Prop := match r with inr Panic => False | _ => True end.

Section PanicProofs.
  Variable F : fname -> list value -> option value.
  Variable binop : opcode -> value -> value -> option value.
  Notation evl := (eval F binop).

  Definition safe (e : expr) : Prop := forall s, no_panic (fst (evl e s)).
  Definition pf_safe (e : expr) : Prop := pf e = true -> safe e.

  (* pf's inner loops are forallb, by conversion *)
  Lemma pl_eq es : (fix pl (l : list expr) : bool := match l with [] => true | x :: r => pf x && pl r end) es = pfl es.
  Proof. reflexivity. Qed.

  Lemma kv_pf_eq kvs :
    (fix go (l : list (bytes * expr)) : bool := match l with [] => true | kv :: r => pf (snd kv) && go r end) kvs
    = forallb (fun kv => pf (snd kv)) kvs.
  Proof. reflexivity. Qed.

  Lemma safe_all {A} (g : A -> expr) l :
    Forall (fun a => pf_safe (g a)) l -> forallb (fun a => pf (g a)) l = true -> Forall (fun a => safe (g a)) l.
  Proof. rewrite !Forall_forall, forallb_forall. intros H Hp a Ha. exact (H a Ha (Hp a Ha)). Qed.

  (* Nearly every case of eval runs something and either continues with its value or hands on its error:
     neither step makes a panic. *)
  Lemma seq_np {A X} (r : (A + err) * state) (k : A -> state -> (X + err) * state) :
    no_panic (fst r) -> (forall v s, no_panic (fst (k v s))) ->
    no_panic (fst (match r with (inl v, s') => k v s' | (inr er, s') => (inr er, s') end)).
  Proof. intros Hr Hk. destruct r as [[v|er] s']; [apply Hk|exact Hr]. Qed.

  Lemma lift_np {A} (f : A -> value) x : no_panic (fst x) -> no_panic (fst (lift f x)).
  Proof. exact (lift_err_ok _ f x). Qed.

  Lemma loop_np {X Y} (step : X -> state -> (Y + err) * state) items :
    Forall (fun a => forall s, no_panic (fst (step a s))) items -> forall s, no_panic (fst (loop step items s)).
  Proof. exact (loop_err_ok _ step items). Qed.

  (* arrays, objects, calls and blocks run their operands by `loop` (arr_go_loop, ..., blk_loop) *)
  Lemma blk_ok es : Forall pf_safe es -> nonempty es && pfl es = true -> forall s, no_panic (fst (blk F binop es s)).
  Proof.
    intros H Hp s. apply andb_true_iff in Hp. destruct Hp as [Hn Hp].
    rewrite (blk_loop F binop es VNull) by (intros ->; discriminate).
    apply lift_np, loop_np, (safe_all (fun x => x)); assumption.
  Qed.

  Lemma iter_result_np r : no_panic r -> no_panic (iter_result r).
  Proof. destruct r as [v|[ | | | ]]; cbn; auto. Qed.

  Lemma run2_np body p0 p1 a b : (forall s, no_panic (fst (body s))) -> forall s, no_panic (fst (run2 body p0 p1 a b s)).
  Proof.
    intros Hb s. unfold run2. destruct (bind_param s p0 a) as [o s1]. destruct (bind_param s1 p1 b) as [o1 s2].
    specialize (Hb s2). destruct (body s2) as [r s3]. apply iter_result_np, Hb.
  Qed.

  Lemma run1_np body p a : (forall s, no_panic (fst (body s))) -> forall s, no_panic (fst (run1 body p a s)).
  Proof. intros Hb s. rewrite (run1_run2 _ _ _ VNull). apply run2_np, Hb. Qed.

  Lemma run_closure_np body ps cf v :
    cf <> CFilter -> (forall s, no_panic (fst (body s))) -> forall s, no_panic (fst (run_closure body ps cf v s)).
  Proof.
    intros Hcf Hb s. unfold run_closure.
    destruct cf, v; try congruence; try exact I; try (apply run1_np, Hb); apply lift_np, loop_np, Forall_forall; intros a _ s1.
    (* each step runs the body once and repackages its value without a panic of its own *)
    all: autounfold with steps.
    all: apply seq_np; [first [apply run1_np|apply run2_np]; exact Hb|intros [] s2; exact I].
  Qed.

  Theorem eval_no_panic e : pf_safe e.
  Proof.
    induction e using expr_ind'; intros Hp s; try exact I; cbn [pf] in Hp; rewrite ?pl_eq, ?kv_pf_eq in Hp.
    (* path query, assignment, return: the subexpression, then a step that yields a value or a non-panic error *)
    all: try (cbn [eval]; apply seq_np; [apply IHe, Hp|intros; exact I]).
    - cbn [eval]. destruct (t_get s pfx p). exact I.
    - rewrite (eval_arr F binop), arr_go_loop. apply lift_np, loop_np, (safe_all (fun x => x)); assumption.
    - rewrite (eval_obj F binop), obj_go_loop. apply lift_np, loop_np, Forall_map, (safe_all snd); assumption.
    - rewrite (eval_block F binop). apply blk_ok; assumption.
    - apply IHe, Hp.
    - rewrite eval_if. apply andb_true_iff in Hp. destruct Hp as [Hp Hf].
      rewrite <- andb_assoc in Hp. apply andb_true_iff in Hp. destruct Hp as [Hc Ht].
      apply seq_np; [apply blk_ok; assumption|]. intros v s'.
      destruct (try_boolean v) as [[|]|]; [apply blk_ok; assumption| |exact I].
      destruct f as [fb|]; [|exact I]. rewrite pl_eq in Hf. apply blk_ok; assumption.
    - apply andb_true_iff in Hp. destruct Hp as [Ha Hb]. specialize (IHe1 Ha). specialize (IHe2 Hb).
      destruct o; try (rewrite eval_plain by reflexivity; apply seq_np; [apply IHe1|]; intros v s'; apply seq_np; [apply IHe2|];
                       intros w s''; destruct (binop _ v w); exact I).
      + rewrite eval_or. apply seq_np; [apply IHe1|]. intros v s'. destruct (falsy v); [apply IHe2|exact I].
      + rewrite eval_and. apply seq_np; [apply IHe1|]. intros v s'. destruct (falsy v); [exact I|].
        apply seq_np; [apply IHe2|]. intros w s''. destruct (try_and v w); exact I.
      + rewrite eval_err. specialize (IHe1 s). destruct (evl e1 s) as [[v|[ | | | ]] s']; try exact I; [apply IHe2|exact IHe1].
    - cbn [eval]. apply seq_np; [apply IHe, Hp|]. intros v s'. destruct (try_boolean v); exact I.
    - rewrite eval_assign_inf. specialize (IHe Hp s). destruct (evl e s) as [[v|[ | | | ]] s']; try exact I; exact IHe.
    - destruct m as [m|]; [|exact I]. cbn [eval]. apply seq_np; [apply H, Hp|]. intros [] s'; exact I.
    - rewrite (eval_call F binop), call_go_loop. apply seq_np; [apply loop_np, (safe_all (fun x => x)); assumption|].
      intros vs s'. destruct (F _ _); exact I.
    - cbn [eval]. destruct (t_remove s pfx p c). exact I.
    - cbn [eval]. destruct (var_get (vars s) x); [|exact I]. destruct (remove v p c). exact I.
    - cbn [eval]. destruct (t_get s pfx p). exact I.
    - rewrite eval_closure. rewrite <- andb_assoc in Hp. apply andb_true_iff in Hp. destruct Hp as [Hp Hb].
      apply andb_true_iff in Hp. destruct Hp as [Hcf Ha].
      apply seq_np; [apply IHe, Ha|]. intros v s'. apply run_closure_np; [intros ->; discriminate|].
      intros s0. apply blk_ok; assumption.
  Qed.

  Theorem run_no_panic es s :
    nonempty es = true -> pfl es = true -> fst (run F binop es s) <> Panicked.
  Proof.
    intros Hn Hp. unfold run. destruct (pop_fault s) as [bad fs]. destruct bad; [discriminate|].
    assert (H : pf (EBlock es) = true) by (cbn [pf]; rewrite pl_eq, Hn, Hp; reflexivity).
    pose proof (eval_no_panic (EBlock es) H (mkState (vars s) (ev s) (md s) (tlog s) fs)) as N.
    destruct (evl (EBlock es) _) as [[v|[ | | | ]] s']; cbn [fst] in *; try discriminate. contradiction.
  Qed.
End PanicProofs.
