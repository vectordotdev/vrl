(* Proofs about Model/Ip.v: Ipv4Addr::from_str accepts canonical text only (no leading zeros), so every
   text ip_aton accepts is the text ip_ntoa prints for the number it denotes. *)
From Coq Require Import List NArith ZArith Bool Lia.
From VRL Require Import Base.Bytes Base.Value Model.ConvRes Model.IntText Model.Ip
  Proofs.IntTextProofs Proofs.IpProofs.
Import ListNotations.
Local Open Scope Z_scope.

Lemma read_digits_inv radix maxd : forall s acc count v n rest,
  read_digits radix maxd s acc count = Some (v, n, rest) ->
  exists ds, s = ds ++ rest /\ uval radix ds acc = Some v /\ n = (count + length ds)%nat
             /\ ((count <= maxd)%nat -> (n <= maxd)%nat).
Proof.
  induction s as [|c s IH]; intros acc count v n rest H; cbn [read_digits] in H.
  - inversion H; subst. exists []. cbn. repeat split; auto; lia.
  - destruct (to_digit radix c) as [d|] eqn:D.
    + destruct (Nat.ltb maxd (S count)) eqn:L; [discriminate|]. apply Nat.ltb_ge in L.
      destruct (IH _ _ _ _ _ H) as (ds & E & Hu & Hn & Hm). exists (c :: ds). subst s.
      cbn [app uval length]. rewrite D. repeat split; auto; lia.
    + inversion H; subst. exists []. cbn. repeat split; auto; lia.
Qed.

(* a token read_number accepts as an octet is one to three decimal digits without a zero prefix: the text the
   printer produces for its value *)
Lemma read_octet_number_inv s v rest :
  read_number 10 3 false 255 s = Some (v, rest) -> s = dec_u8 v ++ rest /\ octet v.
Proof.
  unfold read_number. intros H.
  destruct (read_digits 10 3 s 0 O) as [[[v' n] rest']|] eqn:R; [|discriminate].
  destruct (read_digits_inv 10 3 _ _ _ _ _ _ R) as (ds & -> & Hu & -> & Hm). specialize (Hm ltac:(lia)).
  destruct ds as [|c ds]; [discriminate|]. cbn [Nat.add length Nat.eqb negb andb app] in *.
  rewrite (leading_zero_eqb c []) in H. destruct ((c =? 48)%N && Nat.ltb 1 (S (length ds))) eqn:LZ; [discriminate|].
  destruct (Z.leb_spec v' 255) as [V|]; [|discriminate]. injection H as <- <-.
  assert (Hge : 0 <= v') by (eapply uval_ge; [| |exact Hu]; lia).
  split; [|unfold octet; lia]. f_equal. unfold dec_u8.
  rewrite (digits_loop_printed 10 c ds v'); [reflexivity | lia | | | exact Hu | lia].
  - intros c' d' _ D. apply (to_digit_dec c' d' D).
  - intros Hds ->. destruct ds; [congruence | discriminate].
Qed.

Lemma read_octet_sep_inv i s v rest :
  read_octet (S i) s = Some (v, rest) -> s = 46%N :: dec_u8 v ++ rest /\ octet v.
Proof.
  unfold read_octet, read_separator. destruct s as [|c s']; [discriminate|].
  destruct (N.eqb_spec c ch_dot) as [->|]; [|discriminate]. intros H.
  destruct (read_octet_number_inv _ _ _ H) as [-> Ho]. split; [reflexivity | exact Ho].
Qed.

Lemma read_ipv4_inv s o rest :
  read_ipv4_addr s = Some (o, rest) ->
  exists a b c d, o = [a; b; c; d] /\ octet a /\ octet b /\ octet c /\ octet d /\ s = ipv4_to_string [a; b; c; d] ++ rest.
Proof.
  unfold read_ipv4_addr. intros H.
  destruct (read_octet 0 s) as [[a s1]|] eqn:R0; [|discriminate].
  destruct (read_octet 1 s1) as [[b s2]|] eqn:R1; [|discriminate].
  destruct (read_octet 2 s2) as [[c s3]|] eqn:R2; [|discriminate].
  destruct (read_octet 3 s3) as [[d s4]|] eqn:R3; [|discriminate].
  injection H as <- <-.
  apply read_octet_number_inv in R0 as [-> Ha].
  apply read_octet_sep_inv in R1 as [-> Hb], R2 as [-> Hc], R3 as [-> Hd].
  exists a, b, c, d. rewrite ipv4_text_app. auto 10.
Qed.

(* every text ip_aton accepts comes back from ip_ntoa *)
Theorem aton_ntoa_accepted s n :
  ip_aton (VBytes s) = ROk (VInt n) -> ip_ntoa (VInt n) = ROk (VBytes s).
Proof.
  unfold ip_aton, parse_ipv4. intros H.
  destruct (Nat.ltb 15 (length s)); [discriminate|].
  destruct (read_ipv4_addr s) as [[o [|]]|] eqn:R; try discriminate. injection H as <-.
  destruct (read_ipv4_inv _ _ _ R) as (a & b & c & d & -> & Ha & Hb & Hc & Hd & ->). rewrite app_nil_r.
  apply ip_ntoa_octets; assumption.
Qed.

Lemma read_groups_length : forall n i s, (length (fst (fst (read_groups n i s))) <= n)%nat.
Proof.
  induction n as [|n' IH]; intros i s; [cbn; lia|]. rewrite read_groups_S. cbv zeta.
  destruct (if Nat.leb 1 n' then _ else None) as [[[|a [|b [|c [|d [|? ?]]]]] s']|] eqn:E4.
  5: { (* an embedded dotted quad fills two slots; it is only tried when two are left *)
       destruct n'; [discriminate | cbn; lia]. }
  (* otherwise one hex group is read *)
  all: destruct (read_separator ch_colon i (read_number 16 4 true 65535) s) as [[g s'']|]; [|cbn; lia];
    specialize (IH (S i) s''); destruct (read_groups n' (S i) s'') as [[gs v4'] s3]; cbn [fst length] in *; lia.
Qed.

Lemma read_ipv6_length s g rest : read_ipv6_addr s = Some (g, rest) -> length g = 8%nat.
Proof.
  unfold read_ipv6_addr.
  pose proof (read_groups_length 8 0 s) as H8.
  destruct (read_groups 8 0 s) as [[head hv4] s1]. cbn [fst] in H8.
  destruct (Nat.eqb (length head) 8) eqn:E8.
  - intros H. inversion H; subst. apply Nat.eqb_eq in E8. exact E8.
  - apply Nat.eqb_neq in E8. destruct hv4; [discriminate|]. intros H.
    destruct s1 as [|c1 s1]; [discriminate|].
    destruct c1 as [|p]; [discriminate|]. do 6 (destruct p as [p|p|]; try discriminate).
    destruct s1 as [|c2 s2]; [discriminate|].
    destruct c2 as [|p]; [discriminate|]. do 6 (destruct p as [p|p|]; try discriminate).
    cbv zeta in H.
    pose proof (read_groups_length (8 - (length head + 1)) 0 s2) as Ht.
    destruct (read_groups (8 - (length head + 1)) 0 s2) as [[tl tv4] s3]. cbn [fst] in Ht.
    set (k := (8 - length head - length tl)%nat) in H. (* kept folded: injection would evaluate the subtraction *)
    injection H as <- _. rewrite !app_length, repeat_length. subst k. lia.
Qed.

(* what IpAddr::from_str accepts as IPv4 is the canonical text of four octets; what it accepts as IPv6 has eight groups *)
Lemma parse_ip_v4_inv s o : parse_ip s = Some (V4 o) ->
  exists a b c d, o = [a; b; c; d] /\ octet a /\ octet b /\ octet c /\ octet d /\ s = ipv4_to_string [a; b; c; d].
Proof.
  unfold parse_ip. destruct (read_ipv4_addr s) as [[o' rest]|] eqn:R.
  - destruct rest; [|discriminate]. intros [= <-]. apply read_ipv4_inv in R. setoid_rewrite app_nil_r in R. exact R.
  - destruct (read_ipv6_addr s) as [[g [|]]|]; discriminate.
Qed.

Lemma parse_ip_v6_length s g : parse_ip s = Some (V6 g) -> length g = 8%nat.
Proof.
  unfold parse_ip. destruct (read_ipv4_addr s) as [[o [|]]|]; try discriminate.
  destruct (read_ipv6_addr s) as [[g' [|]]|] eqn:R; try discriminate.
  intros [= <-]. exact (read_ipv6_length _ _ _ R).
Qed.

(* every IPv4 text ip_pton accepts comes back from ip_ntop *)
Theorem pton_ntop_accepted_v4 s b :
  ip_pton (VBytes s) = ROk (VBytes b) -> length b = 4%nat -> ip_ntop (VBytes b) = ROk (VBytes s).
Proof.
  unfold ip_pton. destruct (parse_ip s) as [[o|g]|] eqn:P; [| |discriminate]; intros [= <-] Hl.
  - apply parse_ip_v4_inv in P as (a & b & c & d & -> & Ha & Hb & Hc & Hd & ->).
    unfold ip_ntop, bytes_of_octets. cbn [map length Nat.eqb octets_of_bytes].
    unfold octet in *. rewrite !Z2N.id by lia. reflexivity.
  - apply parse_ip_v6_length in P. unfold bytes_of_octets in Hl. rewrite map_length in Hl.
    do 9 (destruct g as [|? g]; try discriminate).
Qed.

(* every IPv4 text goes to its mapped IPv6 text and back *)
Theorem to6_to4_accepted s o :
  parse_ip s = Some (V4 o) ->
  exists t, ip_to_ipv6 (VBytes s) = ROk (VBytes t) /\ ipv6_to_ipv4 (VBytes t) = ROk (VBytes s).
Proof.
  intros H. apply parse_ip_v4_inv in H as (a & b & c & d & -> & Ha & Hb & Hc & Hd & ->).
  eexists. apply mapped_roundtrip; assumption.
Qed.
