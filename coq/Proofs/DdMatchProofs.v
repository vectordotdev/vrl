(* Model/DdMatch.v (C31).  The two regex shapes against a declarative relation: glob against gmatch, word_match as an
   occurrence of a gmatch between two word boundaries.  The matcher that build_matcher compiles, run on an event, is
   the direct evaluator sem outside `known` (refines), and compiles exactly for well-formed queries (build_ok_iff). *)
From Coq Require Import List NArith Bool Lia.
From Coq Require Import Floats.SpecFloat.
From VRL Require Import Base.Bytes Base.Value Model.ValueCrud Model.DdNode Model.DdMatch Proofs.ListFacts.
Import ListNotations.

Lemma collect_Forall2 {A B} (f : A -> bres B) l ms :
  collect f l = BOk ms -> Forall2 (fun x m => f x = BOk m) l ms.
Proof.
  revert ms; induction l as [|x l IH]; cbn; intros ms H.
  - injection H as <-. constructor.
  - destruct (f x) eqn:E; try discriminate. destruct (collect f l); try discriminate.
    injection H as <-. constructor; auto.
Qed.

Lemma starts_with_iff s p : starts_with s p = true <-> exists r, s = p ++ r.
Proof.
  revert s; induction p as [|c p IH]; intros s; cbn.
  - split; [intros _; exists s; reflexivity | reflexivity].
  - destruct s as [|x s].
    + split; [discriminate | intros [r H]; discriminate].
    + rewrite andb_true_iff, N.eqb_eq, IH. split.
      * intros [-> [r ->]]. exists r; reflexivity.
      * intros [r [= -> ->]]. eauto.
Qed.

Lemma split_once_colon_spec s k v :
  split_once_colon s = Some (k, v) <-> s = k ++ 58%N :: v /\ ~ In 58%N k.
Proof.
  split.
  - revert k; induction s as [|c s IH]; cbn; intros k; [discriminate|].
    destruct (N.eqb_spec c 58) as [->|Hc].
    + intros [= <- <-]. auto.
    + destruct (split_once_colon s) as [[a b]|]; [|discriminate]. intros [= <- <-].
      destruct (IH a eq_refl) as [-> Hn]. split; [reflexivity|]. intros [H|H]; [congruence | contradiction].
  - intros [-> Hn]. induction k as [|c k IH]; [reflexivity|]. apply not_in_cons in Hn as [Hc Hn].
    cbn. destruct (N.eqb_spec c 58); [congruence|]. rewrite (IH Hn). reflexivity.
Qed.

(* the last byte of l, or prev when l is empty *)
Definition last_or (prev : option N) (l : bytes) : option N :=
  match rev l with x :: _ => Some x | [] => prev end.

Lemma last_or_nil prev : last_or prev [] = prev.
Proof. reflexivity. Qed.

Lemma last_or_cons prev x l : last_or prev (x :: l) = last_or (Some x) l.
Proof.
  unfold last_or. cbn [rev]. destruct (rev l) as [|y r] eqn:E; reflexivity.
Qed.

Lemma last_or_app prev a b : last_or prev (a ++ b) = last_or (last_or prev a) b.
Proof.
  revert prev; induction a as [|x a IH]; intros prev; [reflexivity|].
  cbn [app]. rewrite !last_or_cons. apply IH.
Qed.

(* The loop by which glob and wglob match a `*`: the continuation k is tried after every run of bytes
   without newline; prev is the byte before the current position. *)
Definition star (k : option N -> bytes -> bool) : option N -> bytes -> bool :=
  fix star (prev : option N) (s : bytes) : bool :=
    k prev s || match s with x :: s' => negb (x =? 10)%N && star (Some x) s' | [] => false end.

Lemma star_iff k : forall s prev,
  star k prev s = true <-> exists s1 s2, s = s1 ++ s2 /\ ~ In 10%N s1 /\ k (last_or prev s1) s2 = true.
Proof.
  induction s as [|x s IH]; intros prev; cbn [star].
  - rewrite orb_false_r. split.
    + intros H. exists [], []. auto.
    + intros (s1 & s2 & H & _ & G). symmetry in H. apply app_eq_nil in H as [-> ->]. exact G.
  - rewrite orb_true_iff, andb_true_iff, negb_true_iff, N.eqb_neq, IH. split.
    + intros [G | [Hx (s1 & s2 & -> & Hn & G)]].
      * exists [], (x :: s). auto.
      * exists (x :: s1), s2. rewrite last_or_cons. repeat split; auto. apply not_in_cons. auto.
    + intros (s1 & s2 & H & Hn & G). destruct s1 as [|y s1].
      * left. cbn in H. subst. exact G.
      * right. injection H as -> ->. rewrite last_or_cons in G. apply not_in_cons in Hn as [Hx Hn].
        split; eauto.
Qed.

Lemma glob_star p s prev : glob (PStar :: p) s = star (fun _ => glob p) prev s.
Proof.
  revert prev; induction s as [|x s IH]; intros prev; [reflexivity|].
  cbn [star]. rewrite <- IH. reflexivity.
Qed.

Lemma wglob_star p prev s : wglob (PStar :: p) prev s = star (wglob p) prev s.
Proof. reflexivity. Qed.

(* `w` matches `s` when every `*` of w stands for a run of bytes without newline and every other byte
   for itself *)
Inductive gmatch : bytes -> bytes -> Prop :=
| gm_nil : gmatch [] []
| gm_lit c w s : c <> 42%N -> gmatch w s -> gmatch (c :: w) (c :: s)
| gm_star w s1 s2 : ~ In 10%N s1 -> gmatch w s2 -> gmatch (42%N :: w) (s1 ++ s2).

Lemma glob_correct w : forall s, glob (pat_of w) s = true <-> gmatch w s.
Proof.
  induction w as [|c w IH]; intros s.
  - cbn. destruct s; split; intros H; try discriminate; try constructor. inversion H.
  - change (pat_of (c :: w)) with ((if (c =? 42)%N then PStar else PLit c) :: pat_of w).
    destruct (N.eqb_spec c 42) as [->|Hc].
    + rewrite (glob_star _ _ None), star_iff. split.
      * intros (s1 & s2 & -> & Hn & G). constructor; auto. apply IH; exact G.
      * intros H. inversion H; subst; [congruence|]. exists s1, s2. repeat split; auto. apply IH; assumption.
    + cbn [glob]. destruct s as [|x s].
      * split; [discriminate | intros H; inversion H; subst; congruence].
      * rewrite andb_true_iff, N.eqb_eq, IH. split.
        -- intros [-> G]. constructor; auto.
        -- intros H. inversion H; subst; [auto | congruence].
Qed.

Lemma wglob_iff w : forall prev s,
  wglob (pat_of w) prev s = true <->
  exists mid post, s = mid ++ post /\ gmatch w mid /\ wb (last_or prev mid) post = true.
Proof.
  induction w as [|c w IH]; intros prev s.
  - cbn [pat_of map wglob]. split.
    + intros H. exists [], s. repeat split; auto. constructor.
    + intros (mid & post & -> & G & H). inversion G; subst. exact H.
  - change (pat_of (c :: w)) with ((if (c =? 42)%N then PStar else PLit c) :: pat_of w).
    destruct (N.eqb_spec c 42) as [->|Hc].
    + rewrite wglob_star, star_iff. split.
      * intros (s1 & s2 & -> & Hn & G). apply IH in G as (mid & post & -> & Gm & Hb).
        exists (s1 ++ mid), post. rewrite <- app_assoc, last_or_app. repeat split; auto. constructor; auto.
      * intros (mid & post & -> & G & Hb). inversion G; subst; [congruence|].
        exists s1, (s2 ++ post). rewrite <- app_assoc. repeat split; auto.
        apply IH. exists s2, post. rewrite <- last_or_app. auto.
    + cbn [wglob]. destruct s as [|x s].
      * split; [discriminate|]. intros (mid & post & H & G & _). inversion G; subst; [|congruence]. discriminate.
      * rewrite andb_true_iff, N.eqb_eq, IH. split.
        -- intros [-> (mid & post & -> & G & Hb)]. exists (c :: mid), post. rewrite last_or_cons.
           repeat split; auto. constructor; auto.
        -- intros (mid & post & H & G & Hb). inversion G; subst; [|congruence]. inversion H; subst.
           split; [reflexivity|]. exists s0, post. rewrite last_or_cons in Hb. auto.
Qed.

Lemma wsearch_iff p : forall s prev,
  wsearch p prev s = true <->
  exists pre rest, s = pre ++ rest /\ wb (last_or prev pre) rest = true /\ wglob p (last_or prev pre) rest = true.
Proof.
  induction s as [|x s IH]; intros prev.
  - cbn [wsearch]. rewrite orb_false_r, andb_true_iff. split.
    + intros [A B]. exists [], []. auto.
    + intros (pre & rest & H & A & B). destruct pre; [|discriminate]. destruct rest; [|discriminate]. auto.
  - cbn [wsearch]. rewrite orb_true_iff, andb_true_iff, IH. split.
    + intros [[A B] | (pre & rest & -> & A & B)].
      * exists [], (x :: s). auto.
      * exists (x :: pre), rest. rewrite last_or_cons. auto.
    + intros (pre & rest & H & A & B). destruct pre as [|y pre].
      * left. cbn in H. subst. auto.
      * right. inversion H; subst. rewrite last_or_cons in A, B. exists pre, rest. auto.
Qed.

(* a default-field term w matches the text s: some occurrence mid of the pattern (every `*` a run without
   newline) with a word boundary on each side *)
Theorem word_match_correct w s :
  word_match (pat_of w) s = true <->
  exists pre mid post, s = pre ++ mid ++ post /\ gmatch w mid /\
                       wb (last_or None pre) (mid ++ post) = true /\
                       wb (last_or (last_or None pre) mid) post = true.
Proof.
  unfold word_match. rewrite wsearch_iff. split.
  - intros (pre & rest & -> & A & B). apply wglob_iff in B as (mid & post & -> & G & C).
    exists pre, mid, post. auto.
  - intros (pre & mid & post & -> & G & A & C). exists pre, (mid ++ post). repeat split; auto.
    apply wglob_iff. exists mid, post. auto.
Qed.

(* a range bound that is given *)
Definition bounded (c : cval) : bool := match c with CUnb => false | _ => true end.

Section P.
  Variable fdisp : spec_float -> bytes.
  Variable tsdisp : Z -> bytes.

  Notation run := (run fdisp tsdisp).
  Notation sem := (sem fdisp tsdisp).
  Notation known := (known fdisp tsdisp).
  Notation string_value := (string_value fdisp tsdisp).
  Notation build_matcher := (build_matcher fdisp).
  Notation s_exists := (s_exists fdisp tsdisp).
  Notation s_equals := (s_equals fdisp tsdisp).
  Notation s_prefix := (s_prefix fdisp tsdisp).
  Notation s_wildcard := (s_wildcard fdisp tsdisp).
  Notation s_compare := (s_compare fdisp tsdisp).
  Notation s_range := (s_range fdisp tsdisp).
  Notation f_compare := (f_compare fdisp).
  Notation f_range := (f_range fdisp).
  Notation has_foreign_tag := (has_foreign_tag fdisp tsdisp).

  (* The loops over lists of matchers / nodes inside run, sem, known and wf_node are existsb and forallb
     written out. *)
  Lemma run_any ms e : run (MAny ms) e = existsb (fun m => run m e) ms.
  Proof. reflexivity. Qed.

  Lemma run_all ms e : run (MAll ms) e = forallb (fun m => run m e) ms.
  Proof. reflexivity. Qed.

  Lemma known_bool op ns e : known e (NBool op ns) = existsb (known e) ns.
  Proof. reflexivity. Qed.

  Lemma wf_bool op ns : wf_node (NBool op ns) = forallb wf_node ns.
  Proof. reflexivity. Qed.

  Lemma build_bool op ns :
    build_matcher (NBool op ns) =
    bmap (match op with BAnd => MAll | BOr => MAny end) (collect build_matcher ns).
  Proof.
    cbn [DdMatch.build_matcher]. f_equal.
    induction ns as [|n ns IH]; cbn; [reflexivity|]. rewrite IH. reflexivity.
  Qed.

  Lemma bmap_ok {A B} (g : A -> B) r y : bmap g r = BOk y -> exists x, r = BOk x /\ y = g x.
  Proof. destruct r; cbn; intros [= <-]. eauto. Qed.

  Lemma bmap_ok_iff {A B} (g : A -> B) r : (exists y, bmap g r = BOk y) <-> (exists x, r = BOk x).
  Proof.
    destruct r; cbn; split; intros [y H]; try discriminate; eauto.
  Qed.

  (* collecting succeeds when every element builds; `ok` is the condition under which one does *)
  Lemma collect_ok_iff {A B C} (g : list B -> C) (f : A -> bres B) (ok : A -> bool) l :
    (forall x, In x l -> (exists y, f x = BOk y) <-> ok x = true) ->
    (exists c, bmap g (collect f l) = BOk c) <-> forallb ok l = true.
  Proof.
    intros H. rewrite bmap_ok_iff. induction l as [|x l IH]; cbn; [split; eauto|].
    rewrite andb_true_iff, <- (H x (or_introl eq_refl)), <- IH by (intros y Hy; apply H; right; exact Hy).
    destruct (f x), (collect f l); (split; [intros [? [=]] | intros [[? [=]] [? [=]]]]); eauto.
  Qed.

  (* any() and all() of the matchers collected from l, when each built matcher decides sp *)
  Lemma collect_run {A} (fb : A -> bres matcher) (sp : A -> bool) l ms e :
    collect fb l = BOk ms -> (forall x m, In x l -> fb x = BOk m -> run m e = sp x) ->
    run (MAny ms) e = existsb sp l /\ run (MAll ms) e = forallb sp l.
  Proof.
    intros H Hs. rewrite run_any, run_all. apply collect_Forall2 in H.
    induction H as [|x m l ms Hx _ IH]; cbn; [split; reflexivity|].
    rewrite (Hs x m (or_introl eq_refl) Hx). destruct IH as [-> ->]; [|split; reflexivity].
    intros y m' Hy. apply Hs. right; exact Hy.
  Qed.

  (* The leaves: each closure of VrlFilter, built and then run on an event, is the direct evaluator of its
     field. *)

  Lemma with_path_run f v m e : with_path f (fun _ => v) = BOk m -> run m e = on_addr e f (run_vm fdisp tsdisp v).
  Proof.
    unfold with_path, on_addr, addressed. destruct (lookup_field f); intros [= <-]. reflexivity.
  Qed.

  Lemma with_path_ok_iff f k : (exists m, with_path f k = BOk m) <-> field_ok f = true.
  Proof.
    unfold with_path, field_ok. destruct (lookup_field f); (split; [intros [m [=]] | intros [=]]); eauto.
  Qed.

  Lemma f_equals_sem f v m e : f_equals f v = BOk m -> run m e = s_equals v e f.
  Proof.
    intros H. rewrite (with_path_run _ _ _ e H). unfold DdMatch.s_equals.
    destruct f as [s|s|s|s]; try destruct (bytes_eqb s TAGS); reflexivity.
  Qed.

  Lemma f_prefix_sem f v m e : f_prefix f v = BOk m -> run m e = s_prefix v e f.
  Proof. intros H. rewrite (with_path_run _ _ _ e H). destruct f; reflexivity. Qed.

  Lemma f_wildcard_sem f v m e : f_wildcard f v = BOk m -> run m e = s_wildcard v e f.
  Proof. intros H. rewrite (with_path_run _ _ _ e H). destruct f; reflexivity. Qed.

  Lemma f_exists_sem f m e :
    f_exists f = BOk m -> is_tags_field f && s_exists e f = false -> run m e = s_exists e f.
  Proof.
    intros H K. rewrite (with_path_run _ _ _ e H). destruct f as [s|s|s|s]; try reflexivity.
    (* on the reserved attribute `tags` the hypothesis says that the event has none *)
    cbn [is_tags_field] in K. unfold DdMatch.s_exists, on_addr in *.
    destruct (bytes_eqb s TAGS), (addressed e (FReserved s)); try reflexivity. discriminate.
  Qed.

  Lemma f_compare_sem f op cv m e :
    f_compare f op cv = BOk m -> has_foreign_tag e f = false -> run m e = s_compare op cv e f.
  Proof.
    intros H K. rewrite (with_path_run _ _ _ e H). destruct f as [s|s|s|tag]; try reflexivity.
    - (* the closure's table of cases is num_or_str_cmp's *)
      unfold DdMatch.s_compare, on_addr. destruct (addressed e _) as [x|]; [destruct x, cv|]; reflexivity.
    - (* no element of `tags` carries another key, so the closure's test, which ignores the key, is the
         specification's *)
      unfold DdMatch.s_compare, DdMatch.has_foreign_tag, on_addr in *. cbn [is_tag_field tag_of andb] in K.
      destruct (addressed e _) as [[| | | | | | |vs|]|]; try reflexivity.
      apply existsb_ext_in. intros y Hy. apply (proj1 (existsb_false_iff _ _) K) in Hy.
      unfold foreign_tag in Hy. unfold tag_value_cmp.
      destruct (split_once_colon (string_value y)) as [[k lhs]|]; [|reflexivity].
      apply negb_false_iff in Hy. rewrite Hy. reflexivity.
  Qed.

  (* with both bounds given, Filter::range builds the two comparisons *)
  Lemma f_range_both f lo li hi ui m :
    bounded lo = true -> bounded hi = true -> f_range f lo li hi ui = BOk m ->
    exists a b, f_compare f (lower_op li) lo = BOk a /\ f_compare f (upper_op ui) hi = BOk b /\ m = MBoth a b.
  Proof.
    intros Hlo Hhi. destruct lo; try discriminate; destruct hi; try discriminate; cbn [DdMatch.f_range].
    all: destruct (f_compare f (lower_op li) _) as [a| |]; try discriminate.
    all: destruct (f_compare f (upper_op ui) _) as [b| |]; try discriminate.
    all: intros [= <-]; eauto.
  Qed.

  Lemma f_range_sem f lo li hi ui m e :
    f_range f lo li hi ui = BOk m ->
    (match lo, hi with
     | CUnb, CUnb => is_tags_field f && s_exists e f
     | _, _ => has_foreign_tag e f
     end) = false ->
    run m e = s_range lo li hi ui e f.
  Proof.
    intros H K. destruct lo, hi.
    (* one bound: the matcher is the remaining comparison *)
    all: try exact (f_compare_sem _ _ _ _ e H K).
    (* none: existence *)
    1: exact (f_exists_sem _ _ e H K).
    (* both *)
    all: apply f_range_both in H as (a & b & Ha & Hb & ->); try reflexivity.
    all: cbn [DdMatch.run DdMatch.s_range].
    all: rewrite (f_compare_sem _ _ _ _ e Ha K), (f_compare_sem _ _ _ _ e Hb K); reflexivity.
  Qed.

  Theorem refines n : forall m e,
    build_matcher n = BOk m -> known e n = false -> run m e = sem n e.
  Proof.
    induction n using node_ind'; intros m e B K;
      [cbn [DdMatch.build_matcher] in B .. | rewrite build_bool in B].
    1, 2: injection B as <-; reflexivity.
    all: apply bmap_ok in B as (ms & B & ->).
    - (* exists *)
      apply (collect_run _ (s_exists e) _ _ _ B). intros f m Hf Hm. apply (f_exists_sem _ _ _ Hm).
      cbn [DdMatch.known] in K. apply orb_false_elim in K as [K _]. exact (proj1 (existsb_false_iff _ _) K f Hf).
    - (* missing *)
      apply (collect_run _ (fun f => negb (s_exists e f)) _ _ _ B). intros f m Hf Hm.
      apply bmap_ok in Hm as (m0 & Hm & ->). cbn [DdMatch.run]. f_equal. apply (f_exists_sem _ _ _ Hm).
      cbn [DdMatch.known] in K. apply orb_false_elim in K as [K _]. exact (proj1 (existsb_false_iff _ _) K f Hf).
    - (* range *)
      apply (collect_run _ (s_range lo li hi ui e) _ _ _ B). intros f m Hf Hm. apply (f_range_sem _ _ _ _ _ _ _ Hm).
      cbn [DdMatch.known] in K. apply orb_false_elim in K as [K1 K2].
      destruct lo; [destruct hi|..];
        [exact (proj1 (existsb_false_iff _ _) K1 f Hf) | exact (proj1 (existsb_false_iff _ _) K2 f Hf) ..].
    - (* comparison *)
      apply (collect_run _ (s_compare op v e) _ _ _ B). intros f m Hf Hm. apply (f_compare_sem _ _ _ _ _ Hm).
      exact (proj1 (existsb_false_iff _ _) K f Hf).
    - apply (collect_run _ (s_equals v e) _ _ _ B). intros f m _. apply f_equals_sem.
    - apply (collect_run _ (s_equals v e) _ _ _ B). intros f m _. apply f_equals_sem.
    - apply (collect_run _ (s_prefix v e) _ _ _ B). intros f m _. apply f_prefix_sem.
    - apply (collect_run _ (s_wildcard v e) _ _ _ B). intros f m _. apply f_wildcard_sem.
    - (* not *)
      cbn [DdMatch.run DdMatch.sem]. f_equal. apply IHn; assumption.
    - (* and / or: each child refines, so all() and any() of the children do *)
      rewrite known_bool in K. rewrite Forall_forall in H.
      destruct (collect_run _ (fun n => sem n e) _ _ e B) as [Hany Hall].
      { intros n m Hn Hm. apply (H n Hn m e Hm). exact (proj1 (existsb_false_iff _ _) K n Hn). }
      destruct op; assumption.
  Qed.

  (* every branch of Filter::range is with_path on the same field *)
  Lemma f_range_ok_iff f lo li hi ui : (exists m, f_range f lo li hi ui = BOk m) <-> field_ok f = true.
  Proof.
    unfold DdMatch.f_range, DdMatch.f_compare, f_exists, with_path, field_ok.
    destruct (lookup_field f), lo, hi; (split; [intros [m [=]]; reflexivity | intros [=]; eexists; reflexivity]).
  Qed.

  Theorem build_ok_iff n : (exists m, build_matcher n = BOk m) <-> wf_node n = true.
  Proof.
    induction n using node_ind'; [cbn [DdMatch.build_matcher wf_node] .. | rewrite build_bool, wf_bool].
    1, 2: split; eauto.
    (* the leaves whose field matchers are one call of with_path (under not(), for `missing`) *)
    all: try (apply collect_ok_iff; intros f _; try rewrite bmap_ok_iff; apply with_path_ok_iff).
    - apply collect_ok_iff. intros f _. apply f_range_ok_iff.
    - rewrite bmap_ok_iff. exact IHn.
    - apply collect_ok_iff, Forall_forall, H.
  Qed.

  (* a build never ends in the compile error on a well-formed query, and vice versa *)
  Corollary build_err_not_wf n : build_matcher n = BErr -> wf_node n = false.
  Proof.
    intros H. destruct (wf_node n) eqn:W; [|reflexivity].
    apply build_ok_iff in W as [m Hm]. congruence.
  Qed.

  Lemma single_field a :
    bytes_eqb a DEFAULT_FIELD = false -> exists f, normalize_fields a = [f].
  Proof. unfold normalize_fields. intros ->. eauto. Qed.

  Theorem impl_range a lo li hi ui m e :
    bytes_eqb a DEFAULT_FIELD = false -> bounded lo = true -> bounded hi = true ->
    build_matcher (NRange a lo li hi ui) = BOk m ->
    exists m1 m2,
      build_matcher (NCmp a (lower_op li) lo) = BOk m1 /\
      build_matcher (NCmp a (upper_op ui) hi) = BOk m2 /\
      run m e = run m1 e && run m2 e.
  Proof.
    intros Ha Hlo Hhi. cbn [DdMatch.build_matcher]. destruct (single_field a Ha) as [f ->]. cbn [collect].
    destruct (f_range f lo li hi ui) as [r| |] eqn:E; try discriminate. intros [= <-].
    apply f_range_both in E as (x & y & -> & -> & ->); auto.
    exists (MAny [x]), (MAny [y]). cbn. rewrite !orb_false_r. auto.
  Qed.

  Lemma s_range_both lo li hi ui e f :
    bounded lo = true -> bounded hi = true ->
    s_range lo li hi ui e f = s_compare (lower_op li) lo e f && s_compare (upper_op ui) hi e f.
  Proof. destruct lo; try discriminate; destruct hi; try discriminate; reflexivity. Qed.

  Theorem sem_range_open a li ui e : sem (NRange a CUnb li CUnb ui) e = sem (NExists a) e.
  Proof. reflexivity. Qed.

  Theorem sem_double_neg n e : sem (NNot (NNot n)) e = sem n e.
  Proof. cbn [DdMatch.sem]. apply negb_involutive. Qed.

  (* a quoted phrase is judged like a term *)
  Theorem sem_quoted a v e : sem (NQuoted a v) e = sem (NTerm a v) e.
  Proof. reflexivity. Qed.

  Lemma on_addr_at e f k p x : lookup_field f = PPOk p -> get e p = Some x -> on_addr e f k = k x.
  Proof. unfold on_addr, addressed. intros -> ->. reflexivity. Qed.

  Lemma on_addr_iff e f k :
    on_addr e f k = true <->
    exists p x, lookup_field f = PPOk p /\ get e p = Some x /\ k x = true.
  Proof.
    split.
    - unfold on_addr, addressed. destruct (lookup_field f) as [p| |]; try discriminate.
      destruct (get e p) as [x|] eqn:G; try discriminate. eauto.
    - intros (p & x & Hp & Hg & Hk). rewrite (on_addr_at _ _ _ _ _ Hp Hg). exact Hk.
  Qed.

  (* a test on the elements of the `tags` array *)
  Lemma on_tags_iff e tag k :
    on_addr e (FTag tag) (arr_any k) = true <->
    exists vs x, get e [SField TAGS] = Some (VArr vs) /\ In x vs /\ k x = true.
  Proof.
    rewrite on_addr_iff. split.
    - intros (p & v & [= <-] & Hg & Hk). destruct v; try discriminate.
      apply existsb_exists in Hk as (x & Hk). eauto.
    - intros (vs & x & Hg & Hk). exists [SField TAGS], (VArr vs). repeat split; auto.
      apply existsb_exists. eauto.
  Qed.

  (* a tag comparison: some "tag:value" element whose value compares *)
  Theorem leaf_tag_compare tag op cv e :
    s_compare op cv e (FTag tag) = true <->
    exists vs x lhs, get e [SField TAGS] = Some (VArr vs) /\ In x vs /\
                     string_value x = tag ++ 58%N :: lhs /\ ~ In 58%N tag /\
                     scmp op lhs (cval_display fdisp cv) = true.
  Proof.
    unfold DdMatch.s_compare, tag_value_cmp. rewrite on_tags_iff. split.
    - intros (vs & y & Hg & Hi & Hk).
      destruct (split_once_colon (string_value y)) as [[k lhs]|] eqn:E; [|discriminate].
      apply andb_true_iff in Hk as [Hk Hc]. apply bytes_eqb_eq in Hk as ->.
      apply split_once_colon_spec in E as [E Hn]. eauto 8.
    - intros (vs & x & lhs & Hg & Hi & Hs & Hn & Hc). exists vs, x. repeat split; auto.
      rewrite (proj2 (split_once_colon_spec _ _ _) (conj Hs Hn)), bytes_eqb_refl. exact Hc.
  Qed.

  (* a comparison on an attribute is numeric between numbers, and on the strings otherwise *)
  Theorem leaf_attr_compare s op cv x e p :
    parse_value_path s = PPOk p -> get e p = Some x ->
    s_compare op cv e (FAttribute s) = num_or_str_cmp fdisp tsdisp op cv x.
  Proof. exact (on_addr_at e (FAttribute s) _ p x). Qed.

  (* no array is one of its own elements *)
  Lemma not_in_self v : forall vs, v = VArr vs -> ~ In v vs.
  Proof.
    induction v using value_ind'; intros vs' E Hi; try discriminate. injection E as <-.
    rewrite Forall_forall in H. exact (H _ Hi vs eq_refl Hi).
  Qed.

  Lemma no_self_element vs : existsb (fun x => value_eqb x (VArr vs)) vs = false.
  Proof.
    destruct (existsb _ vs) eqn:E; [|reflexivity].
    apply existsb_exists in E as (x & Hi & Hx). apply value_eqb_eq in Hx. destruct (not_in_self _ _ Hx Hi).
  Qed.
End P.
