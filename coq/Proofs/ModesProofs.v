(* Inversion of the modes of Model/Modes.v for every data length, over an arbitrary block cipher:
   CBC needs D k (E k b) = b on 16-byte blocks; CFB, OFB and CTR only use E (both directions) and need
   nothing but |E k b| = 16. *)
From Coq Require Import List NArith Bool Arith Lia.
From VRL Require Import Base.Bytes Model.Modes Proofs.ListFacts.
Import ListNotations.

Lemma xorb_length a b : length (xorb a b) = Nat.min (length a) (length b).
Proof. revert b; induction a as [|x a IH]; intros [|y b]; cbn; auto. Qed.

Lemma xorb_cancel a b : (length a <= length b)%nat -> xorb (xorb a b) b = a.
Proof.
  revert b; induction a as [|x a IH]; intros [|y b] H; cbn in *; try reflexivity; try lia.
  rewrite N.lxor_assoc, N.lxor_nilpotent, N.lxor_0_r. f_equal. apply IH. lia.
Qed.

(* every chunk but the last is a whole block, the last has 1..16 bytes *)
Fixpoint shaped (l : list bytes) : Prop :=
  match l with
  | [] => True
  | c :: r => match r with
              | [] => (1 <= length c <= 16)%nat
              | _ => length c = 16%nat /\ shaped r
              end
  end.

Definition full (l : list bytes) : Prop := Forall (fun c => length c = 16%nat) l.

Lemma shaped_inv c r :
  shaped (c :: r) -> (1 <= length c <= 16)%nat /\ (r <> [] -> length c = 16%nat) /\ shaped r.
Proof.
  cbn [shaped]. destruct r; [intros H; repeat split; [lia..|congruence] | intros [H1 H2]; repeat split; auto; lia].
Qed.

Lemma concat_chunks_f n d : (length d <= n)%nat -> concat (chunks_f n d) = d.
Proof.
  revert d; induction n as [|n IH]; intros d H.
  - destruct d; [reflexivity | cbn in H; lia].
  - cbn [chunks_f]. destruct d as [|x d]; [reflexivity|].
    cbn [concat]. rewrite IH; [apply firstn_skipn|].
    rewrite skipn_length. cbn [length] in *. lia.
Qed.

Lemma concat_chunks d : concat (chunks d) = d.
Proof. apply concat_chunks_f. lia. Qed.

Lemma chunks_f_shaped n d : (length d <= n)%nat -> shaped (chunks_f n d).
Proof.
  revert d; induction n as [|n IH]; intros d H; [exact I|].
  cbn [chunks_f]. destruct d as [|x d]; [exact I|].
  assert (Hs : (length (skipn 16 (x :: d)) <= n)%nat) by (rewrite skipn_length; cbn [length] in *; lia).
  specialize (IH _ Hs).
  destruct (chunks_f n (skipn 16 (x :: d))) as [|c' r'] eqn:E.
  - cbn [shaped]. rewrite firstn_length. cbn [length]. lia.
  - cbn [shaped]. split; [|exact IH].
    rewrite firstn_length.
    destruct (Nat.le_gt_cases 16 (length (x :: d))) as [Hge|Hlt]; [lia|].
    (* fewer than 16 bytes: nothing is left, so there is no next chunk *)
    rewrite skipn_all2 in E by lia. destruct n; discriminate.
Qed.

Lemma chunks_shaped d : shaped (chunks d).
Proof. apply chunks_f_shaped. lia. Qed.

Lemma chunks_f_concat l : shaped l -> forall n, (length (concat l) <= n)%nat -> chunks_f n (concat l) = l.
Proof.
  induction l as [|c r IH]; intros Hs n Hn; [destruct n; reflexivity|].
  apply shaped_inv in Hs as (Hc & Hfull & Hr). cbn [concat] in *. rewrite app_length in Hn.
  destruct c as [|x c]; [cbn in Hc; lia|]. destruct n; [cbn in Hn; lia|].
  change (chunks_f (S n) ((x :: c) ++ concat r))
    with (firstn 16 ((x :: c) ++ concat r) :: chunks_f n (skipn 16 ((x :: c) ++ concat r))).
  destruct r as [|c2 r2].
  - cbn [concat]. rewrite app_nil_r, firstn_all2, skipn_all2 by lia. destruct n; reflexivity.
  - rewrite <- (Hfull ltac:(discriminate)) at 1 2.
    rewrite firstn_app_exact, skipn_app_exact. f_equal. apply IH; [exact Hr | lia].
Qed.

Lemma chunks_concat l : shaped l -> chunks (concat l) = l.
Proof. intros H. apply chunks_f_concat; [exact H | lia]. Qed.

(* a shaped list that adds up to whole blocks consists of whole blocks *)
Lemma shaped_full l : shaped l -> (length (concat l) mod 16 = 0)%nat -> full l.
Proof.
  induction l as [|c r IH]; intros Hs Hm; [constructor|].
  apply shaped_inv in Hs as (Hc & Hfull & Hr). cbn [concat] in Hm. rewrite app_length in Hm.
  destruct r as [|c' r].
  - rewrite Nat.add_0_r in Hm. repeat constructor.
    destruct (Nat.eq_dec (length c) 16) as [|Hne]; [assumption|]. rewrite Nat.mod_small in Hm by lia. lia.
  - specialize (Hfull ltac:(discriminate)). rewrite Hfull in Hm. constructor; [exact Hfull|]. apply IH; [exact Hr|].
    replace (16 + _)%nat with (length (concat (c' :: r)) + 1 * 16)%nat in Hm by lia.
    rewrite Nat.mod_add in Hm by discriminate. exact Hm.
Qed.

Lemma chunks_full d : (length d mod 16 = 0)%nat -> full (chunks d).
Proof. intros H. apply shaped_full; [apply chunks_shaped | rewrite concat_chunks; exact H]. Qed.

(* Shape and total length of a chunk list are functions of its chunk lengths, and every mode keeps those. *)
Lemma shaped_lengths l l' : map (@length N) l' = map (@length N) l -> shaped l -> shaped l'.
Proof.
  revert l'. induction l as [|c r IH]; intros [|c' r'] E Hs; try discriminate; [exact I|].
  injection E as Ec Er. cbn [shaped] in *. destruct r, r'; try discriminate; [lia|].
  destruct Hs as [Hc Hs]. split; [lia | apply IH; assumption].
Qed.

Lemma concat_lengths l l' : map (@length N) l' = map (@length N) l -> length (concat l') = length (concat l).
Proof.
  revert l'. induction l as [|c r IH]; intros [|c' r'] E; try discriminate; [reflexivity|].
  injection E as Ec Er. cbn [concat]. rewrite !app_length, Ec, (IH _ Er). reflexivity.
Qed.

(* the frame shared by the four modes: on the chunks of d the encoder keeps the chunk lengths and the decoder
   inverts it *)
Definition inverts_on (enc dec : list bytes -> list bytes) (l : list bytes) : Prop :=
  map (@length N) (enc l) = map (@length N) l /\ dec (enc l) = l.

Lemma chunkwise_roundtrip enc dec d :
  inverts_on enc dec (chunks d) -> concat (dec (chunks (concat (enc (chunks d))))) = d.
Proof.
  intros [Hlen Hinv]. rewrite chunks_concat by exact (shaped_lengths _ _ Hlen (chunks_shaped d)).
  rewrite Hinv. apply concat_chunks.
Qed.

Lemma chunkwise_length (enc : list bytes -> list bytes) d :
  map (@length N) (enc (chunks d)) = map (@length N) (chunks d) -> length (concat (enc (chunks d))) = length d.
Proof. intros Hlen. rewrite (concat_lengths _ _ Hlen), concat_chunks. reflexivity. Qed.

Lemma le_bytes_length n v : length (le_bytes n v) = n.
Proof. revert v; induction n; intros v; cbn; auto. Qed.

Lemma ctr_block_length fl iv i : length iv = 16%nat -> length (ctr_block fl iv i) = 16%nat.
Proof.
  intros H. destruct fl; unfold ctr_block, be_bytes;
    rewrite app_length, ?rev_length, le_bytes_length, ?firstn_length, ?skipn_length; lia.
Qed.

Section Modes.
  Variable E D : cipher.
  Hypothesis E_len : forall k b, length b = 16%nat -> length (E k b) = 16%nat.

  (* CFB: the next state is E of a ciphertext chunk, a whole block unless it is the last *)

  Lemma cfb_inverts k l : forall st, length st = 16%nat -> shaped l ->
    inverts_on (cfb_enc E k st) (cfb_dec E k st) l.
  Proof.
    induction l as [|p r IH]; intros st Hst Hs; [split; reflexivity|]. apply shaped_inv in Hs as (Hp & Hfull & Hr).
    unfold inverts_on. cbn [cfb_enc cfb_dec map]. rewrite xorb_length, xorb_cancel by lia.
    destruct r as [|q r]; [split; f_equal; lia|].
    destruct (IH (E k (xorb p st))) as [IHl IHd]; [|exact Hr|rewrite IHl, IHd; split; f_equal; lia].
    apply E_len. rewrite xorb_length, Hfull; [lia | discriminate].
  Qed.

  Theorem cfb_roundtrip k iv d :
    length iv = 16%nat -> cfb_decrypt E k iv (cfb_encrypt E k iv d) = d.
  Proof. intros Hiv. apply chunkwise_roundtrip, cfb_inverts; [apply E_len, Hiv | apply chunks_shaped]. Qed.

  Lemma cfb_encrypt_length k iv d : length iv = 16%nat -> length (cfb_encrypt E k iv d) = length d.
  Proof. intros Hiv. apply chunkwise_length, (cfb_inverts k); [apply E_len, Hiv | apply chunks_shaped]. Qed.

  Lemma ofb_inverts k l : forall st, length st = 16%nat -> shaped l ->
    inverts_on (ofb_run E k st) (ofb_run E k st) l.
  Proof.
    induction l as [|p r IH]; intros st Hst Hs; [split; reflexivity|]. apply shaped_inv in Hs as (Hp & _ & Hr).
    pose proof (E_len k st Hst) as He. destruct (IH _ He Hr) as [IHl IHd].
    unfold inverts_on. cbn [ofb_run map]. rewrite xorb_length, xorb_cancel, IHl, IHd by lia. split; f_equal; lia.
  Qed.

  Theorem ofb_roundtrip k iv d :
    length iv = 16%nat -> ofb_apply E k iv (ofb_apply E k iv d) = d.
  Proof. intros Hiv. apply chunkwise_roundtrip, ofb_inverts; [exact Hiv | apply chunks_shaped]. Qed.

  Lemma ofb_apply_length k iv d : length iv = 16%nat -> length (ofb_apply E k iv d) = length d.
  Proof. intros Hiv. apply chunkwise_length, (ofb_inverts k); [exact Hiv | apply chunks_shaped]. Qed.

  Lemma ctr_inverts fl k iv l : length iv = 16%nat -> forall i, shaped l ->
    inverts_on (ctr_run E fl k iv i) (ctr_run E fl k iv i) l.
  Proof.
    intros Hiv. induction l as [|p r IH]; intros i Hs; [split; reflexivity|]. apply shaped_inv in Hs as (Hp & _ & Hr).
    pose proof (E_len k _ (ctr_block_length fl iv i Hiv)) as He. destruct (IH (i + 1)%N Hr) as [IHl IHd].
    unfold inverts_on. cbn [ctr_run map]. rewrite xorb_length, xorb_cancel, IHl, IHd by lia. split; f_equal; lia.
  Qed.

  Theorem ctr_roundtrip fl k iv d :
    length iv = 16%nat -> ctr_apply E fl k iv (ctr_apply E fl k iv d) = d.
  Proof. intros Hiv. apply chunkwise_roundtrip, ctr_inverts; [exact Hiv | apply chunks_shaped]. Qed.

  Lemma ctr_apply_length fl k iv d : length iv = 16%nat -> length (ctr_apply E fl k iv d) = length d.
  Proof. intros Hiv. apply chunkwise_length, (ctr_inverts fl k iv); [exact Hiv | apply chunks_shaped]. Qed.

  Lemma cbc_enc_lengths k l : forall prev, length prev = 16%nat -> full l ->
    map (@length N) (cbc_enc E k prev l) = map (@length N) l.
  Proof.
    induction l as [|p r IH]; intros prev Hprev Hf; [reflexivity|]. inversion Hf as [|? ? Hp Hr]; subst.
    assert (Hx : length (E k (xorb p prev)) = 16%nat) by (apply E_len; rewrite xorb_length; lia).
    cbn [cbc_enc map]. rewrite Hx, Hp, (IH _ Hx Hr). reflexivity.
  Qed.

  Lemma cbc_encrypt_length k iv d :
    length iv = 16%nat -> (length d mod 16 = 0)%nat -> length (cbc_encrypt E k iv d) = length d.
  Proof. intros Hiv Hd. apply chunkwise_length, cbc_enc_lengths; [exact Hiv | apply chunks_full, Hd]. Qed.

  Hypothesis block_inv : forall k b, length b = 16%nat -> D k (E k b) = b.

  Lemma cbc_dec_enc k l : forall prev, length prev = 16%nat -> full l ->
    cbc_dec D k prev (cbc_enc E k prev l) = l.
  Proof.
    induction l as [|p r IH]; intros prev Hprev Hf; [reflexivity|]. inversion Hf as [|? ? Hp Hr]; subst.
    assert (Hx : length (xorb p prev) = 16%nat) by (rewrite xorb_length; lia).
    cbn [cbc_enc cbc_dec]. rewrite block_inv, xorb_cancel, IH by (auto; lia). reflexivity.
  Qed.

  Theorem cbc_roundtrip k iv d :
    length iv = 16%nat -> (length d mod 16 = 0)%nat -> cbc_decrypt D k iv (cbc_encrypt E k iv d) = d.
  Proof.
    intros Hiv Hd. pose proof (chunks_full d Hd) as Hf.
    apply chunkwise_roundtrip. split; [apply cbc_enc_lengths | apply cbc_dec_enc]; assumption.
  Qed.
End Modes.
