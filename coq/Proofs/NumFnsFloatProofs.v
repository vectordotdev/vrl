(* Facts about the numeric functions that need the real-number semantics of binary64 multiplication, division and
   `i64 as f64`: obtained from Flocq 4.1 (BinarySingleNaN.Bmult_correct, Bdiv_correct, binary_normalize_correct) through the
   SpecFloat <-> Flocq bridge (B2SF / SF2B, PrimFloat.binary_round_aux_equiv).
   These lemmas depend on the four axioms of Coq's classical real numbers that Flocq uses
   (ClassicalDedekindReals.sig_not_dec, sig_forall_dec, functional_extensionality_dep, Classical_Prop.classic). *)
From Coq Require Import ZArith Reals Lia Lra Floats SpecFloat Bool.
From Flocq Require Import Core.Core IEEE754.BinarySingleNaN IEEE754.PrimFloat.
From VRL Require Import Base.Bytes Base.Value Model.ConvRes Model.Arith Model.NumFns.
From VRL Require Import Proofs.ArithProofs Proofs.ArithFloatProofs Proofs.NumFnsProofs.
Local Open Scope Z_scope.

Local Existing Instance Hprec.
Local Existing Instance Hmax.
Notation bf := (binary_float prec emax).
Notation R_of := (SF2R radix2).

Lemma f_mul_B (x y : bf) : f_mul (B2SF x) (B2SF y) = B2SF (Bmult mode_NE x y).
Proof.
  destruct x as [sx|sx| |sx mx ex Bx]; destruct y as [sy|sy| |sy my ey By]; try reflexivity.
  unfold f_mul. cbn [B2SF SFmul Bmult]. rewrite B2SF_SF2B. apply binary_round_aux_equiv.
Qed.

Lemma f_div_B (x y : bf) : f_div (B2SF x) (B2SF y) = B2SF (Bdiv mode_NE x y).
Proof.
  destruct x as [sx|sx| |sx mx ex Bx]; destruct y as [sy|sy| |sy my ey By]; try reflexivity.
  unfold f_div. cbn [B2SF SFdiv Bdiv]. rewrite B2SF_SF2B.
  set (melz := SFdiv_core_binary _ _ _ _ _ _). destruct melz as [[mz ez] lz].
  apply binary_round_aux_equiv.
Qed.

(* every valid datum is the image of a Flocq float *)
Lemma valid_is_B (x : spec_float) : valid_binary prec emax x = true -> exists b : bf, x = B2SF b.
Proof. intros H. exists (SF2B x H). symmetry. apply B2SF_SF2B. Qed.

Lemma f_mul_valid x w : valid_binary prec emax x = true -> valid_binary prec emax w = true ->
  valid_binary prec emax (f_mul x w) = true.
Proof.
  intros Hx Hw. destruct (valid_is_B x Hx) as (bx & ->). destruct (valid_is_B w Hw) as (bw & ->).
  rewrite f_mul_B. apply valid_binary_B2SF.
Qed.

(* Bdiv_correct read on SpecFloat data: a finite quotient is the rounded real quotient *)
Lemma f_div_R a w : valid_binary prec emax a = true -> valid_binary prec emax w = true -> R_of w <> 0%R ->
  f_is_finite (f_div a w) = true -> R_of (f_div a w) = rnd (R_of a / R_of w).
Proof.
  intros Ha Hw. destruct (valid_is_B a Ha) as (ba & ->). destruct (valid_is_B w Hw) as (bw & ->).
  rewrite f_div_B, !SF2R_B2SF. intros Hw0 Hf.
  pose proof (Bdiv_correct prec emax Hprec Hmax mode_NE ba bw Hw0) as H.
  destruct (Rlt_bool (Rabs (rnd (B2R ba / B2R bw))) (bpow radix2 emax)); [apply H|].
  rewrite H in Hf. unfold binary_overflow in Hf. cbn in Hf. discriminate.
Qed.

Definition B1 : bf := SF2B f_one (eq_refl : valid_binary prec emax f_one = true).

Lemma B1_R : B2R B1 = 1%R.
Proof.
  unfold B1. rewrite B2R_SF2B. unfold f_one, SF2R, F2R. cbn [cond_Zopp Fnum Fexp].
  change (bpow radix2 (-52)) with (/ IZR (Z.pow_pos 2 52))%R.
  change (Z.pow_pos 2 52) with 4503599627370496. field.
Qed.

Lemma round_B2R (b : bf) : rnd (B2R b) = B2R b.
Proof. apply round_generic. apply valid_rnd_round_mode. apply generic_format_B2R. Qed.

(* a finite result with the value and the sign of b is b *)
Lemma value_sign_inj (b r : bf) : is_finite b = true -> B2R r = B2R b -> is_finite r = true ->
  (is_nan r = false -> Bsign r = Bsign b) -> r = b.
Proof.
  intros Hf HR HF HS. apply B2R_Bsign_inj; auto.
  apply HS. destruct r; cbn in *; congruence.
Qed.

Lemma Bmult_one (b : bf) : is_finite b = true -> Bmult mode_NE b B1 = b.
Proof.
  intros Hf. pose proof (Bmult_correct prec emax Hprec Hmax mode_NE b B1) as H.
  rewrite B1_R, Rmult_1_r, round_B2R, Rlt_bool_true in H by apply abs_B2R_lt_emax.
  destruct H as (HR & HF & HS). apply (value_sign_inj b _ Hf HR); [rewrite HF, Hf; reflexivity|].
  intros N. rewrite (HS N). apply xorb_false_r. (* the sign of 1.0 is false *)
Qed.

Lemma Bdiv_one (b : bf) : is_finite b = true -> Bdiv mode_NE b B1 = b.
Proof.
  intros Hf. pose proof (Bdiv_correct prec emax Hprec Hmax mode_NE b B1) as H.
  rewrite B1_R in H. specialize (H ltac:(lra)).
  unfold Rdiv in H. rewrite Rinv_1, Rmult_1_r, round_B2R, Rlt_bool_true in H by apply abs_B2R_lt_emax.
  destruct H as (HR & HF & HS). apply (value_sign_inj b _ Hf HR); [rewrite HF, Hf; reflexivity|].
  intros N. rewrite (HS N). apply xorb_false_r. (* the sign of 1.0 is false *)
Qed.

(* x * 1.0 = x and x / 1.0 = x, bit for bit, for every binary64 datum (NaN included) *)
Lemma f_one_unit x : valid_binary prec emax x = true -> f_mul x f_one = x /\ f_div x f_one = x.
Proof.
  intros Hv. destruct (valid_is_B x Hv) as (b & ->).
  destruct (is_finite b) eqn:Hf.
  - change f_one with (B2SF B1). rewrite f_mul_B, f_div_B, Bmult_one, Bdiv_one by exact Hf. split; reflexivity.
  - destruct b as [s|s| |s m e Hb]; try discriminate; split; try reflexivity; cbn; destruct s; reflexivity.
Qed.

Section PrecisionZero.
  Variable pow10 : Z -> spec_float.
  Hypothesis pow10_0 : pow10 0 = f_one.          (* powf(10.0, 0.0) = 1.0 *)

  Lemma round_to_precision_0 k x : valid_binary prec emax x = true ->
    round_to_precision pow10 x 0 k = f_rint k x.
  Proof.
    intros Hv. unfold round_to_precision. rewrite pow10_0.
    rewrite (proj1 (f_one_unit x Hv)). apply f_one_unit, f_rint_valid, Hv.
  Qed.

  Theorem round_fn_0 k x : valid_binary prec emax x = true -> f_is_nan x = false ->
    round_fn pow10 k (VFloat x) None = ROk (VFloat (f_rint k x))
    /\ round_fn pow10 k (VFloat x) (Some (VInt 0)) = ROk (VFloat (f_rint k x)).
  Proof.
    intros Hv Hn. unfold round_fn. rewrite round_to_precision_0 by exact Hv. rewrite or_zero_id; [split; reflexivity|].
    destruct x as [s|s| |s m e]; try exact Hn.
    pose proof (f_rint_finite k _ Hv eq_refl) as H. destruct (f_rint k _); try discriminate; reflexivity.
  Qed.
End PrecisionZero.

(* x = M 2^e for x = (s, m, e), 0 <= e, M = +-m *)
Lemma R_of_int s m e : 0 <= e -> R_of (S754_finite s m e) = IZR (cond_Zopp s (Zpos m) * 2 ^ e).
Proof. intros He. rewrite mult_IZR, (IZR_Zpower radix2) by exact He. reflexivity. Qed.

(* x * D = M for x = (s, m, e), e < 0, D = 2^(-e), M = +-m *)
Lemma R_of_scaled s m e : e < 0 -> (R_of (S754_finite s m e) * IZR (2 ^ (- e)) = IZR (cond_Zopp s (Zpos m)))%R.
Proof.
  intros He. unfold SF2R, F2R. cbn [Fnum Fexp]. rewrite (IZR_Zpower radix2), Rmult_assoc, <- bpow_plus by lia.
  replace (e + - e) with 0 by lia. cbn [bpow]. ring.
Qed.

Lemma f_to_i64_of_real (b : bf) z : is_finite b = true -> B2R b = IZR z -> Z.abs z <= 2 ^ 53 ->
  f_to_i64 (B2SF b) = z.
Proof.
  intros Hf HR Hz. destruct b as [s|s| |s m e Hb]; try discriminate.
  - cbn in HR. cbn. apply eq_IZR in HR. congruence.
  - cbn [B2SF f_to_i64]. unfold i64_min, i64_max. destruct (Z.leb_spec 0 e) as [He|He].
    + change (R_of (S754_finite s m e) = IZR z) in HR. rewrite R_of_int in HR by exact He. apply eq_IZR in HR.
      destruct s; cbn [cond_Zopp] in HR; lia.
    + pose proof (R_of_scaled s m e He) as HR'. change (R_of (S754_finite s m e)) with (B2R (B754_finite s m e Hb)) in HR'.
      rewrite HR, <- mult_IZR in HR'. apply eq_IZR in HR'.
      assert (0 < 2 ^ (- e)) by (apply Z.pow_pos_nonneg; lia).
      destruct s; cbn [cond_Zopp] in HR'.
      * assert (Zpos m = (- z) * 2 ^ (- e)) as -> by lia. rewrite Z.div_mul by lia. lia.
      * rewrite <- HR'. rewrite Z.div_mul by lia. lia.
Qed.

Theorem to_int_to_float z : Z.abs z <= 2 ^ 53 ->
  exists f, to_float (VInt z) = ROk (VFloat f) /\ to_int (VFloat f) = ROk (VInt z).
Proof.
  intros Hz. destruct (Bof_exact z Hz) as [HR HF].
  exists (of_i64 z). split.
  - unfold to_float. rewrite (or_zero_id _ (of_i64_not_nan z)). reflexivity.
  - unfold to_int. rewrite of_i64_Bof. rewrite (f_to_i64_of_real (Bof z) z HF HR Hz). reflexivity.
Qed.
