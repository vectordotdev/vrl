(* Whole messages through the wire (Model/Proto.v): decoding what the encoder wrote gives back the dynamic
   message, normalised the way presence works (`canon`: fields without presence holding their default are
   absent, recursively) — scalars of all kinds, packed and unpacked repeated fields, embedded messages to any
   depth, maps.  Induction on the nesting fuel. *)
From Coq Require Import List NArith ZArith Bool Arith Lia.
From VRL Require Import Base.Bytes Model.Proto Proofs.ProtoWireProofs Proofs.ProtoScalarProofs.
Import ListNotations.

Local Open Scope N_scope.

Fixpoint increasing (lo : N) (d : msgdesc) : Prop :=
  match d with
  | [] => True
  | f :: r => lo < f_num f /\ f_num f < 2 ^ 29 /\ increasing (f_num f) r
  end.
(* MessageDescriptor::fields(): strictly increasing field numbers in 1 .. 2^29-1 *)
Definition wf_desc (d : msgdesc) : Prop := increasing 0 d.

Lemma increasing_weaken lo lo' d : lo' <= lo -> increasing lo d -> increasing lo' d.
Proof. destruct d as [|f r]; cbn; [tauto|]. intros H (H1 & H2 & H3). repeat split; try assumption. lia. Qed.

Lemma increasing_in lo d f : increasing lo d -> In f d -> lo < f_num f < 2 ^ 29.
Proof.
  revert lo; induction d as [|g r IH]; intros lo H Hin; [destruct Hin|].
  destruct H as (H1 & H2 & H3), Hin as [->|Hin]; [lia|]. specialize (IH _ H3 Hin). lia.
Qed.

Lemma find_field_none d num : Forall (fun f => f_num f <> num) d -> find_field d num = None.
Proof.
  induction 1 as [|f r Hf Hr IH]; [reflexivity|]. cbn [find_field].
  rewrite (proj2 (N.eqb_neq _ _) Hf). exact IH.
Qed.

Lemma find_field_in lo d f : increasing lo d -> In f d -> find_field d (f_num f) = Some f.
Proof.
  revert lo; induction d as [|g r IH]; intros lo H Hin; [destruct Hin|].
  destruct H as (H1 & H2 & H3). cbn [find_field]. destruct Hin as [->|Hin]; [rewrite N.eqb_refl; reflexivity|].
  pose proof (increasing_in _ _ _ H3 Hin). rewrite (proj2 (N.eqb_neq _ _)) by lia. exact (IH _ H3 Hin).
Qed.

Definition all_lt (n : N) (m : dmsg) : Prop := Forall (fun e => fst e < n) m.

(* what a message holds under one field number *)
Definition slot (n : N) (o : option pval) : dmsg := match o with Some v => [(n, v)] | None => [] end.

Lemma all_lt_weaken n n' m : n <= n' -> all_lt n m -> all_lt n' m.
Proof. intros H. apply Forall_impl. intros a Ha. lia. Qed.

Lemma all_lt_slot n n' m o : n < n' -> all_lt n m -> all_lt n' (m ++ slot n o).
Proof.
  intros H Hm. apply Forall_app. split; [eapply all_lt_weaken; [|exact Hm]; lia|].
  destruct o; repeat constructor. exact H.
Qed.

Lemma dm_get_app (l1 l2 : dmsg) n :
  dm_get (l1 ++ l2) n = match dm_get l1 n with Some v => Some v | None => dm_get l2 n end.
Proof.
  induction l1 as [|[k v] r IH]; [reflexivity|]. cbn [app dm_get]. destruct (k =? n); [reflexivity | exact IH].
Qed.

Lemma dm_get_slot_other n o n' : n <> n' -> dm_get (slot n o) n' = None.
Proof. intros H. destruct o; [|reflexivity]. cbn. rewrite (proj2 (N.eqb_neq _ _) H). reflexivity. Qed.

Lemma dm_get_none n m : all_lt n m -> dm_get m n = None.
Proof.
  induction 1 as [|[k v] r Hk Hr IH]; [reflexivity|]. cbn [dm_get]. cbn in Hk.
  rewrite (proj2 (N.eqb_neq _ _)) by lia. exact IH.
Qed.

Lemma dm_get_slot n m o : all_lt n m -> dm_get (m ++ slot n o) n = o.
Proof. intros H. rewrite dm_get_app, (dm_get_none n m H). destruct o; cbn; [rewrite N.eqb_refl|]; reflexivity. Qed.

Lemma dm_set_slot n m o v : all_lt n m -> dm_set (m ++ slot n o) n v = m ++ [(n, v)].
Proof.
  induction 1 as [|[k x] r Hk Hr IH]; cbn [app dm_set].
  - destruct o; cbn; rewrite ?N.eqb_refl; reflexivity.
  - cbn in Hk. rewrite (proj2 (N.eqb_neq _ _)), (proj2 (N.ltb_ge _ _)), IH by lia. reflexivity.
Qed.

Lemma dm_set_append n m v : all_lt n m -> dm_set m n v = m ++ [(n, v)].
Proof. intros H. rewrite <- (app_nil_r m) at 1. exact (dm_set_slot n m None v H). Qed.

(* a message written field by field, in the order of the descriptor *)
Definition build (g : field -> option pval) (d : msgdesc) : dmsg := flat_map (fun f => slot (f_num f) (g f)) d.

Lemma build_get_below g lo d n : increasing lo d -> n <= lo -> dm_get (build g d) n = None.
Proof.
  revert lo. induction d as [|h r IH]; intros lo Hinc Hn; [reflexivity|].
  destruct Hinc as (H1 & H2 & H3). cbn [build flat_map]. rewrite dm_get_app, dm_get_slot_other by lia.
  apply (IH (f_num h)); [exact H3 | lia].
Qed.

Lemma build_get g lo d f : increasing lo d -> In f d -> dm_get (build g d) (f_num f) = g f.
Proof.
  revert lo. induction d as [|h r IH]; intros lo Hinc Hin; [contradiction|].
  destruct Hinc as (H1 & H2 & H3). cbn [build flat_map]. rewrite dm_get_app. destruct Hin as [->|Hin].
  - destruct (g f); cbn [slot dm_get]; [rewrite N.eqb_refl; reflexivity|].
    apply (build_get_below g (f_num f) r); [exact H3 | lia].
  - pose proof (increasing_in _ _ _ H3 Hin). rewrite dm_get_slot_other by lia. exact (IH _ H3 Hin).
Qed.

(* a pass over the fields in which every field, finding only smaller numbers set, adds its own slot *)
Lemma fold_in_order (stp : pres dmsg -> field -> pres dmsg) g : forall d lo acc,
  increasing lo d -> all_lt (lo + 1) acc ->
  (forall f acc, In f d -> all_lt (f_num f) acc -> stp (POk acc) f = POk (acc ++ slot (f_num f) (g f))) ->
  fold_left stp d (POk acc) = POk (acc ++ build g d).
Proof.
  induction d as [|f d IH]; intros lo acc Hinc Hacc Hstp; cbn [fold_left build flat_map].
  - rewrite app_nil_r. reflexivity.
  - destruct Hinc as (H1 & H2 & H3).
    rewrite Hstp by (now left) || (eapply all_lt_weaken; [|exact Hacc]; lia).
    rewrite (IH (f_num f)), <- app_assoc; [reflexivity | exact H3 | |].
    + apply all_lt_slot; [lia|]. eapply all_lt_weaken; [|exact Hacc]. lia.
    + intros g' acc' Hin. apply Hstp. right. exact Hin.
Qed.

Lemma fold_left_flat_map {A B C} (f : A -> C -> A) (h : B -> list C) l : forall a,
  fold_left f (flat_map h l) a = fold_left (fun a x => fold_left f (h x) a) l a.
Proof. induction l as [|x l IH]; intros a; cbn [flat_map fold_left]; [reflexivity|]. rewrite fold_left_app. apply IH. Qed.

Lemma fold_left_pbind_err {A B} (f : pres A -> B -> pres A) (l : list B) :
  (forall b, f PErr b = PErr) -> fold_left f l PErr = PErr.
Proof. intros H. induction l as [|b l IH]; [reflexivity|]. cbn. rewrite H. exact IH. Qed.

Lemma map_insert_append pre k v :
  Forall (fun e : pval * pval => pval_key_eqb (fst e) k = false) pre -> map_insert pre k v = pre ++ [(k, v)].
Proof.
  induction 1 as [|[k' v'] r Hk Hr IH]; [reflexivity|]. cbn [map_insert app]. cbn [fst] in Hk.
  rewrite Hk, IH. reflexivity.
Qed.

(* a repeated or map field is absent until its first element arrives *)
Definition nonempty {A} (c : list A -> pval) (l : list A) : option pval :=
  match l with [] => None | _ => Some (c l) end.

Lemma nonempty_snoc {A} (c : list A -> pval) l x : nonempty c (l ++ [x]) = Some (c (l ++ [x])).
Proof. destruct l; reflexivity. Qed.

Section Msg.
  Variable P : pool.
  Hypothesis wf_pool : forall i, wf_desc (get_msg P i).

  Definition canon_scalar (cn : msgdesc -> dmsg -> dmsg) (k : skind) (v : pval) : pval :=
    match k, v with
    | KMsg i, PMsg fs => PMsg (cn (get_msg P i) fs)
    | _, _ => v
    end.

  Definition canon_field (cn : msgdesc -> dmsg -> dmsg) (f : field) (v : pval) : pval :=
    match f_card f, v with
    | CRepeated _, PList l => PList (map (canon_scalar cn (f_kind f)) l)
    | CMap _ _ _, PMap l => PMap (map (fun kv : pval * pval => (fst kv, canon_scalar cn (f_kind f) (snd kv))) l)
    | _, _ => canon_scalar cn (f_kind f) v
    end.

  Definition canon_entry (cn : msgdesc -> dmsg -> dmsg) (m : dmsg) (f : field) : dmsg :=
    match dm_get m (f_num f) with
    | Some v => if has_value f v then [(f_num f, canon_field cn f v)] else []
    | None => []
    end.

  (* the message as the decoder rebuilds it: only the fields that `has`, in field-number order *)
  Fixpoint canon (fuel : nat) (d : msgdesc) (m : dmsg) : dmsg :=
    match fuel with
    | O => []
    | S fu => flat_map (canon_entry (canon fu) m) d
    end.

  Definition wt_scalar (wt : msgdesc -> dmsg -> Prop) (k : skind) (v : pval) : Prop :=
    match k, v with
    | KMsg i, PMsg fs => wt (get_msg P i) fs
    | KMsg _, _ => False
    | _, _ => wt_plain k v
    end.

  (* the keys of a map: integers, bool or string, pairwise different *)
  Definition is_key_kind (k : skind) : Prop :=
    match k with
    | KDouble | KFloat | KBytes | KEnum _ _ | KMsg _ => False
    | _ => True
    end.

  Fixpoint keys_distinct (l : list (pval * pval)) : Prop :=
    match l with
    | [] => True
    | (k, _) :: r => Forall (fun kv => pval_key_eqb k (fst kv) = false) r /\ keys_distinct r
    end.

  Definition wt_field (em : msgdesc -> dmsg -> bytes) (wt : msgdesc -> dmsg -> Prop) (f : field) (v : pval) : Prop :=
    match f_card f with
    | CSingular _ => wt_scalar wt (f_kind f) v
    | CRepeated packed =>
        exists l, v = PList l /\ Forall (wt_scalar wt (f_kind f)) l
                  /\ (packed = true -> is_packable (f_kind f) = true
                                       /\ len_ok (concat (map (enc_packed_elem (f_kind f)) l)))
    | CMap kk kpres vpres =>
        exists l, v = PMap l /\ is_key_kind kk /\ keys_distinct l
                  /\ Forall (fun kv : pval * pval =>
                               wt_plain kk (fst kv) /\ wt_scalar wt (f_kind f) (snd kv)
                               /\ (vpres = false -> is_default_scalar (f_kind f) (snd kv) = true ->
                                   snd kv = default_of (f_kind f))
                               /\ len_ok (enc_entry P em kk kpres (f_kind f) vpres kv)) l
    end.

  (* every stored value fits its field; embedded messages likewise, and their encodings fit a length prefix *)
  Fixpoint wt_msg (fuel : nat) (d : msgdesc) (m : dmsg) : Prop :=
    match fuel with
    | O => False
    | S fu =>
        Forall (fun f => match dm_get m (f_num f) with
                         | Some v => wt_field (enc_msg P fu)
                                              (fun d' m' => wt_msg fu d' m' /\ len_ok (enc_msg P fu d' m')) f v
                         | None => True
                         end) d
    end.

  Definition canon_of (cn : msgdesc -> dmsg -> dmsg) (m : dmsg) (f : field) : option pval :=
    match dm_get m (f_num f) with
    | Some v => if has_value f v then Some (canon_field cn f v) else None
    | None => None
    end.

  Lemma canon_entry_slot cn m f : canon_entry cn m f = slot (f_num f) (canon_of cn m f).
  Proof. unfold canon_entry, canon_of. destruct (dm_get m (f_num f)) as [v|]; [destruct (has_value f v)|]; reflexivity. Qed.

  Lemma canon_build fuel d m : canon (S fuel) d m = build (canon_of (canon fuel) m) d.
  Proof. apply flat_map_ext. intros f. apply canon_entry_slot. Qed.

  Lemma canon_nil fuel d : canon fuel d [] = [].
  Proof. destruct fuel; [reflexivity|]. induction d as [|f r IH]; [reflexivity | exact IH]. Qed.

  Lemma keys_distinct_snoc l kv :
    keys_distinct (l ++ [kv]) ->
    keys_distinct l /\ Forall (fun e : pval * pval => pval_key_eqb (fst e) (fst kv) = false) l.
  Proof.
    induction l as [|[k v] l IH]; cbn [app keys_distinct]; intros H; [split; constructor|]. destruct H as [H1 H2].
    apply Forall_app in H1. destruct H1 as [H1 Hk], (IH H2) as [IH1 IH2].
    split; [split; assumption | constructor; [exact (Forall_inv Hk) | exact IH2]].
  Qed.

  Lemma key_kind_not_msg k : is_key_kind k -> is_msg_kind k = false.
  Proof. destruct k; try reflexivity; contradiction. Qed.

  Lemma key_default k v : is_key_kind k -> wt_plain k v -> is_default_scalar k v = true -> v = default_of k.
  Proof.
    intros Hk Hw Hd. destruct k; try contradiction; destruct v; try contradiction; cbn in Hd |- *.
    all: try (apply Z.eqb_eq in Hd; subst; reflexivity).
    - destruct b; [discriminate | reflexivity].
    - destruct s; [reflexivity | discriminate].
  Qed.

  (* a field without presence is written exactly when it does not hold its default *)
  Lemma has_value_singular nm n k pres v :
    has_value (mkField nm n k (CSingular pres)) v = false -> pres = false /\ is_default_scalar k v = true.
  Proof. unfold has_value. cbn. destruct pres; [discriminate|]. intros H. apply negb_false_iff in H. auto. Qed.

  Lemma optional_record_wf (b : bool) n w : 1 <= n < 2 ^ 29 -> wf_wval w -> Forall wf_record (if b then [(n, w)] else []).
  Proof. intros Hn Hw. destruct b; repeat constructor; cbn [fst snd]; (lia || exact Hw). Qed.

  Section Level.
    Variable em : msgdesc -> dmsg -> bytes.
    Variable mm : msgdesc -> dmsg -> bytes -> pres dmsg.
    Variable cn : msgdesc -> dmsg -> dmsg.
    Variable wt : msgdesc -> dmsg -> Prop.
    Hypothesis below : forall i m', wt (get_msg P i) m' ->
      len_ok (em (get_msg P i) m') /\ mm (get_msg P i) [] (em (get_msg P i) m') = POk (cn (get_msg P i) m').
    Hypothesis cn_nil : forall d, cn d [] = [].

    Lemma canon_scalar_plain k v : is_msg_kind k = false -> canon_scalar cn k v = v.
    Proof. destruct k; try discriminate; reflexivity. Qed.

    Lemma wt_scalar_plain k v : is_msg_kind k = false -> wt_scalar wt k v = wt_plain k v.
    Proof. destruct k; try discriminate; reflexivity. Qed.

    Lemma canon_default k : canon_scalar cn k (default_of k) = default_of k.
    Proof. destruct k; try reflexivity. cbn. rewrite cn_nil. reflexivity. Qed.

    (* a value is never mistaken for a packed payload: a packable kind does not use wire type 2 *)
    Lemma value_roundtrip k v cur :
      wt_scalar wt k v -> (cur = None \/ cur = Some (default_of k)) ->
      exists w, enc_scalar P em k v = Some w /\ wf_wval w
                /\ dec_value P mm k cur w = POk (canon_scalar cn k v)
                /\ (is_packable k = true -> forall b, w <> WLen b).
    Proof.
      intros Hwt Hcur. destruct (is_msg_kind k) eqn:Ek.
      - destruct k; try discriminate. destruct v; cbn [wt_scalar] in Hwt; try contradiction.
        destruct (below idx fs Hwt) as [Hlen Hdec].
        exists (WLen (em (get_msg P idx) fs)). split; [reflexivity|]. split; [exact Hlen|]. split; [|discriminate].
        cbn [dec_value expect_len pbind canon_scalar].
        replace (match cur with Some (PMsg fs0) => fs0 | _ => [] end) with (@nil (N * pval))
          by (destruct Hcur as [->| ->]; reflexivity).
        rewrite Hdec. reflexivity.
      - rewrite wt_scalar_plain in Hwt by exact Ek. destruct (plain_roundtrip P em k v Ek Hwt) as (w & He & Hw & Hd).
        exists w. split; [exact He|]. split; [exact Hw|]. rewrite canon_scalar_plain by exact Ek. split.
        + destruct k; try discriminate; exact Hd.
        + intros Hpack b ->. destruct (packed_elem_wire P em k v _ Hpack He) as [Hwt' _].
          exact (packed_wt_not_len k (eq_sym Hwt')).
    Qed.

    Definition map_entry_ok (vk kk : skind) (kpres vpres : bool) (kv : pval * pval) : Prop :=
      wt_plain kk (fst kv) /\ wt_scalar wt vk (snd kv)
      /\ (vpres = false -> is_default_scalar vk (snd kv) = true -> snd kv = default_of vk)
      /\ len_ok (enc_entry P em kk kpres vk vpres kv).

    Lemma entry_roundtrip kk kpres vk vpres kv :
      is_key_kind kk -> map_entry_ok vk kk kpres vpres kv ->
      exists rs, parse_records (enc_entry P em kk kpres vk vpres kv) = POk rs
                 /\ fold_left (entry_step P mm kk vk) rs (POk (default_of kk, default_of vk))
                    = POk (fst kv, canon_scalar cn vk (snd kv)).
    Proof.
      intros Hkk (Hk & Hv & Hdef & _). destruct kv as [k v]. cbn [fst snd] in *.
      destruct (plain_roundtrip P em kk k (key_kind_not_msg kk Hkk) Hk) as (wk & Hek & Hwk & Hdk).
      destruct (value_roundtrip vk v (Some (default_of vk)) Hv (or_intror eq_refl)) as (wv & Hev & Hwv & Hdv & _).
      unfold enc_entry. cbn [fst snd]. rewrite Hek, Hev. cbn [rec_of]. eexists. split.
      - apply records_roundtrip. apply Forall_app.
        split; apply optional_record_wf; (cbn; lia) || assumption.
      - set (krec := if has_value _ k then _ else _).
        assert (Hkey : fold_left (entry_step P mm kk vk) krec (POk (default_of kk, default_of vk)) = POk (k, default_of vk)).
        { unfold krec. destruct (has_value _ k) eqn:Ek; cbn [fold_left entry_step pbind fst snd N.eqb Pos.eqb].
          - rewrite Hdk. reflexivity.
          - destruct (has_value_singular _ _ _ _ _ Ek) as [_ Ed]. rewrite (key_default kk k Hkk Hk Ed). reflexivity. }
        rewrite fold_left_app, Hkey.
        destruct (has_value _ v) eqn:Ev; cbn [fold_left entry_step pbind fst snd N.eqb Pos.eqb].
        + rewrite Hdv. reflexivity.
        + destruct (has_value_singular _ _ _ _ _ Ev) as [Ep Ed]. rewrite (Hdef Ep Ed), canon_default. reflexivity.
    Qed.

    Variable D : msgdesc.
    Hypothesis wfD : wf_desc D.

    (* the field being read: its records come when only smaller numbers are set *)
    Section Field.
      Variable f : field.
      Variable acc : dmsg.
      Hypothesis Hf : In f D.
      Hypothesis Hacc : all_lt (f_num f) acc.

      Lemma step_slot cur w v :
        merge_field P mm f cur w = POk v ->
        msg_step P mm D (POk (acc ++ slot (f_num f) cur)) (f_num f, w) = POk (acc ++ [(f_num f, v)]).
      Proof.
        intros Hm. unfold msg_step. cbn [pbind fst snd].
        rewrite (find_field_in 0 D f wfD Hf), dm_get_slot, Hm by exact Hacc. cbn [pbind].
        rewrite dm_set_slot by exact Hacc. reflexivity.
      Qed.

      Lemma step_fresh w v :
        merge_field P mm f None w = POk v ->
        msg_step P mm D (POk acc) (f_num f, w) = POk (acc ++ [(f_num f, v)]).
      Proof. intros Hm. rewrite <- (app_nil_r acc) at 1. exact (step_slot None w v Hm). Qed.

      Lemma field_record_wf w : wf_wval w -> wf_record (f_num f, w).
      Proof. intros Hw. pose proof (increasing_in 0 D f wfD Hf). repeat split; cbn [fst snd]; (lia || exact Hw). Qed.

      (* unpacked repeated field: one record per element, each appended to what the earlier ones left *)
      Lemma repeated_fold p l : f_card f = CRepeated p -> Forall (wt_scalar wt (f_kind f)) l ->
        fold_left (msg_step P mm D) (flat_map (fun x => rec_of (f_num f) (enc_scalar P em (f_kind f) x)) l) (POk acc)
        = POk (acc ++ slot (f_num f) (nonempty PList (map (canon_scalar cn (f_kind f)) l)))
        /\ Forall wf_record (flat_map (fun x => rec_of (f_num f) (enc_scalar P em (f_kind f) x)) l).
      Proof.
        intros Hc. induction l as [|x l IH] using rev_ind; intros Hwt.
        - cbn. rewrite app_nil_r. split; [reflexivity | constructor].
        - apply Forall_app in Hwt. destruct Hwt as [Hl Hx]. destruct (IH Hl) as [IH1 IH2].
          destruct (value_roundtrip (f_kind f) x None (Forall_inv Hx) (or_introl eq_refl)) as (w & He & Hw & Hd & Hnl).
          rewrite flat_map_app, fold_left_app, IH1, map_app. cbn [map flat_map]. rewrite nonempty_snoc, He. cbn [rec_of app fold_left].
          split; [|apply Forall_app; split; [exact IH2 | constructor; [exact (field_record_wf w Hw) | constructor]]].
          apply step_slot. unfold merge_field. rewrite Hc.
          replace (match nonempty PList _ with Some (PList l') => l' | _ => [] end)
            with (map (canon_scalar cn (f_kind f)) l) by (destruct l; reflexivity).
          destruct w as [n|b|b|b]; try (rewrite Hd; reflexivity).
          destruct (is_packable (f_kind f)) eqn:Ep; [exfalso; exact (Hnl eq_refl b eq_refl)|].
          rewrite Hd. reflexivity.
      Qed.

      Definition canon_kv (kv : pval * pval) : pval * pval := (fst kv, canon_scalar cn (f_kind f) (snd kv)).

      (* map field: one record per entry; the keys differ, so each is added *)
      Lemma map_fold kk kpres vpres l : f_card f = CMap kk kpres vpres -> is_key_kind kk ->
        Forall (map_entry_ok (f_kind f) kk kpres vpres) l -> keys_distinct l ->
        fold_left (msg_step P mm D) (map (fun kv => (f_num f, WLen (enc_entry P em kk kpres (f_kind f) vpres kv))) l) (POk acc)
        = POk (acc ++ slot (f_num f) (nonempty PMap (map canon_kv l)))
        /\ Forall wf_record (map (fun kv => (f_num f, WLen (enc_entry P em kk kpres (f_kind f) vpres kv))) l).
      Proof.
        intros Hc Hkk. induction l as [|kv l IH] using rev_ind; intros Hok Hd.
        - cbn. rewrite app_nil_r. split; [reflexivity | constructor].
        - apply Forall_app in Hok. destruct Hok as [Hl Hkv]. apply Forall_inv in Hkv.
          apply keys_distinct_snoc in Hd. destruct Hd as [Hd Hnew], (IH Hl Hd) as [IH1 IH2].
          destruct (entry_roundtrip kk kpres (f_kind f) vpres kv Hkk Hkv) as (rs & Hrs & Hfold).
          rewrite !map_app, fold_left_app, IH1. cbn [map fold_left]. rewrite nonempty_snoc.
          split; [|apply Forall_app; split; [exact IH2 | constructor; [exact (field_record_wf (WLen _) (proj2 (proj2 (proj2 Hkv)))) | constructor]]].
          apply step_slot. unfold merge_field. rewrite Hc. cbn [expect_len_map pbind]. rewrite Hrs. cbn [pbind]. rewrite Hfold. cbn [pbind].
          replace (match nonempty PMap _ with Some (PMap l') => l' | _ => [] end)
            with (map canon_kv l) by (destruct l; reflexivity).
          rewrite map_insert_append; [reflexivity|]. apply Forall_map. exact Hnew.
      Qed.

      (* the records of one field, read one after the other, leave its normal form in its slot *)
      Lemma field_roundtrip m :
        match dm_get m (f_num f) with Some v => wt_field em wt f v | None => True end ->
        let recs := match dm_get m (f_num f) with Some v => enc_field P em f v | None => [] end in
        fold_left (msg_step P mm D) recs (POk acc) = POk (acc ++ slot (f_num f) (canon_of cn m f))
        /\ Forall wf_record recs.
      Proof.
        unfold canon_of. destruct (dm_get m (f_num f)) as [v|]; cbn zeta; intros Hwt.
        2:{ cbn. rewrite app_nil_r. split; [reflexivity | constructor]. }
        unfold enc_field. destruct (has_value f v) eqn:Hhas; cbn [negb].
        2:{ cbn. rewrite app_nil_r. split; [reflexivity | constructor]. }
        unfold wt_field in Hwt. unfold has_value in Hhas. unfold canon_field.
        destruct (f_card f) as [pr|packed|kk kpres vpres] eqn:Hc.
        - (* singular *)
          destruct (value_roundtrip (f_kind f) v None Hwt (or_introl eq_refl)) as (w & He & Hw & Hd & _).
          rewrite He. cbn [rec_of fold_left].
          erewrite (step_fresh w) by (unfold merge_field; rewrite Hc; exact Hd).
          split; [reflexivity|]. constructor; [exact (field_record_wf w Hw) | constructor].
        - (* repeated *)
          destruct Hwt as (l & -> & Hl & Hp). destruct packed.
          + destruct (Hp eq_refl) as [Hpack Hlen]. cbn [fold_left].
            pose proof (packable_not_msg _ Hpack) as Hnm.
            rewrite (step_fresh _ (PList l)).
            * rewrite (map_ext_in _ (fun x => x)), map_id by (intros; apply canon_scalar_plain, Hnm).
              split; [reflexivity|]. constructor; [exact (field_record_wf (WLen _) Hlen) | constructor].
            * unfold merge_field. rewrite Hc, Hpack, packed_roundtrip; [reflexivity | exact Hpack | | apply Nat.le_refl].
              eapply Forall_impl; [|exact Hl]. intros x. rewrite wt_scalar_plain by exact Hnm. trivial.
          + destruct (repeated_fold false l Hc Hl) as [R1 R2].
            rewrite R1. split; [|exact R2]. destruct l; [discriminate Hhas | reflexivity].
        - (* map *)
          destruct Hwt as (l & -> & Hkk & Hdist & Hl).
          destruct (map_fold kk kpres vpres l Hc Hkk Hl Hdist) as [R1 R2].
          rewrite R1. split; [|exact R2]. destruct l; [discriminate Hhas | reflexivity].
      Qed.
    End Field.
  End Level.

  Theorem msg_roundtrip : forall fuel d m,
    wf_desc d -> wt_msg fuel d m ->
    merge_msg P fuel d [] (enc_msg P fuel d m) = POk (canon fuel d m).
  Proof.
    induction fuel as [|fu IH]; intros d m Hd Hwt; [contradiction|].
    cbn [wt_msg] in Hwt. rewrite Forall_forall in Hwt. rewrite canon_build. cbn [merge_msg enc_msg].
    (* every field, with the induction hypothesis as the level below *)
    pose proof (fun f acc Hin Hacc =>
                  field_roundtrip _ _ _ _ (fun i m' Hw => conj (proj2 Hw) (IH _ _ (wf_pool i) (proj1 Hw))) (canon_nil fu)
                                  d Hd f acc Hin Hacc m (Hwt f Hin)) as Hfield.
    rewrite records_roundtrip
      by (apply Forall_flat_map, Forall_forall; intros f Hin; exact (proj2 (Hfield f [] Hin (Forall_nil _)))).
    cbn [pbind]. rewrite fold_left_flat_map.
    apply (fold_in_order _ _ d 0 [] Hd (Forall_nil _)). intros f acc Hin Hacc. exact (proj1 (Hfield f acc Hin Hacc)).
  Qed.
End Msg.
