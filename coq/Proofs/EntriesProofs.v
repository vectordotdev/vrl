(* Proofs about Model/Entries.v: from_entries rebuilds, by successive BTreeMap inserts, exactly the object
   to_entries listed. *)
From Coq Require Import List NArith Permutation.
From VRL Require Import Base.Bytes Base.Value Model.ConvRes Model.Entries Proofs.ObjMapFacts.
Import ListNotations.

Definition entry_of (kv : bytes * value) : value := build_entry (VBytes (fst kv)) (snd kv).

(* from_entries inserts the entries one after the other, as collecting into a map does *)
Lemma from_entries_loop_entries l : forall acc, from_entries_loop (map entry_of l) acc = ROk (fold_left ins_entry l acc).
Proof. induction l as [|[k x] l IH]; intros acc; [reflexivity | exact (IH _)]. Qed.

Theorem entries_roundtrip m :
  obj_sorted m = true ->
  to_entries (VObj m) = ROk (VArr (map entry_of m)) /\ from_entries (VArr (map entry_of m)) = ROk (VObj m).
Proof.
  intros Hs. split; [reflexivity|].
  unfold from_entries. rewrite from_entries_loop_entries, <- collect_unfold, (collect_of_perm m m Hs (Permutation_refl m)).
  reflexivity.
Qed.

(* the other composition, on the arrays to_entries produces *)
Theorem entries_roundtrip_rev m :
  obj_sorted m = true ->
  from_entries (VArr (map entry_of m)) = ROk (VObj m) /\ to_entries (VObj m) = ROk (VArr (map entry_of m)).
Proof. intros Hs. destruct (entries_roundtrip m Hs). split; assumption. Qed.

(* on arrays the pair cannot be inverse: the entries carry integer keys, which from_entries refuses *)
Theorem entries_array_not_restored v vs :
  exists a, to_entries (VArr (v :: vs)) = ROk a /\ from_entries a = RErr.
Proof. eexists. split; reflexivity. Qed.
