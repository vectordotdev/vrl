(* The laws of Value::get / insert / remove (Model/ValueCrud.v) that C18 states, after the facts
   about arrays (negative indices, padding) they rest on; those about objects stand in Base/Value.v. *)
From Coq Require Import List ZArith Bool Lia.
From VRL Require Import Base.Bytes Base.Value Model.ValueCrud.
Import ListNotations.

Lemma nth_error_list_set_same {A} (l : list A) n x :
  n < length l -> nth_error (list_set l n x) n = Some x.
Proof.
  revert n; induction l as [|y l IH]; intros [|n] H; cbn in *; try lia; auto.
  apply IH. lia.
Qed.

Lemma nth_error_list_set_other {A} (l : list A) n m x :
  n <> m -> nth_error (list_set l n x) m = nth_error l m.
Proof.
  revert n m; induction l as [|y l IH]; intros [|n] [|m] H; cbn in *; try congruence; auto.
Qed.

Lemma list_set_same {A} (l : list A) : forall n x, nth_error l n = Some x -> list_set l n x = l.
Proof. induction l as [|y l IH]; intros [|n] x; cbn; try discriminate; intros H; [congruence | f_equal; auto]. Qed.

Lemma length_list_set {A} (l : list A) n x : length (list_set l n x) = length l.
Proof. revert n; induction l as [|y l IH]; intros [|n]; cbn; auto. Qed.

Lemma length_arr_set a i x : length (arr_set a i x) = new_len (length a) i.
Proof.
  unfold arr_set, new_len. destruct (0 <=? i)%Z eqn:Hi.
  - destruct (Nat.leb_spec (length a) (Z.to_nat i)).
    + rewrite !app_length, repeat_length. cbn. lia.
    + rewrite length_list_set. lia.
  - destruct (Nat.ltb_spec (length a) (Z.to_nat (- i))).
    + cbn. rewrite app_length, repeat_length. lia.
    + rewrite length_list_set. lia.
Qed.

Lemma in_range_iff len i : in_range len i = true <-> (- Z.of_nat len <= i < Z.of_nat len)%Z.
Proof.
  unfold in_range, arr_index.
  destruct (Z.leb_spec 0 i); [|destruct (Z.leb_spec 0 (Z.of_nat len + i))]; rewrite ?Nat.ltb_lt; lia.
Qed.

(* arr_set by the form of the index: inside the array it replaces one element, past either
   end it pads with nulls *)
Lemma arr_set_in_range a i x : in_range (length a) i = true ->
  exists n, arr_index (length a) i = Some n /\ n < length a /\ arr_set a i x = list_set a n x.
Proof.
  intros H. apply in_range_iff in H. unfold arr_index, arr_set. destruct (Z.leb_spec 0 i).
  - exists (Z.to_nat i). destruct (Nat.leb_spec (length a) (Z.to_nat i)); [lia|]. repeat split; lia.
  - destruct (Z.leb_spec 0 (Z.of_nat (length a) + i)); [|lia].
    destruct (Nat.ltb_spec (length a) (Z.to_nat (- i))); [lia|].
    exists (Z.to_nat (Z.of_nat (length a) + i)).
    replace (length a - Z.to_nat (- i)) with (Z.to_nat (Z.of_nat (length a) + i)) by lia. repeat split; lia.
Qed.

Lemma arr_set_past_end a i x : (Z.of_nat (length a) <= i)%Z ->
  arr_set a i x = a ++ repeat VNull (Z.to_nat i - length a) ++ [x].
Proof.
  intros H. unfold arr_set. destruct (Z.leb_spec 0 i); [|lia].
  destruct (Nat.leb_spec (length a) (Z.to_nat i)); [reflexivity|lia].
Qed.

Lemma arr_set_before_front a i x : (i < - Z.of_nat (length a))%Z ->
  arr_set a i x = (x :: repeat VNull (Z.to_nat (- i) - 1 - length a)) ++ a.
Proof.
  intros H. unfold arr_set. destruct (Z.leb_spec 0 i); [lia|].
  destruct (Nat.ltb_spec (length a) (Z.to_nat (- i))); [reflexivity|lia].
Qed.

(* arr_index and arr_get by the sign of the index *)
Lemma arr_index_nonneg len i : (0 <= i)%Z -> arr_index len i = Some (Z.to_nat i).
Proof. unfold arr_index. intros H. destruct (Z.leb_spec 0 i); [reflexivity | lia]. Qed.

Lemma arr_index_neg len i : (i < 0)%Z ->
  arr_index len i = if Nat.leb (Z.to_nat (- i)) len then Some (len - Z.to_nat (- i)) else None.
Proof.
  unfold arr_index. intros H. destruct (Z.leb_spec 0 i); [lia|].
  destruct (Z.leb_spec 0 (Z.of_nat len + i)), (Nat.leb_spec (Z.to_nat (- i)) len); try lia; auto.
  f_equal. lia.
Qed.

Lemma arr_get_negative vs i : (i < 0)%Z ->
  arr_get vs i = if Nat.leb (Z.to_nat (- i)) (length vs) then nth_error vs (length vs - Z.to_nat (- i)) else None.
Proof. intros H. unfold arr_get. rewrite arr_index_neg by exact H. destruct (Nat.leb _ _); reflexivity. Qed.

Lemma arr_get_nonneg a j : (0 <= j)%Z -> arr_get a j = nth_error a (Z.to_nat j).
Proof. intros H. unfold arr_get. rewrite arr_index_nonneg by exact H. reflexivity. Qed.

Lemma arr_get_neg a j : (- Z.of_nat (length a) <= j < 0)%Z ->
  arr_get a j = nth_error a (length a - Z.to_nat (- j)).
Proof. intros H. rewrite arr_get_negative by lia. destruct (Nat.leb_spec (Z.to_nat (- j)) (length a)); [reflexivity|lia]. Qed.

Lemma arr_get_out a j : in_range (length a) j = false -> arr_get a j = None.
Proof.
  unfold arr_get, in_range. destruct (arr_index (length a) j) as [n|]; [|reflexivity].
  intros H. apply nth_error_None, Nat.ltb_ge, H.
Qed.

Lemma arr_get_set_same a i x : arr_get (arr_set a i x) i = Some x.
Proof.
  destruct (in_range (length a) i) eqn:R.
  - destruct (arr_set_in_range a i x R) as [n [Ei [Hn ->]]].
    unfold arr_get. rewrite length_list_set, Ei. apply nth_error_list_set_same, Hn.
  - apply not_true_iff_false in R. rewrite in_range_iff in R.
    destruct (Z.leb_spec 0 i).
    + rewrite arr_set_past_end, arr_get_nonneg, app_assoc, nth_error_app2 by (rewrite ?app_length, ?repeat_length; lia).
      rewrite app_length, repeat_length. replace (Z.to_nat i - _) with 0 by lia. reflexivity.
    + rewrite arr_set_before_front, arr_get_neg by (rewrite ?app_length; cbn [length]; rewrite ?repeat_length; lia).
      rewrite app_length. cbn [length]. rewrite repeat_length.
      replace (_ - Z.to_nat (- i)) with 0 by lia. reflexivity.
Qed.

Lemma get_ins p : forall slot x, get (ins slot p x) p = Some x.
Proof.
  induction p as [|[k|i] p IH]; intros slot x; cbn.
  - reflexivity.
  - rewrite obj_get_set_same. apply IH.
  - rewrite arr_get_set_same. apply IH.
Qed.

Lemma arr_get_nil i : arr_get [] i = None.
Proof. unfold arr_get. destruct (arr_index _ i) as [[|n]|]; reflexivity. Qed.

Lemma get_opt_field slot k q : get_opt slot (SField k :: q) = get_opt (obj_get (as_obj slot) k) q.
Proof.
  destruct slot as [[?|?|?|?|?|?|m|a|]|]; cbn; auto.
Qed.

Lemma get_opt_index slot j q : get_opt slot (SIndex j :: q) = get_opt (arr_get (as_arr slot) j) q.
Proof.
  destruct slot as [[?|?|?|?|?|?|m|a|]|]; cbn; rewrite ?arr_get_nil; auto.
Qed.

(* for every slot, vacant or holding the wrong kind of container included *)
Lemma ins_prev_get_opt p : forall slot, ins_prev slot p = get_opt slot p.
Proof.
  induction p as [|[k|i] p IH]; intros slot; cbn [ins_prev];
    [destruct slot; reflexivity | rewrite get_opt_field | rewrite get_opt_index]; apply IH.
Qed.

Lemma arr_set_nth_nonneg a i x n :
  (0 <= i)%Z ->
  nth_error (arr_set a i x) n =
  if Nat.eqb n (Z.to_nat i) then Some x
  else if Nat.ltb n (length a) then nth_error a n
  else if Nat.ltb n (Z.to_nat i) then Some VNull else None.
Proof.
  intros Hi. unfold arr_set. destruct (Z.leb_spec 0 i); [|lia].
  destruct (Nat.leb_spec (length a) (Z.to_nat i)) as [Hl|Hl].
  - destruct (Nat.eqb_spec n (Z.to_nat i)) as [->|Hn].
    + rewrite app_assoc, nth_error_app2; rewrite app_length, repeat_length; [|lia].
      replace (Z.to_nat i - (length a + (Z.to_nat i - length a))) with 0 by lia. reflexivity.
    + destruct (Nat.ltb_spec n (length a)).
      * rewrite nth_error_app1; auto.
      * rewrite nth_error_app2 by lia.
        destruct (Nat.ltb_spec n (Z.to_nat i)).
        -- rewrite nth_error_app1 by (rewrite repeat_length; lia).
           apply nth_error_repeat. lia.
        -- rewrite nth_error_app2 by (rewrite repeat_length; lia).
           rewrite repeat_length. apply nth_error_None. cbn. lia.
  - destruct (Nat.eqb_spec n (Z.to_nat i)) as [->|Hn].
    + apply nth_error_list_set_same. lia.
    + rewrite nth_error_list_set_other by congruence.
      destruct (Nat.ltb_spec n (length a)); auto.
      rewrite (proj2 (nth_error_None a n)) by lia.
      destruct (Nat.ltb_spec n (Z.to_nat i)); auto. lia.
Qed.

(* a write that pads the array leaves alone what it does not renumber: end padding renumbers
   the negative indices, front padding the others *)
Lemma arr_get_set_padding a i j x :
  in_range (length a) i = false -> in_range (length a) j = true ->
  ((0 <=? i)%Z && (0 <=? j)%Z) || ((i <? 0)%Z && (j <? 0)%Z) = true ->
  arr_get (arr_set a i x) j = arr_get a j.
Proof.
  intros Ri Rj H. apply in_range_iff in Rj. apply not_true_iff_false in Ri. rewrite in_range_iff in Ri.
  apply orb_true_iff in H. rewrite !andb_true_iff, !Z.leb_le, !Z.ltb_lt in H.
  destruct H as [[Hi Hj]|[Hi Hj]].
  - rewrite arr_set_past_end, !arr_get_nonneg by lia. apply nth_error_app1. lia.
  - rewrite arr_set_before_front by lia.
    rewrite !arr_get_neg, nth_error_app2 by (rewrite ?app_length; cbn [length]; rewrite ?repeat_length; lia).
    f_equal. rewrite app_length. cbn [length]. rewrite repeat_length. lia.
Qed.

(* an index that names nothing before the write and nothing after it *)
Lemma arr_get_set_outside a i j x :
  in_range (length a) j = false -> in_range (new_len (length a) i) j = false ->
  arr_get (arr_set a i x) j = arr_get a j.
Proof.
  intros Rj R. rewrite <- (length_arr_set a i x) in R. rewrite !arr_get_out by assumption. reflexivity.
Qed.

Lemma ins_frame p : forall slot q x,
  disjoint_stable slot p q = true -> get (ins slot p x) q = get_opt slot q.
Proof.
  induction p as [|[k1|i] p IH]; intros slot q x H; destruct q as [|[k2|j] q];
    cbn [disjoint_stable] in H; try discriminate.
  - (* field / field *)
    rewrite get_opt_field. cbn [ins get]. fold (as_obj slot).
    destruct (bytes_eqb_spec k1 k2) as [->|Hne].
    + rewrite obj_get_set_same. apply IH, H.
    + rewrite obj_get_set_other by congruence. reflexivity.
  - (* field / index *)
    cbn [ins get]. destruct slot as [[?|?|?|?|?|?|m|a|]|]; cbn; auto.
    unfold arr_get, in_range in *. destruct (arr_index (length a) j); auto.
    apply negb_true_iff, Nat.ltb_ge, nth_error_None in H. rewrite H. reflexivity.
  - (* index / field *)
    cbn [ins get]. destruct slot as [[?|?|?|?|?|?|m|a|]|]; cbn; auto.
    destruct (obj_get m k2); auto. discriminate.
  - (* index / index: j reads what was written, and the rest of the paths decides, or what it read before *)
    rewrite get_opt_index. cbn [ins get]. fold (as_arr slot). set (a := as_arr slot) in *.
    destruct (Z.eqb_spec i j) as [<-|Hne]; [rewrite arr_get_set_same; apply IH, H|].
    destruct (in_range (length a) j) eqn:Rj; [destruct (in_range (length a) i) eqn:Ri|]; cbn [andb] in H.
    + (* both inside: the write replaces one position *)
      destruct (arr_set_in_range a i (ins (arr_get a i) p x) Ri) as [n [Ei [Hn ->]]].
      unfold arr_get in *. rewrite length_list_set. rewrite Ei in *.
      destruct (arr_index (length a) j) as [m|]; [|reflexivity].
      destruct (Nat.eqb_spec n m) as [->|Hnm].
      * rewrite nth_error_list_set_same by exact Hn. apply IH, H.
      * rewrite nth_error_list_set_other by exact Hnm. reflexivity.
    + rewrite arr_get_set_padding by assumption. reflexivity.
    + rewrite andb_false_r in H. rewrite arr_get_set_outside; [reflexivity | exact Rj | apply negb_true_iff, H].
Qed.

Theorem insert_frame v p q x :
  disjoint_stable (Some v) p q = true -> get (insert v p x) q = get v q.
Proof. intros H. apply (ins_frame p (Some v) q x H). Qed.

(* the clean special case: field-only paths, neither a prefix of the other *)
Fixpoint all_fields (p : path) : bool :=
  match p with [] => true | SField _ :: p' => all_fields p' | SIndex _ :: _ => false end.

Fixpoint is_prefix (p q : path) : bool :=
  match p, q with
  | [], _ => true
  | s :: p', t :: q' => seg_eqb s t && is_prefix p' q'
  | _ :: _, [] => false
  end.

Lemma fields_disjoint_stable p : forall slot q,
  all_fields p = true -> all_fields q = true ->
  is_prefix p q = false -> is_prefix q p = false -> disjoint_stable slot p q = true.
Proof.
  induction p as [|[k1|i] p IH]; intros slot [|[k2|j] q] Hp Hq H1 H2; cbn in *; try discriminate; auto.
  rewrite (bytes_eqb_sym k2 k1) in H2.
  destruct (bytes_eqb k1 k2); cbn in *; auto.
Qed.

Theorem insert_frame_fields v p q x :
  all_fields p = true -> all_fields q = true ->
  is_prefix p q = false -> is_prefix q p = false ->
  get (insert v p x) q = get v q.
Proof. intros. apply insert_frame. apply fields_disjoint_stable; auto. Qed.

Lemma arr_remove_get a i :
  match arr_remove a i with Some (x, _) => arr_get a i = Some x | None => arr_get a i = None end.
Proof.
  unfold arr_remove, arr_get. destruct (arr_index (length a) i); auto.
  destruct (nth_error a n); auto.
Qed.

Lemma rm_get p : forall c prune, p <> [] -> option_map fst (rm c p prune) = get c p.
Proof.
  induction p as [|s p IH]; intros c prune Hp; [congruence|].
  destruct s as [f|i]; cbn [rm get]; destruct c as [?|?|?|?|?|?|m|a|]; try reflexivity; destruct p as [|s' p'].
  - destruct (obj_get m f); reflexivity.
  - destruct (obj_get m f) as [c'|]; [|reflexivity]. rewrite <- (IH c' prune) by discriminate.
    destruct (rm c' (s' :: p') prune) as [[prev c'']|]; reflexivity.
  - pose proof (arr_remove_get a i) as G. destruct (arr_remove a i) as [[x a']|]; rewrite G; reflexivity.
  - destruct (arr_get a i) as [c'|]; [|reflexivity]. rewrite <- (IH c' prune) by discriminate.
    destruct (rm c' (s' :: p') prune) as [[prev c'']|]; reflexivity.
Qed.

Theorem remove_returns_get v p prune : fst (remove v p prune) = get v p.
Proof.
  unfold remove. destruct p as [|s p]; [destruct v; reflexivity|].
  rewrite <- (rm_get (s :: p) v prune) by discriminate.
  destruct (rm v (s :: p) prune) as [[prev v']|]; reflexivity.
Qed.

Theorem remove_none_unchanged v p prune : get v p = None -> remove v p prune = (None, v).
Proof.
  intros G. unfold remove. destruct p as [|s p]; [discriminate|].
  rewrite <- (rm_get (s :: p) v prune) in G by discriminate.
  destruct (rm v (s :: p) prune) as [[prev v']|]; [discriminate|reflexivity].
Qed.

Lemma get_app p1 : forall v p2,
  get v (p1 ++ p2) = match get v p1 with Some w => get w p2 | None => None end.
Proof.
  induction p1 as [|[k|i] p1 IH]; intros v p2; cbn [app get]; auto.
  - destruct v as [?|?|?|?|?|?|m|a|]; auto. destruct (obj_get m k); auto.
  - destruct v as [?|?|?|?|?|?|m|a|]; auto. destruct (arr_get a i); auto.
Qed.

Theorem through_scalar v p1 w s p2 prune :
  get v p1 = Some w -> is_scalar w = true ->
  get v (p1 ++ s :: p2) = None /\ remove v (p1 ++ s :: p2) prune = (None, v).
Proof.
  intros G S.
  assert (H : get v (p1 ++ s :: p2) = None).
  { rewrite get_app, G. destruct s, w; cbn in *; auto; discriminate. }
  split; auto. apply remove_none_unchanged. exact H.
Qed.
