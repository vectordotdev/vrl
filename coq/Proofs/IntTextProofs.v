(* Proofs about Model/IntText.v: format_radix produces, for every radix 2..36, a digit string whose value is
   the number (fuel 64 always suffices, i64::MIN included), and from_str_radix reads it back, range checks included.
   `uval` (the positional value of a digit string, no range checks) is the notion the printers and readers of the
   other text formats (IP addresses, timestamps) are tied to as well. *)
From Coq Require Import List NArith ZArith Bool Lia.
From VRL Require Import Base.Bytes Base.Value Model.ConvRes Model.IntText Proofs.ConvResFacts.
Import ListNotations.
Local Open Scope Z_scope.

(* value of a digit string without the range checks *)
Fixpoint uval (radix : Z) (s : bytes) (a : Z) : option Z :=
  match s with
  | [] => Some a
  | c :: s' => match to_digit radix c with
               | Some d => uval radix s' (a * radix + d)
               | None => None
               end
  end.

(* only the printer's own digit characters (lower-case letters above 9) *)
Definition printed_digits (radix : Z) (s : bytes) : Prop :=
  forall c d, In c s -> to_digit radix c = Some d -> digit_char d = c.

Definition signed (neg : bool) (z : Z) : Z := if neg then - z else z.

Lemma digit_val_spec c d : digit_val c = Some d <->
  let z := Z.of_N c in (48 <= z <= 57 /\ d = z - 48) \/ (97 <= z <= 122 /\ d = z - 87) \/ (65 <= z <= 90 /\ d = z - 55).
Proof.
  unfold digit_val. cbv zeta.
  (* each range test that is reached becomes a pair of inequalities, or its negation *)
  destruct ((48 <=? _) && _) eqn:E1; [|destruct ((97 <=? _) && _) eqn:E2; [|destruct ((65 <=? _) && _) eqn:E3]];
    rewrite <- ?not_true_iff_false, ?leb_between in *; (split; [intros [= <-] | intros H; try f_equal]); lia.
Qed.

Lemma to_digit_spec radix c d : to_digit radix c = Some d <-> digit_val c = Some d /\ d < radix.
Proof.
  unfold to_digit. destruct (digit_val c) as [d'|]; [destruct (Z.ltb_spec d' radix)|];
    (split; [intros [= <-]; auto | intros [[= <-] ?]; try reflexivity; lia]).
Qed.

Lemma digit_char_val m radix :
  0 <= m < radix -> radix <= 36 -> to_digit radix (digit_char m) = Some m.
Proof.
  intros Hm Hr. apply to_digit_spec. split; [|lia]. apply digit_val_spec. unfold digit_char.
  destruct (Z.ltb_spec m 10); rewrite Z2N.id; lia.
Qed.

Lemma to_digit_range radix c d : to_digit radix c = Some d -> 0 <= d < radix.
Proof. intros H. apply to_digit_spec in H as [H ?]. apply digit_val_spec in H. lia. Qed.

(* in base 10 only '0'..'9' are digits, and they are the characters the printers use *)
Lemma to_digit_dec c d : to_digit 10 c = Some d -> 48 <= Z.of_N c <= 57 /\ d = Z.of_N c - 48 /\ digit_char d = c.
Proof.
  intros H. apply to_digit_spec in H as [H ?]. apply digit_val_spec in H.
  assert (E : d = Z.of_N c - 48) by lia. repeat split; try lia.
  unfold digit_char. rewrite (proj2 (Z.ltb_lt d 10)) by lia. lia.
Qed.

(* the same with the boolean test that every model's own digit class (is_dig, is_digit) unfolds to *)
Lemma to_digit_dec_test c d : to_digit 10 c = Some d -> ((48 <=? c) && (c <=? 57))%N = true /\ d = Z.of_N c - 48.
Proof.
  intros H. apply to_digit_dec in H as (H & -> & _). split; [|reflexivity].
  apply andb_true_iff; split; apply N.leb_le; lia.
Qed.

Lemma to_digit_not_sign radix c d : to_digit radix c = Some d -> c <> 43%N /\ c <> 45%N.
Proof. intros H; split; intros ->; vm_compute in H; discriminate. Qed.

Lemma uval_app radix s1 s2 a :
  uval radix (s1 ++ s2) a = match uval radix s1 a with Some v => uval radix s2 v | None => None end.
Proof.
  revert a; induction s1 as [|c s1 IH]; intros a; cbn [app uval]; [reflexivity|].
  destruct (to_digit radix c); [apply IH | reflexivity].
Qed.

Lemma uval_ge radix s : 1 <= radix -> forall a v, 0 <= a -> uval radix s a = Some v -> a <= v.
Proof.
  intros Hr. induction s as [|c s IH]; intros a v Ha H; cbn [uval] in H.
  - inversion H; lia.
  - destruct (to_digit radix c) as [d|] eqn:D; [|discriminate].
    apply to_digit_range in D. apply IH in H; nia.
Qed.

Lemma uval_all_digits radix s : forall a v, uval radix s a = Some v -> Forall (fun c => to_digit radix c <> None) s.
Proof.
  induction s as [|c s IH]; intros a v H; [constructor|]. cbn [uval] in H.
  destruct (to_digit radix c) eqn:D; [|discriminate]. constructor; [congruence | eapply IH; eauto].
Qed.

Lemma digits_spec radix : 2 <= radix <= 36 ->
  forall fuel x acc, (0 < fuel)%nat -> 0 <= x < radix ^ Z.of_nat fuel ->
  exists s P, digits_loop fuel radix x acc = Some (s ++ acc) /\ s <> [] /\
              forall a, uval radix s a = Some (a * P + x).
Proof.
  intros Hr. induction fuel as [|f IH]; intros x acc Hf Hx; [lia|].
  cbn [digits_loop].
  assert (Hm : 0 <= x mod radix < radix) by (apply Z.mod_pos_bound; lia).
  assert (Hdm : x = radix * (x / radix) + x mod radix) by (apply Z.div_mod; lia).
  destruct (Z.eqb_spec (x / radix) 0) as [E|E].
  - exists [digit_char (x mod radix)], radix. split; [reflexivity|]. split; [discriminate|].
    intros a. cbn [uval]. rewrite digit_char_val by lia. f_equal. lia.
  - assert (Hx' : 0 <= x / radix < radix ^ Z.of_nat f).
    { split; [apply Z.div_pos; lia|]. apply Z.div_lt_upper_bound; [lia|].
      rewrite Nat2Z.inj_succ, Z.pow_succ_r in Hx by lia. lia. }
    assert (Hf' : (0 < f)%nat) by (destruct f; [cbn in Hx'|]; lia).
    destruct (IH (x / radix) (digit_char (x mod radix) :: acc) Hf' Hx') as (s' & P' & Hs & Hne & Hv).
    exists (s' ++ [digit_char (x mod radix)]), (P' * radix). split; [rewrite Hs, <- app_assoc; reflexivity|].
    split; [destruct s'; discriminate|].
    intros a. rewrite uval_app, Hv. cbn [uval]. rewrite digit_char_val by lia. f_equal. lia.
Qed.

Lemma pow64_bound radix : 2 <= radix -> 2 ^ 64 <= radix ^ Z.of_nat 64.
Proof. intros H. change (Z.of_nat 64) with 64. apply Z.pow_le_mono_l. lia. Qed.

Lemma digits_loop_length radix : forall fuel x acc r,
  digits_loop fuel radix x acc = Some r -> (length r <= fuel + length acc)%nat.
Proof.
  induction fuel as [|f IH]; intros x acc r H; cbn [digits_loop] in H; [discriminate|].
  destruct (x / radix =? 0).
  - inversion H; subst. cbn [length]. lia.
  - apply IH in H. cbn [length] in H. lia.
Qed.

Lemma digits_first_nonzero radix : 2 <= radix <= 36 -> forall fuel x acc r,
  0 < x -> digits_loop fuel radix x acc = Some r -> exists c tl, r = c :: tl /\ c <> 48%N.
Proof.
  intros Hr. induction fuel as [|f IH]; intros x acc r Hx H; cbn [digits_loop] in H; [discriminate|].
  assert (Hm : 0 <= x mod radix < radix) by (apply Z.mod_pos_bound; lia).
  destruct (Z.eqb_spec (x / radix) 0) as [E|E].
  - inversion H; subst. eexists; eexists; split; [reflexivity|].
    assert (x mod radix = x) by (rewrite (Z.div_mod x radix) at 2 by lia; nia).
    unfold digit_char. destruct (x mod radix <? 10); lia.
  - eapply IH; [|exact H]. assert (0 <= x / radix) by (apply Z.div_pos; lia). lia.
Qed.

Lemma digits_zero radix fuel acc : 2 <= radix -> digits_loop (S fuel) radix 0 acc = Some (48%N :: acc).
Proof. intros Hr. cbn [digits_loop]. rewrite Z.div_0_l, Z.mod_0_l by lia. reflexivity. Qed.

(* The converse of digits_spec: a string of the printer's own digit characters without a leading zero is what the
   loop prints for its value.  One round of the loop takes back the last character read. *)
Lemma digits_loop_step fuel radix a d acc : 0 < a -> 0 <= d < radix ->
  digits_loop (S fuel) radix (a * radix + d) acc = digits_loop fuel radix a (digit_char d :: acc).
Proof.
  intros Ha Hd. cbn [digits_loop].
  rewrite <- (Z.div_unique (a * radix + d) radix a d), <- (Z.mod_unique (a * radix + d) radix a d) by lia.
  destruct (Z.eqb_spec a 0); [lia | reflexivity].
Qed.

Lemma digits_loop_uval radix : 1 <= radix -> forall s a v acc fuel,
  printed_digits radix s -> 0 < a -> uval radix s a = Some v ->
  digits_loop (length s + fuel) radix v acc = digits_loop fuel radix a (s ++ acc).
Proof.
  intros Hr. induction s as [|c s IH]; intros a v acc fuel Hs Ha H; cbn [uval] in H.
  - injection H as <-. reflexivity.
  - destruct (to_digit radix c) as [d|] eqn:D; [|discriminate]. pose proof (to_digit_range _ _ _ D).
    cbn [length app]. rewrite Nat.add_succ_comm, (IH (a * radix + d) v acc (S fuel)), digits_loop_step; try nia; try exact H.
    + rewrite (Hs c d (or_introl eq_refl) D). reflexivity.
    + intros c' d' Hin. apply Hs. right; exact Hin.
Qed.

Lemma digits_loop_printed radix c s v fuel : 2 <= radix ->
  printed_digits radix (c :: s) -> (s <> [] -> c <> 48%N) -> uval radix (c :: s) 0 = Some v -> (length s < fuel)%nat ->
  digits_loop fuel radix v [] = Some (c :: s).
Proof.
  intros Hr Hs Hz H Hl. cbn [uval] in H. destruct (to_digit radix c) as [d|] eqn:D; [|discriminate].
  pose proof (to_digit_range _ _ _ D). pose proof (Hs c d (or_introl eq_refl) D) as Hc. cbn in H.
  destruct (Z.eq_dec d 0) as [->|Hd].
  - destruct s; [|destruct Hz; [discriminate | symmetry; exact Hc]]. injection H as <-.
    destruct fuel; [lia|]. rewrite digits_zero by lia. rewrite <- Hc. reflexivity.
  - replace fuel with (length s + S (fuel - length s - 1))%nat by lia.
    rewrite (digits_loop_uval radix ltac:(lia) s d v) by (try exact H; try lia; intros c' d' Hin; apply Hs; right; exact Hin).
    cbn [digits_loop]. rewrite Z.div_small, Z.mod_small, Hc, app_nil_r by lia. reflexivity.
Qed.

Lemma parse_digits_uval neg radix : 1 <= radix ->
  forall s a v, 0 <= a -> uval radix s a = Some v -> in_i64 (signed neg v) = true ->
  parse_digits neg radix s (signed neg a) = Some (signed neg v).
Proof.
  intros Hr. induction s as [|c s IH]; intros a v Ha H Hv; cbn [uval parse_digits] in *.
  - injection H as <-. reflexivity.
  - destruct (to_digit radix c) as [d|] eqn:D; [|discriminate].
    pose proof (to_digit_range _ _ _ D) as Hd.
    assert (Hge : a * radix + d <= v) by (eapply uval_ge; eauto; nia).
    replace (if neg then _ else _) with (signed neg (a * radix + d)) by (destruct neg; cbn [signed]; lia).
    pose proof (proj1 (in_i64_iff _) Hv) as Hv'.
    rewrite !(proj2 (in_i64_iff _)) by (destruct neg; cbn [signed] in *; nia).
    apply IH; [nia | exact H | exact Hv].
Qed.

Lemma from_str_radix_signed neg radix s v :
  1 <= radix -> s <> [] -> uval radix s 0 = Some v -> in_i64 (signed neg v) = true ->
  from_str_radix (if neg then 45%N :: s else s) radix = Some (signed neg v).
Proof.
  intros Hr Hne Hu Hv. destruct s as [|c tl]; [congruence|]. unfold from_str_radix. destruct neg.
  - exact (parse_digits_uval true radix Hr _ 0 v (Z.le_refl 0) Hu Hv).
  - assert (Hc : c <> 43%N /\ c <> 45%N).
    { cbn [uval] in Hu. destruct (to_digit radix c) eqn:D; [|discriminate]. eapply to_digit_not_sign; eauto. }
    destruct Hc as [H1%N.eqb_neq H2%N.eqb_neq].
    destruct tl; rewrite H1, H2; exact (parse_digits_uval false radix Hr _ 0 v (Z.le_refl 0) Hu Hv).
Qed.

Lemma parse_digits_range neg radix : forall s acc v,
  in_i64 acc = true -> parse_digits neg radix s acc = Some v -> in_i64 v = true.
Proof.
  induction s as [|c s IH]; intros acc v Hacc H; cbn [parse_digits] in H.
  - inversion H; subst; exact Hacc.
  - destruct (to_digit radix c) as [d|]; [|discriminate].
    destruct (in_i64 (acc * radix)) eqn:E1; [|discriminate].
    destruct (in_i64 (if neg then acc * radix - d else acc * radix + d)) eqn:E2; [|discriminate].
    eapply IH; [exact E2 | exact H].
Qed.

Lemma from_str_radix_range s radix v : from_str_radix s radix = Some v -> in_i64 v = true.
Proof.
  unfold from_str_radix. intros H.
  destruct s as [|c [|c1 r]]; [discriminate| |]; destruct (c =? 43)%N; try destruct (c =? 45)%N; try discriminate;
    exact (parse_digits_range _ _ _ 0 v eq_refl H).
Qed.

Theorem format_radix_roundtrip radix z :
  2 <= radix <= 36 -> in_i64 z = true ->
  exists s, format_radix z radix = ROk s /\ from_str_radix s radix = Some z.
Proof.
  intros Hr Hz. apply in_i64_iff in Hz.
  pose proof (pow64_bound radix ltac:(lia)) as Hp.
  unfold format_radix. cbv zeta.
  destruct (digits_spec radix Hr 64%nat (Z.abs z) []) as (s & P & Hs & Hne & Hv); [lia|lia|].
  rewrite app_nil_r in Hs. rewrite Hs. specialize (Hv 0). cbn in Hv.
  eexists; split; [reflexivity|].
  assert (E : signed (z <? 0) (Z.abs z) = z) by (destruct (Z.ltb_spec z 0); cbn [signed]; lia).
  rewrite <- E at 2. apply from_str_radix_signed; [lia | exact Hne | exact Hv | rewrite E; apply in_i64_iff; exact Hz].
Qed.

Theorem int_roundtrip base z :
  2 <= base <= 36 -> in_i64 z = true ->
  exists s, format_int (VInt z) (VInt base) = ROk (VBytes s)
            /\ parse_int (VBytes s) (Some (VInt base)) = ROk (VInt z).
Proof.
  intros Hb Hz. destruct (format_radix_roundtrip base z Hb Hz) as (s & Hf & Hp).
  exists s. unfold format_int, parse_int. rewrite (proj2 (leb_between 2 36 base)) by lia.
  rewrite Hf. cbn [res_bind skipn]. rewrite Hp. split; reflexivity.
Qed.

(* format_radix never runs out of fuel and never panics *)
Theorem format_radix_total radix z :
  2 <= radix <= 36 -> in_i64 z = true -> exists s, format_radix z radix = ROk s.
Proof. intros A B. destruct (format_radix_roundtrip radix z A B) as (s & H & _). eauto. Qed.

(* default base on both sides: format_int(z) prints base 10, parse_int(s) picks the base from the prefix *)
Lemma decimal_first_char z s :
  format_radix z 10 = ROk s -> (z = 0 /\ s = [48%N]) \/ (z <> 0 /\ exists c tl, s = c :: tl /\ c <> 48%N).
Proof.
  unfold format_radix. cbv zeta. intros Hf. destruct (Z.eq_dec z 0) as [->|Hnz].
  - left. split; auto. change (Z.abs 0) with 0 in Hf. rewrite (digits_zero 10 63) in Hf by lia. injection Hf as <-. reflexivity.
  - right. split; auto. destruct (digits_loop 64 10 (Z.abs z) []) as [r|] eqn:D; [|discriminate].
    destruct (z <? 0); injection Hf as <-.
    + exists 45%N. eexists. split; [reflexivity | discriminate].
    + eapply (digits_first_nonzero 10); [lia | | exact D]. lia.
Qed.

(* a pattern match on the literal '0' is the test c =? 48 *)
Lemma match_48 {A} (c : N) (a b : A) : match c with 48%N => a | _ => b end = if (c =? 48)%N then a else b.
Proof. destruct c as [|p]; [reflexivity|]. do 6 (destruct p as [p|p|]; try reflexivity). Qed.

Lemma parse_int_decimal c tl : c <> 48%N ->
  parse_int (VBytes (c :: tl)) None = match from_str_radix (c :: tl) 10 with Some z => ROk (VInt z) | None => RErr end.
Proof.
  intros Hc%N.eqb_neq. unfold parse_int. rewrite match_48, Hc. reflexivity.
Qed.

Theorem int_roundtrip_default z :
  in_i64 z = true ->
  exists s, format_int_opt (VInt z) None = ROk (VBytes s) /\ parse_int (VBytes s) None = ROk (VInt z).
Proof.
  intros Hz. destruct (format_radix_roundtrip 10 z ltac:(lia) Hz) as (s & Hf & Hp).
  exists s. unfold format_int_opt, format_int. cbn [Z.leb Z.compare Pos.compare Pos.compare_cont andb].
  rewrite Hf. cbn [res_bind]. split; [reflexivity|].
  destruct (decimal_first_char z s Hf) as [[-> ->]|[Hnz (c & tl & -> & Hc)]]; [reflexivity|].
  rewrite (parse_int_decimal c tl Hc), Hp. reflexivity.
Qed.
