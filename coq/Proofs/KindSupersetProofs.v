(* Soundness of Kind::is_superset with respect to `member`. *)
From Coq Require Import List ZArith Bool.
From VRL Require Import Base.Bytes Model.Kind Model.KindCrud Model.KindDomains Proofs.KindBasics.
Import ListNotations.

(* no_exact_any, one level at a time *)
Definition nea_unk (u : unk) : bool :=
  match u with UExact x => negb (is_any x) && no_exact_any x | UInf _ => true end.
Definition nea_coll {K} (c : coll_ K kind) : bool :=
  forallb (fun kv => no_exact_any (snd kv)) (known c) && nea_unk (unknown c).
Definition nea_opt {K} (o : option (coll_ K kind)) : bool :=
  match o with None => true | Some c => nea_coll c end.

Lemma no_exact_any_unfold k : no_exact_any k = nea_opt (arr_of k) && nea_opt (obj_of k).
Proof. destruct k as [p [a|] [o|]]; reflexivity. Qed.

Lemma nea_or_undefined k : no_exact_any (or_undefined k) = no_exact_any k.
Proof. destruct k as [p a o]; reflexivity. Qed.
Lemma nea_remove_undefined k : no_exact_any (remove_undefined k) = no_exact_any k.
Proof. destruct k as [p a o]; reflexivity. Qed.
Lemma nea_kind_of_inf i : no_exact_any (kind_of_inf i) = true.
Proof. unfold kind_of_inf. destruct (i_array i), (i_object i); reflexivity. Qed.

Lemma nea_unknown_kind {K} (c : coll_ K kind) : nea_coll c = true -> no_exact_any (unknown_kind c) = true.
Proof.
  unfold nea_coll, unknown_kind, unknown_kind_u, existing_kind. rewrite andb_true_iff. intros [_ H].
  rewrite nea_or_undefined, nea_remove_undefined. destruct (unknown c) as [x|i]; cbn in H.
  - apply andb_true_iff in H. tauto.
  - apply nea_kind_of_inf.
Qed.

Section CSup.
  Context {K : Type}.
  Variable keqb : K -> K -> bool.
  Hypothesis keqb_spec : forall a b, keqb a b = true <-> a = b.
  Variable S : kind -> kind -> bool.
  Hypothesis HS : forall x y v, no_exact_any x = true -> S x y = true -> member v y = true -> member v x = true.
  Hypothesis HSu : forall x y, S x y = true -> p_undefined (prims_of y) = true -> p_undefined (prims_of x) = true.

  Lemma nea_coll_at (c : coll_ K kind) key : nea_coll c = true -> no_exact_any (coll_at keqb c key) = true.
  Proof.
    intros H. unfold coll_at. destruct (aget keqb (known c) key) as [x|] eqn:E; [|apply nea_unknown_kind, H].
    unfold nea_coll in H. apply andb_true_iff in H. destruct H as [H _].
    rewrite forallb_forall in H. apply (H (key, x)), (aget_in keqb keqb_spec), E.
  Qed.

  Lemma usuperset_sound (l r : unk) v : nea_unk l = true -> usuperset S l r = true ->
    member v (unknown_kind_u r) = true -> member v (unknown_kind_u l) = true.
  Proof.
    destruct l as [x|i], r as [y|j]; cbn [usuperset nea_unk];
      rewrite ?member_unknown_kind_exact, ?member_unknown_kind_inf; intros Hn Hs Hm.
    - apply andb_true_iff in Hn. destruct Hn as [_ Hn].
      rewrite <- (member_remove_undefined v x). apply (HS _ (remove_undefined y)); auto.
      + rewrite nea_remove_undefined. auto.
      + rewrite member_remove_undefined. auto.
    - apply andb_true_iff in Hn. destruct Hn as [Hn _]. rewrite Hs in Hn. discriminate.
    - destruct (inf_is_any i) eqn:Ea; [apply inf_is_any_eq in Ea; subst; apply member_inf_any|].
      apply (HS _ y); auto. apply nea_kind_of_inf.
    - destruct (inf_is_any i) eqn:Ea; [apply inf_is_any_eq in Ea; subst; apply member_inf_any|].
      apply (member_inf_mono v j i Hs Hm).
  Qed.

  Lemma csuperset_known_r (l r : coll_ K kind) key ok : csuperset keqb S l r = true ->
    aget keqb (known r) key = Some ok -> S (coll_at keqb l key) ok = true.
  Proof.
    unfold csuperset. rewrite !andb_true_iff, !forallb_forall. intros [[_ H] _] E.
    apply (H (key, ok)), (aget_in keqb keqb_spec), E.
  Qed.

  Lemma csuperset_known_l (l r : coll_ K kind) key sk : csuperset keqb S l r = true ->
    aget keqb (known l) key = Some sk -> aget keqb (known r) key = None -> S sk (unknown_kind r) = true.
  Proof.
    unfold csuperset. rewrite !andb_true_iff, !forallb_forall. intros [_ H] E En.
    specialize (H (key, sk) (aget_in keqb keqb_spec E)). cbn in H. unfold ahas in H.
    rewrite En in H. exact H.
  Qed.

  Lemma coll_at_csuperset (l r : coll_ K kind) key v : nea_coll l = true -> csuperset keqb S l r = true ->
    member v (coll_at keqb r key) = true -> member v (coll_at keqb l key) = true.
  Proof.
    intros Hn Hs Hm. pose proof (nea_coll_at l key Hn) as Hnk.
    unfold coll_at in Hm. destruct (aget keqb (known r) key) as [ok|] eqn:Er.
    - apply (HS _ ok _ Hnk (csuperset_known_r l r key ok Hs Er) Hm).
    - unfold coll_at in *. destruct (aget keqb (known l) key) as [sk|] eqn:El.
      + apply (HS _ _ _ Hnk (csuperset_known_l l r key sk Hs El Er) Hm).
      + unfold csuperset in Hs. unfold nea_coll in Hn. rewrite !andb_true_iff in Hs. rewrite andb_true_iff in Hn.
        apply (usuperset_sound (unknown l) (unknown r)); [apply Hn | apply Hs | exact Hm].
  Qed.

  Lemma undefined_csuperset (l r : coll_ K kind) key : csuperset keqb S l r = true ->
    p_undefined (prims_of (coll_at keqb r key)) = true -> p_undefined (prims_of (coll_at keqb l key)) = true.
  Proof.
    intros Hs Hu. unfold coll_at in Hu. destruct (aget keqb (known r) key) as [ok|] eqn:Er.
    - apply (HSu _ ok (csuperset_known_r l r key ok Hs Er) Hu).
    - unfold coll_at. destruct (aget keqb (known l) key) as [sk|] eqn:El; [|apply p_undefined_unknown_kind].
      apply (HSu _ _ (csuperset_known_l l r key sk Hs El Er)), p_undefined_unknown_kind.
  Qed.

  Lemma fits_csuperset has lacks (l r : coll_ K kind) : nea_coll l = true -> csuperset keqb S l r = true ->
    fits keqb has lacks r -> fits keqb has lacks l.
  Proof.
    intros Hn Hs [H1 H2]. split.
    - intros key w Hw. apply (coll_at_csuperset l r); auto.
    - intros key Hk. apply (undefined_csuperset l r); auto.
  Qed.
End CSup.

Lemma prims_superset_spec x y : prims_superset x y = true ->
  (p_bytes y = true -> p_bytes x = true) /\ (p_integer y = true -> p_integer x = true)
  /\ (p_float y = true -> p_float x = true) /\ (p_boolean y = true -> p_boolean x = true)
  /\ (p_timestamp y = true -> p_timestamp x = true) /\ (p_regex y = true -> p_regex x = true)
  /\ (p_null y = true -> p_null x = true) /\ (p_undefined y = true -> p_undefined x = true).
Proof. unfold prims_superset. rewrite !andb_true_iff. intuition eauto using implb'_elim. Qed.

Lemma superset_f_undefined n x y : superset_f n x y = true ->
  p_undefined (prims_of y) = true -> p_undefined (prims_of x) = true.
Proof.
  destruct n; cbn; [discriminate|]. rewrite !andb_true_iff. intros [[H _] _].
  apply prims_superset_spec in H. tauto.
Qed.

(* a container state of the subtype test: the smaller kind may have it only if the larger has *)
Lemma sup_opt_sound {A} (ok na : A -> bool) (f : A -> A -> bool) a b :
  (forall x y, na x = true -> f x y = true -> ok y = true -> ok x = true) ->
  match a with Some x => na x | None => true end = true -> sup_opt f a b = true ->
  match b with Some y => ok y | None => false end = true -> match a with Some x => ok x | None => false end = true.
Proof. destruct a as [x|], b as [y|]; cbn; intros H Hn Hf Hb; try discriminate. apply (H x y Hn Hf Hb). Qed.

Theorem superset_f_sound : forall n a b v, no_exact_any a = true -> superset_f n a b = true ->
  member v b = true -> member v a = true.
Proof.
  induction n as [|n IH]; intros a b v Hn Hs Hm; [discriminate|].
  cbn [superset_f] in Hs. rewrite !andb_true_iff in Hs. destruct Hs as [[Hp Ha] Ho].
  destruct (prims_superset_spec _ _ Hp) as (Sb & Si & Sf & SB & St & Sr & Sn & Su).
  rewrite no_exact_any_unfold in Hn. apply andb_true_iff in Hn. destruct Hn as [Hna Hno].
  destruct v; try (cbn in *; auto; fail).
  - rewrite !member_obj in *. revert Hno Ho Hm. apply sup_opt_sound. intros x y Hx Hxy. rewrite !obj_ok_fits.
    apply (fits_csuperset bytes_eqb bytes_eqb_eq (superset_f n) IH (superset_f_undefined n)); auto.
  - rewrite !member_arr in *. revert Hna Ha Hm. apply sup_opt_sound. intros x y Hx Hxy. rewrite !arr_ok_fits.
    apply (fits_csuperset Nat.eqb Nat.eqb_eq (superset_f n) IH (superset_f_undefined n)); auto.
Qed.
