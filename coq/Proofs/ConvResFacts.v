(* The range tests of Model/ConvRes.v (and every test of the same shape) as linear arithmetic. *)
From Coq Require Import ZArith Bool.
From VRL Require Import Model.ConvRes Model.UnixTs.
Local Open Scope Z_scope.

Lemma leb_between lo hi v : (lo <=? v) && (v <=? hi) = true <-> lo <= v <= hi.
Proof. rewrite andb_true_iff, !Z.leb_le. tauto. Qed.

Lemma in_i64_iff z : in_i64 z = true <-> - 2 ^ 63 <= z <= 2 ^ 63 - 1.
Proof. apply leb_between. Qed.

Lemma secs_in_range_iff s : secs_in_range s = true <-> ts_min_secs <= s <= ts_max_secs.
Proof. apply leb_between. Qed.
