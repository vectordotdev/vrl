(* Soundness of Kind::at_path / Kind::get with respect to `member`. *)
From Coq Require Import List ZArith Bool Lia.
From VRL Require Import Base.Bytes Base.Value Model.ValueCrud Model.Kind Model.KindCrud Model.KindDomains
  Proofs.ValueCrudProofs Proofs.KindBasics Proofs.KindMergeProofs.
Import ListNotations.

Lemma at_path_nil k : at_path k [] = k.
Proof. cbn. destruct (is_never k) eqn:E; [symmetry; apply is_never_eq, E | reflexivity]. Qed.

Lemma at_path_undefined p : at_path k_undefined p = k_undefined.
Proof. induction p as [|[f|i] p IH]; cbn; auto. Qed.

Lemma at_path_never k p : is_never k = true -> at_path k p = k_never.
Proof. intros H. destruct p; cbn; rewrite H; reflexivity. Qed.

Lemma at_path_step k s p : is_never k = false -> at_path k (s :: p) = at_path (at_seg k s) p.
Proof.
  intros Hn. cbn [at_path]. rewrite Hn. destruct s as [f|i]; cbn [at_seg]; auto.
  destruct (arr_of k) as [c|]; [|symmetry; apply at_path_undefined].
  destruct (i <? 0)%Z; auto.
  destruct (contains_any_defined (unknown_kind c)); auto.
  destruct (Nat.leb _ _); auto. symmetry; apply at_path_undefined.
Qed.

Lemma at_path_single k s : is_never k = false -> at_path k [s] = at_seg k s.
Proof. intros Hn. rewrite at_path_step, at_path_nil by exact Hn. reflexivity. Qed.

Lemma contains_undefined_flag k : p_undefined (prims_of k) = true -> contains_undefined k = true.
Proof. unfold contains_undefined. intros ->. reflexivity. Qed.

Lemma contains_undefined_not_never k : is_never k = false -> contains_undefined k = true ->
  p_undefined (prims_of k) = true.
Proof. unfold contains_undefined. intros ->. rewrite orb_false_r. auto. Qed.

Lemma contains_undefined_k_undefined : contains_undefined k_undefined = true.
Proof. reflexivity. Qed.

Lemma member_opt_or_undefined o k : member_opt o k = true -> member_opt o (or_undefined k) = true.
Proof.
  destruct o; cbn [member_opt]; [rewrite member_or_undefined; auto|].
  intros _. apply contains_undefined_flag, p_undefined_or_undefined.
Qed.

(* get_field and at_index: what the collection says, weakened unless the kind is that container only *)
Lemma member_opt_unless (b : bool) o kk : member_opt o kk = true ->
  member_opt o (if b then kk else or_undefined kk) = true.
Proof. destruct b; auto using member_opt_or_undefined. Qed.

Lemma obj_ok_get m c f : obj_ok m c = true -> member_opt (obj_get m f) (coll_at bytes_eqb c f) = true.
Proof.
  intros H. destruct (obj_get m f) eqn:E; cbn [member_opt].
  - eapply obj_ok_elem; eauto using obj_get_in.
  - apply contains_undefined_flag. eapply obj_ok_absent; eauto.
Qed.

Lemma arr_ok_nth vs c i : arr_ok vs c = true -> member_opt (nth_error vs i) (coll_at Nat.eqb c i) = true.
Proof.
  intros H. destruct (nth_error vs i) eqn:E; cbn [member_opt].
  - eapply arr_ok_elem; eauto.
  - apply contains_undefined_flag. eapply arr_ok_absent; eauto. apply nth_error_None, E.
Qed.

Definition vstep (o : option value) (s : seg) : option value :=
  match o, s with
  | Some (VObj m), SField f => obj_get m f
  | Some (VArr a), SIndex i => arr_get a i
  | _, _ => None
  end.

Lemma get_opt_none p : get_opt None p = None.
Proof. reflexivity. Qed.

Lemma get_none_step : forall p s, get_opt (vstep None s) p = None.
Proof. intros. destruct s; reflexivity. Qed.

Lemma get_opt_step o s p : get_opt o (s :: p) = get_opt (vstep o s) p.
Proof. destruct o as [v|], s; try reflexivity; destruct v; reflexivity. Qed.

(* the slot is absent, or holds something that is not the container the segment needs *)
Definition off_container (o : option value) (k : kind) (s : seg) : Prop :=
  match o with
  | None => p_undefined (prims_of k) = true
  | Some v => member v k = true /\ match s with SField _ => forall m, v <> VObj m | SIndex _ => forall vs, v <> VArr vs end
  end.

Definition has_container (k : kind) (s : seg) : bool :=
  match s with SField _ => is_some (obj_of k) | SIndex _ => is_some (arr_of k) end.

(* then the kind has a second state beside that container *)
Lemma off_not_exact o k s : off_container o k s -> has_container k s = true -> is_exact k = false.
Proof.
  destruct k as [p a c]. unfold is_exact, nstates. intros Hoff Hc. apply Nat.leb_gt.
  assert (forall b, b = true -> Nat.b2n b = 1) as B by (intros ? ->; reflexivity).
  destruct s, a, c; cbn in Hc; try discriminate Hc; cbn [is_some Nat.b2n];
    (destruct o as [v|]; cbn in Hoff; [destruct Hoff as [Hm Hv] | rewrite (B _ Hoff); lia]);
    destruct v; cbn in Hm; try (rewrite (B _ Hm); lia); try discriminate Hm; try lia;
    exfalso; eapply Hv; reflexivity.
Qed.

Lemma exact_arr_only k c v : is_exact k = true -> arr_of k = Some c -> member v k = true ->
  exists vs, v = VArr vs.
Proof.
  intros Ex Ha Hm. assert (~ forall vs, v <> VArr vs) as H.
  { intros Hv. rewrite (off_not_exact (Some v) k (SIndex 0%Z)) in Ex;
      [discriminate | split; assumption | cbn; rewrite Ha; reflexivity]. }
  destruct v; eauto; exfalso; apply H; discriminate.
Qed.

Lemma known_len_gt c j : aget Nat.eqb (known c) j <> None -> j < known_len c.
Proof. intros H. apply max_opt_lt, (in_keys_aget Nat.eqb Nat.eqb_eq), H. Qed.

Lemma known_len_last c : known_len c = 0 \/ aget Nat.eqb (known c) (known_len c - 1) <> None.
Proof.
  unfold known_len. pose proof (max_opt_spec (map fst (known c))) as Hs.
  destruct (max_opt _) as [m|]; [right | left; reflexivity].
  replace (S m - 1) with m by lia. apply (in_keys_aget Nat.eqb Nat.eqb_eq), Hs.
Qed.

(* a required known element is there *)
Lemma arr_len_ge {vs c} : arr_ok vs c = true -> all_required c = true -> known_len c <= length vs.
Proof.
  intros Hok Hr. destruct (known_len_last c) as [->|Hk]; [lia|].
  destruct (Nat.le_gt_cases (known_len c) (length vs)); auto. exfalso.
  destruct (aget Nat.eqb (known c) (known_len c - 1)) as [kk|] eqn:E; [|congruence].
  pose proof (arr_ok_absent (i := known_len c - 1) Hok ltac:(lia)) as Hu. rewrite (coll_at_known E) in Hu.
  unfold all_required in Hr. rewrite forallb_forall in Hr.
  specialize (Hr _ (aget_in Nat.eqb Nat.eqb_eq E)). cbn in Hr. rewrite Hu in Hr. discriminate.
Qed.

(* an element beyond the known ones needs an unknown kind with a defined state *)
Lemma arr_len_le {vs c} : arr_ok vs c = true -> contains_any_defined (unknown_kind c) = false ->
  length vs <= known_len c.
Proof.
  intros Hok Hd. destruct (Nat.le_gt_cases (length vs) (known_len c)); auto. exfalso.
  destruct (nth_error vs (known_len c)) as [x|] eqn:En; [|apply nth_error_None in En; lia].
  pose proof (arr_ok_elem Hok En) as Hm.
  rewrite coll_at_unknown, (not_defined_no_member Hd) in Hm; [discriminate|].
  destruct (aget Nat.eqb (known c) (known_len c)) eqn:E; auto.
  assert (known_len c < known_len c) by (apply known_len_gt; congruence). lia.
Qed.

Lemma exact_length {vs c} : arr_ok vs c = true -> all_required c = true ->
  contains_any_defined (unknown_kind c) = false -> length vs = known_len c.
Proof. intros Hok Hr Hd. pose proof (arr_len_ge Hok Hr). pose proof (arr_len_le Hok Hd). lia. Qed.

Lemma neg_fold_acc mi l : forall acc v, neg_fold_ok mi l acc = true ->
  member v acc = true -> member v (neg_fold mi l acc) = true.
Proof.
  induction l as [|kv r IH]; intros acc v Hok Hm; cbn in *; auto.
  destruct (Nat.leb mi (fst kv)); [|apply IH; auto].
  apply andb_true_iff in Hok. destruct Hok as [Hc Hok]. apply IH; auto. apply union_sound; auto.
Qed.

Lemma neg_fold_elem mi l : forall acc v j kk, neg_fold_ok mi l acc = true ->
  In (j, kk) l -> mi <= j -> member v kk = true -> member v (neg_fold mi l acc) = true.
Proof.
  induction l as [|kv r IH]; intros acc v j kk Hok Hin Hj Hm; cbn in *; [contradiction|].
  destruct Hin as [->|Hin].
  - cbn in *. destruct (Nat.leb_spec mi j); [|lia].
    apply andb_true_iff in Hok. destruct Hok as [Hc Hok].
    apply (neg_fold_acc mi r); auto. apply union_sound; auto.
  - destruct (Nat.leb mi (fst kv)); [apply andb_true_iff in Hok; destruct Hok as [Hc Hok]|]; eapply IH; eauto.
Qed.

Lemma neg_fold_undefined mi l : forall acc, p_undefined (prims_of acc) = true ->
  p_undefined (prims_of (neg_fold mi l acc)) = true.
Proof.
  induction l as [|kv r IH]; intros acc H; cbn; auto.
  destruct (Nat.leb mi (fst kv)); apply IH; auto. apply union_undefined; auto.
Qed.

(* a negative index into an array of unknown length: the element it designates lies at or behind
   `min_index`, where the fold has collected every known kind, or beyond the known ones *)
Lemma neg_unknown_sound k c vs i : (i < 0)%Z -> arr_ok vs c = true -> all_required c = true ->
  (let '(kind1, mi) := neg_unknown_params k c i in neg_fold_ok mi (known c) kind1) = true ->
  member_opt (arr_get vs i) (let '(kind1, mi) := neg_unknown_params k c i in neg_fold mi (known c) kind1) = true.
Proof.
  intros Hi Hm Hreq Hok. pose proof (arr_len_ge Hm Hreq) as Hge.
  unfold neg_unknown_params in *. fold (known_len c) in *. rewrite (arr_get_negative vs i Hi).
  destruct (Nat.leb_spec (Z.to_nat (- i)) (length vs)) as [Hr|Hr].
  - set (j := length vs - Z.to_nat (- i)).
    destruct (nth_error vs j) as [x|] eqn:En; [|apply nth_error_None in En; lia].
    cbn [member_opt]. pose proof (arr_ok_elem Hm En) as Hx.
    destruct (aget Nat.eqb (known c) j) as [kk|] eqn:E.
    + rewrite (coll_at_known E) in Hx.
      apply (neg_fold_elem _ _ _ _ j kk Hok (aget_in Nat.eqb Nat.eqb_eq E)); [lia | exact Hx].
    + rewrite (coll_at_unknown E) in Hx. apply neg_fold_acc; auto.
      destruct (is_exact k && _); [rewrite member_remove_undefined|]; exact Hx.
  - cbn [member_opt]. apply contains_undefined_flag, neg_fold_undefined.
    destruct (Z.ltb_spec (Z.of_nat (known_len c) + i) 0); [|lia].
    rewrite andb_false_r. apply p_undefined_unknown_kind.
Qed.

(* a value that is not the container, or no value at all: the step finds nothing, and the kind admits that *)
Lemma at_seg_off o k s : off_container o k s -> p_undefined (prims_of (at_seg k s)) = true.
Proof.
  intros Hoff. pose proof (off_not_exact o k s Hoff) as Hex. destruct s as [f|i]; cbn [at_seg has_container] in *.
  - unfold get_field. destruct (obj_of k) as [c|]; [|reflexivity].
    rewrite Hex by reflexivity. apply p_undefined_or_undefined.
  - destruct (arr_of k) as [c|]; [|reflexivity]. specialize (Hex eq_refl).
    assert (forall idx, p_undefined (prims_of (at_index k c idx)) = true) as Hat
      by (intros idx; unfold at_index; rewrite Hex; apply p_undefined_or_undefined).
    destruct (i <? 0)%Z; auto. destruct (contains_any_defined (unknown_kind c)).
    + unfold neg_unknown_params. rewrite Hex. apply neg_fold_undefined, p_undefined_unknown_kind.
    + destruct (Nat.leb _ _); auto.
Qed.

Lemma seg_sound o k s : is_never k = false -> seg_ok k s = true -> member_opt o k = true ->
  member_opt (vstep o s) (at_seg k s) = true.
Proof.
  intros Hn Hok Hm.
  assert (off_container o k s -> vstep o s = None -> member_opt (vstep o s) (at_seg k s) = true) as Hoff.
  { intros H ->. apply contains_undefined_flag. eapply at_seg_off; eauto. }
  destruct o as [v|]; cbn [member_opt] in Hm.
  2:{ apply Hoff; [|destruct s; reflexivity]. apply contains_undefined_not_never; auto. }
  destruct s as [f|i]; destruct v; try (apply Hoff; [split; [exact Hm | discriminate] | reflexivity]);
    cbn [vstep at_seg seg_ok] in *.
  - unfold get_field. rewrite member_obj in Hm. destruct (obj_of k) as [c|]; [|discriminate].
    apply member_opt_unless, obj_ok_get, Hm.
  - rewrite member_arr in Hm. destruct (arr_of k) as [c|]; [|discriminate]. unfold at_index.
    destruct (Z.ltb_spec i 0) as [Hi|Hi]; [|rewrite (arr_get_nonneg vs i Hi); apply member_opt_unless, arr_ok_nth, Hm].
    apply andb_true_iff in Hok. destruct Hok as [Hreq Hok].
    destruct (contains_any_defined (unknown_kind c)) eqn:Hd; [apply neg_unknown_sound; auto|].
    (* the length is known exactly *)
    rewrite (arr_get_negative vs i Hi), (exact_length Hm Hreq Hd). fold (known_len c).
    destruct (Nat.leb_spec (Z.to_nat (- i)) (known_len c)); [|reflexivity].
    replace (Z.to_nat (i + Z.of_nat (known_len c))) with (known_len c - Z.to_nat (- i)) by lia.
    apply member_opt_unless, arr_ok_nth, Hm.
Qed.

Lemma get_opt_sound p : forall o k, get_ok k p = true -> member_opt o k = true ->
  member_opt (get_opt o p) (at_path k p) = true.
Proof.
  induction p as [|s p IH]; intros o k Hok Hm; destruct (is_never k) eqn:Hn.
  1,3: rewrite (at_path_never _ _ Hn); destruct o as [v|]; [|reflexivity];
       cbn [member_opt] in Hm; rewrite (member_is_never _ _ Hn) in Hm; discriminate.
  - rewrite at_path_nil. destruct o; exact Hm.
  - rewrite (at_path_step _ _ _ Hn), get_opt_step. cbn [get_ok] in Hok. rewrite Hn in Hok.
    apply andb_true_iff in Hok. destruct Hok as [Hs Hok].
    apply IH; auto. apply seg_sound; auto.
Qed.

Theorem get_sound v k p : get_ok k p = true -> member v k = true ->
  member_opt (get v p) (at_path k p) = true.
Proof. intros Hok Hm. apply (get_opt_sound p (Some v) k Hok Hm). Qed.

(* paths without negative indices need no side condition *)
Fixpoint nonneg_path (p : path) : bool :=
  match p with
  | [] => true
  | SField _ :: p' => nonneg_path p'
  | SIndex i :: p' => (0 <=? i)%Z && nonneg_path p'
  end.

Lemma nonneg_get_ok p : nonneg_path p = true -> forall k, get_ok k p = true.
Proof.
  induction p as [|s p IH]; intros Hp k; cbn [get_ok]; destruct (is_never k); auto.
  destruct s as [f|i]; cbn in *.
  - apply IH; auto.
  - apply andb_true_iff in Hp. destruct Hp as [Hi Hp]. destruct (Z.ltb_spec i 0); [lia|]. apply IH; auto.
Qed.

