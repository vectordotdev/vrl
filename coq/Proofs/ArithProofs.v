(* Proofs about Model/Arith.v (C10, C11).  Everything here is closed under the global context (no axioms);
   the statements that need the real-number semantics of binary64 are in Proofs/ArithFloatProofs.v. *)
From Coq Require Import List ZArith Bool Lia.
From Coq Require Import Floats.SpecFloat.
From VRL Require Import Base.Bytes Base.Value Model.Arith.
Import ListNotations.
Local Open Scope Z_scope.

Lemma wrap64_range z : in_i64 (wrap64 z).
Proof.
  unfold in_i64, wrap64, two63, two64.
  pose proof (Z.mod_pos_bound (z + 9223372036854775808) 18446744073709551616 ltac:(lia)). lia.
Qed.

Lemma wrap64_mod z : (wrap64 z - z) mod two64 = 0.
Proof.
  unfold wrap64. replace (_ - two63 - z) with ((z + two63) mod two64 - (z + two63)) by lia.
  rewrite Zminus_mod_idemp_l, Z.sub_diag. reflexivity.
Qed.

Lemma wrap64_id z : in_i64 z -> wrap64 z = z.
Proof.
  unfold in_i64, wrap64, two63, two64. intros H. rewrite Z.mod_small; lia.
Qed.

(* the wrap is the only representative in range: two of them differ by a multiple of 2^64 smaller than 2^64 *)
Lemma wrap64_unique z r : in_i64 r -> (r - z) mod two64 = 0 -> r = wrap64 z.
Proof.
  intros Hr Hm. pose proof (wrap64_range z) as Hw. pose proof (wrap64_mod z) as Hz.
  apply Z.mod_divide in Hm, Hz; try discriminate. destruct Hm as [j Hj], Hz as [k Hk].
  unfold in_i64, two63, two64 in *. assert (j - k = 0) by nia. lia.
Qed.

Lemma wrapping_rem_eq a b : wrapping_rem a b = Z.rem a b.
Proof.
  unfold wrapping_rem. destruct (Z.eqb_spec b (-1)) as [->|]; [|reflexivity].
  symmetry. change (-1) with (- (1)). rewrite Z.rem_opp_r by lia. apply Z.rem_1_r.
Qed.

(* the remainder is no larger than the dividend and has its sign *)
Lemma rem_in_i64 a b : in_i64 a -> b <> 0 -> in_i64 (Z.rem a b).
Proof.
  unfold in_i64. intros Ha Hb. pose proof (Z.rem_sign_mul a b Hb).
  assert (Z.abs (Z.rem a b) <= Z.abs a) by (rewrite <- Z.rem_abs by assumption; apply Z.rem_le; lia).
  nia.
Qed.

Lemma SFcompare_some f g : f_is_nan f = false -> f_is_nan g = false -> exists c, SFcompare f g = Some c.
Proof. destruct f, g; cbn; intros; try discriminate; eauto. Qed.

Lemma SFcompare_none f g : SFcompare f g = None -> f_is_nan f = true \/ f_is_nan g = true.
Proof. destruct f, g; cbn; intros; try discriminate; auto. Qed.

Lemma SFcompare_antisym f g c : SFcompare f g = Some c -> SFcompare g f = Some (CompOpp c).
Proof.
  destruct f as [[]|[]| |[] m e], g as [[]|[]| |[] n e']; cbn; try discriminate; intros [= <-]; try reflexivity;
    (* two finite numbers of the same sign *)
    rewrite (Z.compare_antisym e e'); destruct (e ?= e'); cbn; try reflexivity;
    rewrite (Pos.compare_cont_antisym m n Eq); reflexivity.
Qed.

Lemma SFcompare_refl f : f_is_nan f = false -> SFcompare f f = Some Eq.
Proof.
  (* the only comparison that is its own opposite *)
  intros H. destruct (SFcompare_some f f H H) as [c Hc]. pose proof (SFcompare_antisym f f c Hc) as Ha.
  rewrite Hc in Ha. destruct c; [exact Hc | discriminate | discriminate].
Qed.

Lemma SFcompare_Eq f g : SFcompare f g = Some Eq -> f = g \/ (f_is_zero f = true /\ f_is_zero g = true).
Proof.
  destruct f as [[]|[]| |[] m e], g as [[]|[]| |[] n e']; cbn; try discriminate; auto;
    (* two finite numbers of the same sign: equal exponents, then equal mantissas *)
    destruct (e ?= e') eqn:E; try discriminate; apply Z.compare_eq in E; subst e';
    change (Pos.compare_cont Eq m n) with (m ?= n)%positive;
    destruct (m ?= n)%positive eqn:E2; try discriminate; apply Pos.compare_eq in E2; subst; auto.
Qed.

Lemma f_eq_refl f : f_is_nan f = false -> f_eq f f = true.
Proof. intros H. unfold f_eq, SFeqb. rewrite SFcompare_refl; auto. Qed.

Lemma f_eq_iff f g : f_is_nan f = false ->
  (f_eq f g = true <-> f = g \/ (f_is_zero f = true /\ f_is_zero g = true)).
Proof.
  intros Hf. split.
  - unfold f_eq, SFeqb. destruct (SFcompare f g) as [[]|] eqn:E; try discriminate. intros _. apply SFcompare_Eq, E.
  - intros [<-|[Hz1 Hz2]]; [apply f_eq_refl, Hf | destruct f, g; try discriminate; reflexivity].
Qed.

(* `i as f64` is never NaN: binary_round_aux answers NaN only on a negative mantissa, and the shifts and the rounding
   keep a mantissa non-negative. *)

Section NoNan.
  Variables prec emax : Z.

  Lemma shr_1_nonneg mrs : 0 <= shr_m mrs -> 0 <= shr_m (shr_1 mrs).
  Proof. destruct mrs as [m r s]. destruct m as [|[p|p|]|p]; cbn; lia. Qed.

  Lemma iter_pos_inv {A} (P : A -> Prop) (f : A -> A) :
    (forall x, P x -> P (f x)) -> forall n x, P x -> P (iter_pos f n x).
  Proof. intros Hf. induction n as [n IH|n IH|]; intros x Hx; cbn; auto. Qed.

  Lemma shr_nonneg mrs e n : 0 <= shr_m mrs -> 0 <= shr_m (fst (shr mrs e n)).
  Proof.
    intros H. unfold shr. destruct n; cbn; auto.
    apply (iter_pos_inv (fun x => 0 <= shr_m x)); auto. apply shr_1_nonneg.
  Qed.

  Lemma shr_fexp_nonneg m e l : 0 <= m -> 0 <= shr_m (fst (shr_fexp prec emax m e l)).
  Proof.
    intros H. unfold shr_fexp. apply shr_nonneg. destruct l as [|[]]; cbn; assumption.
  Qed.

  Lemma round_nearest_even_nonneg m l : 0 <= m -> 0 <= round_nearest_even m l.
  Proof. intros H. destruct l as [|[]]; cbn; try lia. destruct (Z.even m); lia. Qed.

  Lemma binary_round_aux_not_nan sx mx ex lx : 0 <= mx ->
    f_is_nan (binary_round_aux prec emax sx mx ex lx) = false.
  Proof.
    intros H. unfold binary_round_aux.
    pose proof (shr_fexp_nonneg mx ex lx H) as H1.
    destruct (shr_fexp prec emax mx ex lx) as [mrs' e']. cbn [fst] in H1.
    pose proof (shr_fexp_nonneg _ e' loc_Exact (round_nearest_even_nonneg _ (loc_of_shr_record mrs') H1)) as H2.
    destruct (shr_fexp prec emax (round_nearest_even (shr_m mrs') (loc_of_shr_record mrs')) e' loc_Exact) as [mrs'' e''].
    cbn [fst] in H2. destruct (shr_m mrs'') as [|p|p]; cbn; try reflexivity; try lia.
    destruct (Zle_bool e'' (emax - prec)); reflexivity.
  Qed.

  Lemma binary_round_not_nan sx mx ex : f_is_nan (binary_round prec emax sx mx ex) = false.
  Proof.
    unfold binary_round. destruct (shl_align mx ex (fexp prec emax (Z.pos (digits2_pos mx) + ex))) as [mz ez].
    apply binary_round_aux_not_nan. lia.
  Qed.

  Lemma binary_normalize_not_nan m e s : f_is_nan (binary_normalize prec emax m e s) = false.
  Proof. destruct m; cbn; auto using binary_round_not_nan. Qed.
End NoNan.

Lemma of_i64_not_nan a : f_is_nan (of_i64 a) = false.
Proof. apply binary_normalize_not_nan. Qed.

(* All six operators answer from one `comparison` c of the two operands: an ordering operator o answers cmp_holds o c,
   == answers is_Eq c.  Their consistency is then a fact about c alone (compare_consistent). *)
Definition cmp_holds (o : cmp_op) (c : comparison) : bool :=
  match o, c with
  | CGt, Gt | CGe, (Gt | Eq) | CLt, Lt | CLe, (Lt | Eq) => true
  | _, _ => false
  end.

Definition is_Eq (c : comparison) : bool := match c with Eq => true | _ => false end.

Lemma z_cmp_compare o a b : z_cmp o a b = cmp_holds o (a ?= b).
Proof. destruct o; cbn; unfold Z.gtb, Z.geb, Z.ltb, Z.leb; destruct (a ?= b); reflexivity. Qed.

Lemma b_cmp_compare o s t : b_cmp o s t = cmp_holds o (bytes_cmp s t).
Proof. destruct o; reflexivity. Qed.

Lemma f_cmp_compare f g c : SFcompare f g = Some c ->
  (forall o, f_cmp o f g = cmp_holds o c) /\ f_eq f g = is_Eq c.
Proof.
  intros H. pose proof (SFcompare_antisym _ _ _ H) as H'.
  split; [intros o; destruct o|]; unfold f_cmp, f_gt, f_ge, f_lt, f_le, f_eq, SFltb, SFleb, SFeqb; rewrite ?H, ?H';
    destruct c; reflexivity.
Qed.

Lemma compare_consistent x y c :
  (forall o, try_cmp o x y = Ok (VBool (cmp_holds o c))) -> eq_lossy x y = is_Eq c -> cmp_consistent x y.
Proof.
  intros Ho He. exists (cmp_holds CLt c), (is_Eq c), (cmp_holds CGt c).
  cbn [binop]. unfold try_lt, try_gt, try_le, try_ge. rewrite !Ho, He. destruct c; repeat split; reflexivity.
Qed.

(* integers and timestamps: the operators go through z_cmp and Z.eqb, on a and b *)
Lemma z_cmp_consistent x y a b :
  (forall o, try_cmp o x y = Ok (VBool (z_cmp o a b))) -> eq_lossy x y = (a =? b) -> cmp_consistent x y.
Proof.
  intros Ho He.
  apply (compare_consistent x y (a ?= b)); [intros o; rewrite Ho, z_cmp_compare; reflexivity | rewrite He; apply Z.eqb_compare].
Qed.

(* two numbers, not both integers: the operators go through f64, on f and g *)
Lemma f_cmp_consistent x y f g :
  (forall o, try_cmp o x y = Ok (VBool (f_cmp o f g))) -> eq_lossy x y = f_eq f g ->
  f_is_nan f = false -> f_is_nan g = false -> cmp_consistent x y.
Proof.
  intros Ho He Hf Hg. destruct (SFcompare_some f g Hf Hg) as [c Hc]. destruct (f_cmp_compare f g c Hc) as [Hc1 Hc2].
  apply (compare_consistent x y c); [intros o; rewrite Ho, Hc1; reflexivity | rewrite He; exact Hc2].
Qed.

(* the six operators are consistent on every pair they order: two numbers, two strings, two timestamps *)
Theorem orderable_consistent x y : orderable x y = true -> no_nan x = true -> no_nan y = true -> cmp_consistent x y.
Proof.
  destruct x as [s| |i|f| |i| | |], y as [t| |j|g| |j| | |]; try discriminate; cbn [no_nan]; intros _ Hx Hy;
    try apply negb_true_iff in Hx; try apply negb_true_iff in Hy.
  - apply (compare_consistent _ _ (bytes_cmp s t)); [intros o; cbn; rewrite b_cmp_compare; reflexivity | apply bytes_eqb_cmp].
  - apply (z_cmp_consistent _ _ i j); reflexivity.
  - apply (f_cmp_consistent _ _ (of_i64 i) g); auto using of_i64_not_nan.
  - apply (f_cmp_consistent _ _ f (of_i64 j)); auto using of_i64_not_nan.
  - apply (f_cmp_consistent _ _ f g); auto.
  - apply (z_cmp_consistent _ _ i j); reflexivity.
Qed.

Lemma number_ne_other v w : is_number v = true -> is_number w = false -> eq_lossy v w = false /\ eq_lossy w v = false.
Proof.
  intros Hv Hw. destruct v; try discriminate; destruct w; try discriminate; split; reflexivity.
Qed.

Lemma not_orderable x y o : orderable x y = false -> try_cmp o x y = Err EType.
Proof. destruct x, y; cbn; try discriminate; reflexivity. Qed.

Lemma f_eq_norm0 f g : f_is_nan f = false -> f_eq f g = sf_eqb (f_norm0 f) (f_norm0 g).
Proof.
  intros Hf. apply eq_true_iff_eq. rewrite (f_eq_iff f g Hf), sf_eqb_eq.
  destruct f, g; cbn; intuition (discriminate || congruence).
Qed.

Lemma value_eq_structural v : no_nan v = true -> forall w, value_eq v w = value_eqb (norm_zero v) (norm_zero w).
Proof.
  induction v using value_ind'; intros Hn w; destruct w; cbn in *; try reflexivity.
  - apply f_eq_norm0. destruct f; cbn in *; congruence.
  - rename kvs0 into l2. revert l2. induction H as [|[k1 v1] r1 Hv Hr IH]; intros [|[k2 v2] r2]; cbn in *; try reflexivity.
    apply andb_true_iff in Hn. destruct Hn as [Hn1 Hn2].
    rewrite (Hv Hn1 v2). rewrite (IH Hn2 r2). reflexivity.
  - rename vs0 into l2. revert l2. induction H as [|v1 r1 Hv Hr IH]; intros [|v2 r2]; cbn in *; try reflexivity.
    apply andb_true_iff in Hn. destruct Hn as [Hn1 Hn2].
    rewrite (Hv Hn1 v2). rewrite (IH Hn2 r2). reflexivity.
Qed.

Lemma norm_zero_id v : no_float_zero v = true -> norm_zero v = v.
Proof.
  induction v using value_ind'; intros Hn; cbn in *; try reflexivity.
  - destruct f; cbn in *; try discriminate; reflexivity.
  - f_equal. induction H as [|[k1 v1] r1 Hv Hr IH]; cbn in *; try reflexivity.
    apply andb_true_iff in Hn. destruct Hn as [Hn1 Hn2]. rewrite (Hv Hn1), (IH Hn2). reflexivity.
  - f_equal. induction H as [|v1 r1 Hv Hr IH]; cbn in *; try reflexivity.
    apply andb_true_iff in Hn. destruct Hn as [Hn1 Hn2]. rewrite (Hv Hn1), (IH Hn2). reflexivity.
Qed.

Lemma float_result_ok f v : float_result f = Ok v -> v = VFloat f /\ f_is_nan f = false.
Proof. unfold float_result. destruct (f_is_nan f); intros [= <-]; auto. Qed.

Lemma float_result_err f e : float_result f = Err e -> e = ENan /\ f_is_nan f = true.
Proof. unfold float_result. destruct (f_is_nan f); intros [= <-]; auto. Qed.

(* `/` and mod on operands of every kind: the zero test on the divisor comes first, whatever is on the left *)
Lemma try_div_eq x y :
  try_div x y =
  if divisor_is_zero y then Err EDivZero
  else if is_number x && is_number y then float_result (f_div (to_f x) (to_f y)) else Err EType.
Proof.
  destruct y as [| |b| | | | | |]; try (destruct x; reflexivity).
  destruct b, x; cbn [try_div divisor_is_zero is_number to_f andb]; reflexivity.
Qed.

Lemma try_rem_eq x y :
  try_rem x y =
  if divisor_is_zero y then Err EDivZero
  else match x, y with
       | VInt a, VInt b => Ok (VInt (Z.rem a b))
       | _, _ => if is_number x && is_number y then float_result (sf_rem (to_f x) (to_f y)) else Err EType
       end.
Proof.
  destruct y as [| |b| | | | | |]; try (destruct x; reflexivity).
  destruct b, x; cbn [try_rem divisor_is_zero is_number to_f andb]; rewrite ?wrapping_rem_eq; reflexivity.
Qed.

Lemma float_result_not_div_zero f : float_result f <> Err EDivZero.
Proof. intros H. apply float_result_err in H. destruct H; discriminate. Qed.

Lemma div_zero_iff x y : try_div x y = Err EDivZero <-> divisor_is_zero y = true.
Proof.
  rewrite try_div_eq. destruct (divisor_is_zero y); [tauto|]. split; [|discriminate].
  destruct (is_number x && is_number y); [intros H; destruct (float_result_not_div_zero _ H) | discriminate].
Qed.

Lemma rem_zero_iff x y : try_rem x y = Err EDivZero <-> divisor_is_zero y = true.
Proof.
  rewrite try_rem_eq. destruct (divisor_is_zero y); [tauto|]. split; [|discriminate].
  destruct x, y; try discriminate; intros H; destruct (float_result_not_div_zero _ H).
Qed.

Lemma div_yields_float x y v : try_div x y = Ok v -> exists f, v = VFloat f /\ f_is_nan f = false.
Proof.
  rewrite try_div_eq. destruct (divisor_is_zero y), (is_number x && is_number y); try discriminate.
  intros H. apply float_result_ok in H. eauto.
Qed.

(* every float an operator returns has passed float_result *)
Lemma never_nan o x y f : binop o x y = Ok (VFloat f) -> f_is_nan f = false.
Proof.
  assert (R : forall g, float_result g = Ok (VFloat f) -> f_is_nan f = false).
  { intros g H. apply float_result_ok in H. destruct H as [[= <-] H]. exact H. }
  (* `/` and mod (second and last) by their equations; then every arm is float_result, another value, or an error *)
  destruct o; cbn [binop]; try discriminate;
    [ | rewrite try_div_eq; destruct (divisor_is_zero y); [discriminate|] | ..
      | rewrite try_rem_eq; destruct (divisor_is_zero y); [discriminate|] ];
    destruct x; try discriminate; destruct y; try discriminate; apply R.
Qed.

Lemma concat_repeat_nil {A} n : concat (repeat (@nil A) n) = [].
Proof. induction n; cbn; auto. Qed.

Lemma bytes_repeat_spec s n : bytes_repeat s (as_usize n) = concat (repeat s (Z.to_nat (Z.max n 0))).
Proof.
  unfold bytes_repeat, as_usize.
  assert (Z.to_nat (if n <? 0 then 0 else n) = Z.to_nat (Z.max n 0)) as E
    by (destruct (Z.ltb_spec n 0); f_equal; lia).
  destruct s as [|c s]; [symmetry; apply concat_repeat_nil|]. rewrite E. reflexivity.
Qed.

Lemma concat_repeat_length {A} (s : list A) k : length (concat (repeat s k)) = (k * length s)%nat.
Proof. induction k; cbn; auto. rewrite app_length, IHk. reflexivity. Qed.

(* integer mod is defined for every non-zero divisor, MIN % -1 included *)
Lemma try_rem_int a b : b <> 0 -> try_rem (VInt a) (VInt b) = Ok (VInt (Z.rem a b)).
Proof. intros Hb. rewrite try_rem_eq. destruct b; try contradiction; reflexivity. Qed.

(* Z.rem is the remainder of the truncating division: it has the sign of the dividend *)
Lemma rem_truncated a b : b <> 0 ->
  a = b * Z.quot a b + Z.rem a b /\ Z.abs (Z.rem a b) < Z.abs b /\ 0 <= Z.rem a b * a
  /\ (in_i64 a -> in_i64 (Z.rem a b)).
Proof.
  intros Hb. split; [apply Z.quot_rem'|]. split; [apply Z.rem_bound_abs, Hb|].
  split; [apply Z.rem_sign_mul, Hb | intros Ha; exact (rem_in_i64 a b Ha Hb)].
Qed.
