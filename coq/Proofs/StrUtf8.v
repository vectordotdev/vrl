(* C28: UTF-8 facts used by the string-function proofs.  Valid UTF-8 is a concatenation of chunks `enc1 w c` (the
   bytes w that the decoder accepts as the one char c); every byte-level function is evaluated on such a chunk
   once, and facts about valid strings follow by the induction principle `valid_utf8_ind`. *)
From Coq Require Import List NArith Bool Lia Wf_nat.
From VRL Require Import Base.Bytes Model.CodecUtf8.
Import ListNotations.
Local Open Scope N_scope.

Lemma eqb_f a b : a <> b -> (a =? b) = false. Proof. apply N.eqb_neq. Qed.

Lemma scalar_iff c : is_scalar_cp c = true <-> (c < 55296 \/ (57344 <= c /\ c < 1114112)).
Proof.
  unfold is_scalar_cp. rewrite orb_true_iff, andb_true_iff, !N.ltb_lt, N.leb_le. tauto.
Qed.

Lemma in_range_iff' lo hi x : in_range lo hi x = true <-> lo <= x <= hi.
Proof. unfold in_range. rewrite andb_true_iff, !N.leb_le. tauto. Qed.

Lemma in_rangeP lo hi x : reflect (lo <= x <= hi) (in_range lo hi x).
Proof. apply iff_reflect. symmetry. apply in_range_iff'. Qed.

(* a continuation byte, bounded more tightly after two leads: E0 A0.. (below that the form is overlong) and
   ED ..9F (above that it is a surrogate) *)
Lemma ok3_iff b0 b1 : ok3 b0 b1 = true <->
  224 <= b0 <= 239 /\ 128 <= b1 <= 191 /\ (b0 = 224 -> 160 <= b1) /\ (b0 = 237 -> b1 <= 159).
Proof.
  unfold ok3.
  destruct (N.eqb_spec b0 224). { rewrite in_range_iff'. lia. }
  destruct (in_rangeP 225 236 b0). { rewrite in_range_iff'. lia. }
  destruct (N.eqb_spec b0 237). { rewrite in_range_iff'. lia. }
  destruct (in_rangeP 238 239 b0). { rewrite in_range_iff'. lia. }
  split; [discriminate | lia].
Qed.

(* likewise F0 90.. (overlong below) and F4 ..8F (beyond U+10FFFF above) *)
Lemma ok4_iff b0 b1 : ok4 b0 b1 = true <->
  240 <= b0 <= 244 /\ 128 <= b1 <= 191 /\ (b0 = 240 -> 144 <= b1) /\ (b0 = 244 -> b1 <= 143).
Proof.
  unfold ok4.
  destruct (N.eqb_spec b0 240). { rewrite in_range_iff'. lia. }
  destruct (in_rangeP 241 243 b0). { rewrite in_range_iff'. lia. }
  destruct (N.eqb_spec b0 244). { rewrite in_range_iff'. lia. }
  split; [discriminate | lia].
Qed.

(* what the tests on a lead byte answer, by the width it announces *)
Lemma lead2 b : width2 b = true -> (b <? 128) = false /\ (b <? 224) = true.
Proof. intros W%in_range_iff'. rewrite N.ltb_ge, N.ltb_lt. lia. Qed.

Lemma lead3 b : width3 b = true ->
  (b <? 128) = false /\ width2 b = false /\ (b <? 224) = false /\ (b <? 240) = true.
Proof.
  intros W%in_range_iff'. unfold width2, in_range. rewrite andb_false_iff, !N.ltb_ge, N.ltb_lt, !N.leb_gt. lia.
Qed.

Lemma lead4 b : width4 b = true ->
  (b <? 128) = false /\ width2 b = false /\ width3 b = false /\ (b <? 224) = false /\ (b <? 240) = false.
Proof.
  intros W%in_range_iff'. unfold width2, width3, in_range. rewrite !andb_false_iff, !N.ltb_ge, !N.leb_gt. lia.
Qed.

(* w is what the decoder accepts as the encoding of the one char c *)
Inductive enc1 : bytes -> N -> Prop :=
| Enc1 b : b < 128 -> enc1 [b] b
| Enc2 b0 b1 c : width2 b0 = true -> is_cont b1 = true -> c = (b0 - 192) * 64 + (b1 - 128) -> enc1 [b0; b1] c
| Enc3 b0 b1 b2 c : width3 b0 = true -> ok3 b0 b1 = true -> is_cont b2 = true ->
    c = (b0 - 224) * 4096 + (b1 - 128) * 64 + (b2 - 128) -> enc1 [b0; b1; b2] c
| Enc4 b0 b1 b2 b3 c : width4 b0 = true -> ok4 b0 b1 = true -> is_cont b2 = true -> is_cont b3 = true ->
    c = (b0 - 240) * 262144 + (b1 - 128) * 4096 + (b2 - 128) * 64 + (b3 - 128) -> enc1 [b0; b1; b2; b3] c.

Lemma valid_enc1 w c r : enc1 w c -> valid_utf8 (w ++ r) = valid_utf8 r.
Proof.
  intros [b L | b0 b1 ? W C _ | b0 b1 b2 ? W O C _ | b0 b1 b2 b3 ? W O C2 C3 _]; cbn [app valid_utf8].
  - apply N.ltb_lt in L. rewrite L. reflexivity.
  - destruct (lead2 b0 W) as [-> _]. rewrite W, C. reflexivity.
  - destruct (lead3 b0 W) as (-> & -> & _). rewrite W, O, C. reflexivity.
  - destruct (lead4 b0 W) as (-> & -> & -> & _). rewrite W, O, C2, C3. reflexivity.
Qed.

Lemma chars_enc1 w c r : enc1 w c -> utf8_chars (w ++ r) = c :: utf8_chars r.
Proof.
  intros [b L | b0 b1 ? W _ -> | b0 b1 b2 ? W _ _ -> | b0 b1 b2 b3 ? W _ _ _ ->]; cbn [app utf8_chars].
  - apply N.ltb_lt in L. rewrite L. reflexivity.
  - destruct (lead2 b0 W) as [-> ->]. reflexivity.
  - destruct (lead3 b0 W) as (-> & _ & -> & ->). reflexivity.
  - destruct (lead4 b0 W) as (-> & _ & _ & -> & ->). reflexivity.
Qed.

(* overlong forms, surrogates and values above U+10FFFF are what width2, ok3 and ok4 exclude *)
Lemma enc1_scalar w c : enc1 w c -> is_scalar_cp c = true.
Proof.
  rewrite scalar_iff. intros [b L | b0 b1 ? W C -> | b0 b1 b2 ? W O C -> | b0 b1 b2 b3 ? W O C2 C3 ->].
  - lia.
  - apply in_range_iff' in W, C. lia.
  - apply in_range_iff' in W, C. apply ok3_iff in O. lia.
  - apply in_range_iff' in W, C2, C3. apply ok4_iff in O. lia.
Qed.

Lemma div_mod_64 a : a = 64 * (a / 64) + a mod 64 /\ a mod 64 < 64.
Proof. split; [apply N.div_mod' | apply N.mod_lt; discriminate]. Qed.

Lemma add_sub_l k x : k + x - k = x.
Proof. rewrite N.add_comm. apply N.add_sub. Qed.

(* c is written in base 64; with the digits as variables what is left is linear.  The truncated subtractions
   `192 + d - 192` are removed first: lia would split on each. *)
Lemma enc1_of_cp c : is_scalar_cp c = true -> enc1 (utf8_of_cp c) c.
Proof.
  rewrite scalar_iff. intros Hs. unfold utf8_of_cp.
  change 4096 with (64 * 64). change 262144 with (64 * 64 * 64). rewrite <- !N.div_div by discriminate.
  destruct (div_mod_64 c) as [E0 L0], (div_mod_64 (c / 64)) as [E1 L1], (div_mod_64 (c / 64 / 64)) as [E2 L2].
  set (q1 := c / 64) in *. set (q2 := q1 / 64) in *. set (q3 := q2 / 64) in *.
  set (m0 := c mod 64) in *. set (m1 := q1 mod 64) in *. set (m2 := q2 mod 64) in *.
  clearbody q1 q2 q3 m0 m1 m2.
  destruct (N.ltb_spec c 128). { constructor. assumption. }
  destruct (N.ltb_spec c 2048). { apply Enc2; rewrite ?add_sub_l; [apply in_range_iff' | apply in_range_iff' |]; lia. }
  destruct (N.ltb_spec c 65536).
  - apply Enc3; rewrite ?add_sub_l; [apply in_range_iff' | apply ok3_iff | apply in_range_iff' |]; lia.
  - apply Enc4; rewrite ?add_sub_l; [apply in_range_iff' | apply ok4_iff | apply in_range_iff' | apply in_range_iff' |]; lia.
Qed.

Lemma utf8_chars_cp c r : is_scalar_cp c = true -> utf8_chars (utf8_of_cp c ++ r) = c :: utf8_chars r.
Proof. intros Hs. apply chars_enc1, enc1_of_cp, Hs. Qed.

Lemma valid_cp c r : is_scalar_cp c = true -> valid_utf8 (utf8_of_cp c ++ r) = valid_utf8 r.
Proof. intros Hs. apply valid_enc1 with c, enc1_of_cp, Hs. Qed.

Definition all_scalar (l : list N) : Prop := Forall (fun c => is_scalar_cp c = true) l.

Lemma valid_utf8_ind (P : bytes -> Prop) :
  P [] -> (forall w c r, enc1 w c -> P r -> P (w ++ r)) ->
  forall s, valid_utf8 s = true -> P s.
Proof.
  intros H0 Hstep s. induction s as [s IH] using (induction_ltof1 _ (@length N)). unfold ltof in IH.
  destruct s as [|b0 r]; [intros _; exact H0|]. cbn [valid_utf8].
  destruct (N.ltb_spec b0 128) as [L|_].
  { intros Hv. apply (Hstep [b0] _ r (Enc1 _ L)), IH; [cbn; lia | exact Hv]. }
  destruct (width2 b0) eqn:W2.
  { destruct r as [|b1 r]; [discriminate|]. intros [C Hv]%andb_true_iff.
    apply (Hstep [b0; b1] _ r (Enc2 _ _ _ W2 C eq_refl)), IH; [cbn; lia | exact Hv]. }
  destruct (width3 b0) eqn:W3.
  { destruct r as [|b1 [|b2 r]]; try discriminate. intros [[O C]%andb_true_iff Hv]%andb_true_iff.
    apply (Hstep [b0; b1; b2] _ r (Enc3 _ _ _ _ W3 O C eq_refl)), IH; [cbn; lia | exact Hv]. }
  destruct (width4 b0) eqn:W4; [|discriminate].
  destruct r as [|b1 [|b2 [|b3 r]]]; try discriminate.
  intros [[[O C2]%andb_true_iff C3]%andb_true_iff Hv]%andb_true_iff.
  apply (Hstep [b0; b1; b2; b3] _ r (Enc4 _ _ _ _ _ W4 O C2 C3 eq_refl)), IH; [cbn; lia | exact Hv].
Qed.

Theorem chars_scalar s : valid_utf8 s = true -> all_scalar (utf8_chars s).
Proof.
  revert s. apply valid_utf8_ind; [constructor|]. intros w c r E IH.
  rewrite (chars_enc1 w c r E). constructor; [exact (enc1_scalar w c E) | exact IH].
Qed.

Lemma valid_app_prefix p a : valid_utf8 p = true -> valid_utf8 (p ++ a) = valid_utf8 a.
Proof.
  revert p. apply valid_utf8_ind; [reflexivity|]. intros w c r E IH.
  rewrite <- app_assoc, (valid_enc1 w c _ E). exact IH.
Qed.

Definition starts_at_boundary (r : bytes) : Prop := match r with [] => True | x :: _ => is_cont x = false end.

Lemma ok3_cont b0 b1 : ok3 b0 b1 = true -> is_cont b1 = true.
Proof. intros H%ok3_iff. apply in_range_iff'. lia. Qed.

Lemma ok4_cont b0 b1 : ok4 b0 b1 = true -> is_cont b1 = true.
Proof. intros H%ok4_iff. apply in_range_iff'. lia. Qed.

Lemma not_cont b : b < 128 \/ 194 <= b -> is_cont b = false.
Proof. intros H. apply not_true_iff_false. unfold is_cont. rewrite in_range_iff'. lia. Qed.

(* a lead byte followed by continuation bytes only *)
Lemma enc1_shape w c : enc1 w c -> exists h t, w = h :: t /\ is_cont h = false /\ forallb is_cont t = true.
Proof.
  intros [b L | b0 b1 ? W C _ | b0 b1 b2 ? W O%ok3_cont C _ | b0 b1 b2 b3 ? W O%ok4_cont C2 C3 _];
    eexists; eexists; (split; [reflexivity|]); cbn [forallb].
  - split; [apply not_cont; lia | reflexivity].
  - apply in_range_iff' in W. rewrite C. split; [apply not_cont; lia | reflexivity].
  - apply in_range_iff' in W. rewrite O, C. split; [apply not_cont; lia | reflexivity].
  - apply in_range_iff' in W. rewrite O, C2, C3. split; [apply not_cont; lia | reflexivity].
Qed.

Lemma valid_head_boundary p : valid_utf8 p = true -> starts_at_boundary p.
Proof.
  revert p. apply valid_utf8_ind; [exact I|]. intros w c r E _.
  destruct (enc1_shape w c E) as (h & t & -> & Hh & _). exact Hh.
Qed.

(* no boundary falls inside a run of continuation bytes *)
Lemma cont_run_cut t : forallb is_cont t = true -> forall s b r, t ++ s = b ++ r -> starts_at_boundary r ->
  exists b', b = t ++ b' /\ s = b' ++ r.
Proof.
  induction t as [|x t IH]; cbn [forallb app]; intros H s b r E Hr.
  - exists b. split; [reflexivity | exact E].
  - apply andb_true_iff in H as [Hx Ht]. destruct b as [|y b].
    + cbn [app] in E. subst r. cbn in Hr. congruence.
    + injection E as <- E. destruct (IH Ht s b r E Hr) as (b' & -> & ->). exists b'. split; reflexivity.
Qed.

(* cutting valid UTF-8 at a char boundary leaves valid UTF-8 on both sides *)
Lemma valid_split_left r : starts_at_boundary r ->
  forall s, valid_utf8 s = true -> forall b, s = b ++ r -> valid_utf8 b = true.
Proof.
  intros Hr. apply (valid_utf8_ind (fun s => forall b, s = b ++ r -> valid_utf8 b = true)).
  - intros b E. symmetry in E. apply app_eq_nil in E as [-> _]. reflexivity.
  - intros w c s E IH [|y b] Eq; [reflexivity|].
    destruct (enc1_shape w c E) as (h & t & -> & _ & Ht). injection Eq as <- Eq.
    destruct (cont_run_cut t Ht s b r Eq Hr) as (b' & -> & ->).
    change (valid_utf8 ((h :: t) ++ b') = true). rewrite (valid_enc1 _ c _ E). apply IH. reflexivity.
Qed.

Lemma valid_split b r : valid_utf8 (b ++ r) = true -> starts_at_boundary r ->
  valid_utf8 b = true /\ valid_utf8 r = true.
Proof.
  intros Hv Hr. pose proof (valid_split_left r Hr _ Hv b eq_refl) as Hb.
  split; [exact Hb | rewrite <- (valid_app_prefix b r Hb); exact Hv].
Qed.

Lemma utf8_of_cps_cons c l : utf8_of_cps (c :: l) = utf8_of_cp c ++ utf8_of_cps l.
Proof. reflexivity. Qed.

Lemma utf8_of_cps_app a b : utf8_of_cps (a ++ b) = utf8_of_cps a ++ utf8_of_cps b.
Proof. unfold utf8_of_cps. apply flat_map_app. Qed.

Lemma utf8_chars_of_cps_app l r : all_scalar l -> utf8_chars (utf8_of_cps l ++ r) = l ++ utf8_chars r.
Proof.
  induction 1 as [|c l Hc _ IH]; [reflexivity|].
  rewrite utf8_of_cps_cons, <- app_assoc, utf8_chars_cp by exact Hc. cbn [app]. f_equal. exact IH.
Qed.

Lemma utf8_chars_of_cps l : all_scalar l -> utf8_chars (utf8_of_cps l) = l.
Proof.
  intros H. rewrite <- (app_nil_r (utf8_of_cps l)), utf8_chars_of_cps_app by exact H. apply app_nil_r.
Qed.

Lemma valid_of_cps_app l r : all_scalar l -> valid_utf8 (utf8_of_cps l ++ r) = valid_utf8 r.
Proof.
  induction 1 as [|c l Hc _ IH]; [reflexivity|].
  rewrite utf8_of_cps_cons, <- app_assoc, valid_cp by exact Hc. exact IH.
Qed.

Lemma valid_of_cps l : all_scalar l -> valid_utf8 (utf8_of_cps l) = true.
Proof. intros H. rewrite <- (app_nil_r (utf8_of_cps l)). apply valid_of_cps_app, H. Qed.

(* The tail is kept abstract while the tests on the lead byte are resolved: unfolding utf8_lossy on an explicit
   b0 :: b1 :: ... would also unfold its restarts after a replacement character, branch within branch. *)
Lemma lossy_enc1 w c r : enc1 w c -> utf8_lossy (w ++ r) = w ++ utf8_lossy r.
Proof.
  intros [b L | b0 b1 ? W C _ | b0 b1 b2 ? W O C _ | b0 b1 b2 b3 ? W O C2 C3 _]; cbn [app].
  - cbn [utf8_lossy]. rewrite (proj2 (N.ltb_lt b 128) L). reflexivity.
  - destruct (lead2 b0 W) as [E0 _]. remember (b1 :: r) as t eqn:Et.
    cbn [utf8_lossy]. rewrite E0, W, Et, C. reflexivity.
  - destruct (lead3 b0 W) as (E0 & W2 & _). remember (b1 :: b2 :: r) as t eqn:Et.
    cbn [utf8_lossy]. rewrite E0, W2, W, Et, O, C. reflexivity.
  - destruct (lead4 b0 W) as (E0 & W2 & W3 & _). remember (b1 :: b2 :: b3 :: r) as t eqn:Et.
    cbn [utf8_lossy]. rewrite E0, W2, W3, W, Et, O, C2, C3. reflexivity.
Qed.

Theorem lossy_valid s : valid_utf8 s = true -> utf8_lossy s = s.
Proof.
  revert s. apply valid_utf8_ind; [reflexivity|]. intros w c r E. rewrite (lossy_enc1 w c r E). intros. f_equal. assumption.
Qed.

Lemma valid_repl r : valid_utf8 (repl ++ r) = valid_utf8 r.
Proof. reflexivity. Qed.

Theorem valid_lossy s : valid_utf8 (utf8_lossy s) = true.
Proof.
  induction s as [s IH] using (induction_ltof1 _ (@length N)). unfold ltof in IH.
  destruct s as [|b0 r]; [reflexivity|]. cbn [utf8_lossy].
  assert (IHr : forall t, (length t <= length r)%nat -> valid_utf8 (utf8_lossy t) = true)
    by (intros t Ht; apply IH; cbn [length]; lia).
  destruct (b0 <? 128) eqn:E0.
  { cbn [valid_utf8]. rewrite E0. apply IHr; lia. }
  destruct (width2 b0) eqn:W2.
  { destruct r as [|b1 r1]; [reflexivity|].
    destruct (is_cont b1) eqn:C1; [|rewrite valid_repl; apply IHr; lia].
    cbn [valid_utf8]. rewrite E0, W2, C1. apply IHr; cbn [length]; lia. }
  destruct (width3 b0) eqn:W3.
  { destruct r as [|b1 r1]; [reflexivity|].
    destruct (ok3 b0 b1) eqn:O3; [|rewrite valid_repl; apply IHr; lia].
    destruct r1 as [|b2 r2]; [reflexivity|].
    destruct (is_cont b2) eqn:C2; [|rewrite valid_repl; apply IHr; cbn [length]; lia].
    cbn [valid_utf8]. rewrite E0, W2, W3, O3, C2. apply IHr; cbn [length]; lia. }
  destruct (width4 b0) eqn:W4; [|rewrite valid_repl; apply IHr; lia].
  destruct r as [|b1 r1]; [reflexivity|].
  destruct (ok4 b0 b1) eqn:O4; [|rewrite valid_repl; apply IHr; lia].
  destruct r1 as [|b2 r2]; [reflexivity|].
  destruct (is_cont b2) eqn:C2; [|rewrite valid_repl; apply IHr; cbn [length]; lia].
  destruct r2 as [|b3 r3]; [reflexivity|].
  destruct (is_cont b3) eqn:C3; [|rewrite valid_repl; apply IHr; cbn [length]; lia].
  cbn [valid_utf8]. rewrite E0, W2, W3, W4, O4, C2, C3. apply IHr; cbn [length]; lia.
Qed.
