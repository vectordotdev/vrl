(* src/protobuf/encode.rs + parse.rs on message-shaped values (Model/ProtoGlue.v):
   encode_message turns a shaped value into a well-typed dynamic message, and proto_to_value of that message is
   the value without the fields that hold a default (strip_defaults).  With the wire theorem of ProtoMsgProofs.v
   and ptv_canon this gives parse_proto (encode_proto v) = strip_defaults v. *)
From Coq Require Import List NArith ZArith Bool Arith Lia Permutation.
From VRL Require Import Base.Bytes Base.Value Model.Proto Model.ProtoGlue Proofs.StrUtf8 Proofs.ObjMapFacts
     Proofs.ProtoScalarProofs Proofs.ProtoMsgProofs Proofs.ProtoGlueProofs.
Import ListNotations.

Local Open Scope Z_scope.

(* the descriptor conditions as booleans: they are evaluated on the bundled descriptors *)

Definition is_key_kindb (k : skind) : bool :=
  match k with
  | KDouble | KFloat | KBytes | KEnum _ _ | KMsg _ => false
  | _ => true
  end.

Definition field_okb (f : field) : bool :=
  match f_card f with
  | CSingular pres => pres || negb (is_msg_kind (f_kind f))       (* message fields have presence *)
  | CRepeated packed => negb packed || is_packable (f_kind f)
  | CMap kk _ vpres => is_key_kindb kk && (vpres || negb (is_msg_kind (f_kind f)))
  end.

Fixpoint increasingb (lo : N) (d : list field) : bool :=
  match d with
  | [] => true
  | f :: r => (lo <? f_num f)%N && (f_num f <? 2 ^ 29)%N && increasingb (f_num f) r
  end.

Fixpoint name_free (n : bytes) (d : list field) : bool :=
  match d with
  | [] => true
  | f :: r => negb (bytes_eqb (f_name f) n) && name_free n r
  end.
Fixpoint names_distinct (d : list field) : bool :=
  match d with
  | [] => true
  | f :: r => name_free (f_name f) r && names_distinct r
  end.

Definition desc_okb (d : list field) : bool := increasingb 0 d && forallb field_okb d && names_distinct d.
Definition pool_okb (P : list (list field)) : bool := forallb desc_okb P.

Lemma increasingb_spec lo d : increasingb lo d = true -> increasing lo d.
Proof.
  revert lo; induction d as [|f r IH]; intros lo H; [exact I|]. cbn [increasingb] in H.
  rewrite !andb_true_iff, !N.ltb_lt in H. destruct H as [[H1 H2] H3]. exact (conj H1 (conj H2 (IH _ H3))).
Qed.

Lemma is_key_kindb_spec k : is_key_kindb k = true -> is_key_kind k.
Proof. destruct k; cbn; intros H; try exact I; discriminate. Qed.

Lemma field_okb_ok f : field_okb f = true -> field_ok f.
Proof.
  unfold field_okb, field_ok. destruct (f_card f) as [[|]|p|kk kp vp]; intros H; try exact I.
  apply negb_true_iff in H. exact H.
Qed.

Lemma desc_okb_spec d : desc_okb d = true ->
  wf_desc d /\ desc_ok d /\ (forall f, In f d -> field_okb f = true) /\ names_distinct d = true.
Proof.
  unfold desc_okb. rewrite !andb_true_iff, forallb_forall. intros [[H1 H2] H3].
  split; [exact (increasingb_spec 0 d H1)|]. split; [|exact (conj H2 H3)].
  apply Forall_forall. intros f Hf. exact (field_okb_ok f (H2 f Hf)).
Qed.

Lemma pool_okb_get P i : pool_okb P = true -> desc_okb (get_msg P i) = true.
Proof.
  unfold pool_okb, get_msg. intros H. rewrite forallb_forall in H.
  destruct (nth_in_or_default i P []) as [Hin| ->]; [apply H; exact Hin | reflexivity].
Qed.

Lemma name_free_in n d f : name_free n d = true -> In f d -> f_name f <> n.
Proof.
  induction d as [|g r IH]; [intros _ []|]. cbn [name_free]. rewrite andb_true_iff, negb_true_iff, bytes_eqb_neq.
  intros [H1 H2] [->|Hin]; [exact H1 | exact (IH H2 Hin)].
Qed.

Lemma find_by_name_self d f : names_distinct d = true -> In f d -> find_by_name d (f_name f) = Some f.
Proof.
  induction d as [|g r IH]; intros Hd Hin; [contradiction|]. cbn [names_distinct] in Hd.
  apply andb_true_iff in Hd. destruct Hd as [Hg Hr]. cbn [find_by_name]. destruct Hin as [->|Hin].
  - rewrite bytes_eqb_refl. reflexivity.
  - rewrite (proj2 (bytes_eqb_neq _ _)); [exact (IH Hr Hin)|].
    intros E. exact (name_free_in _ _ _ Hg Hin (eq_sym E)).
Qed.

Lemma find_by_name_in d n f : find_by_name d n = Some f -> In f d /\ f_name f = n.
Proof.
  induction d as [|g r IH]; [discriminate|]. cbn [find_by_name]. destruct (bytes_eqb (f_name g) n) eqn:E.
  - intros [= <-]. split; [left; reflexivity | apply bytes_eqb_eq; exact E].
  - intros H. destruct (IH H) as [Hin Hn]. split; [right; exact Hin | exact Hn].
Qed.

(* the only thing a shaped value does not determine is whether every length prefix fits *)

Definition lens_plain (v : pval) : Prop :=
  match v with PStr s | PBytes s => len_ok s | _ => True end.

Lemma in_range_spec lo hi z : in_range lo hi z = true -> lo <= z <= hi.
Proof. unfold in_range. rewrite andb_true_iff, !Z.leb_le. trivial. Qed.

Lemma eq_ignore_refl a : eq_ignore_ascii_case a a = true.
Proof. unfold eq_ignore_ascii_case. apply bytes_eqb_refl. Qed.

Lemma sorted_map_values (g : bytes * value -> value) (m : obj) :
  obj_sorted (map (fun e => (fst e, g e)) m) = obj_sorted m.
Proof.
  induction m as [|[k v] m IH]; [reflexivity|]. cbn [map obj_sorted fst].
  destruct m as [|[k' v'] m']; [reflexivity|]. cbn [map fst] in *. rewrite <- IH. reflexivity.
Qed.

(* the one entry that a lookup followed by strip_field can yield *)
Lemma in_kept {A} (oa : option A) (g : A -> option value) (k' k : bytes) y :
  In (k, y) (match oa with Some a => match g a with Some y' => [(k', y')] | None => [] end | None => [] end)
  <-> k = k' /\ exists a, oa = Some a /\ g a = Some y.
Proof.
  destruct oa as [a|]; [destruct (g a) as [y'|] eqn:E|]; split.
  - intros [[= <- <-]|[]]. eauto.
  - intros (-> & a' & [= <-] & Hs). left. congruence.
  - intros [].
  - intros (_ & a' & [= <-] & Hs). congruence.
  - intros [].
  - intros (_ & a' & Hx & _). discriminate.
Qed.

Section Lens.
  Variable P : list (list field).

  Definition lens_scalar (L : list field -> list (N * pval) -> Prop) (k : skind) (v : pval) : Prop :=
    match k, v with
    | KMsg i, PMsg fs => L (get_msg P i) fs
    | _, _ => lens_plain v
    end.

  Definition lens_field (em : list field -> list (N * pval) -> bytes) (L : list field -> list (N * pval) -> Prop)
             (f : field) (v : pval) : Prop :=
    match f_card f, v with
    | CRepeated packed, PList l =>
        Forall (lens_scalar L (f_kind f)) l
        /\ (packed = true -> len_ok (concat (map (enc_packed_elem (f_kind f)) l)))
    | CMap kk kp vp, PMap l =>
        Forall (fun kv : pval * pval => lens_plain (fst kv) /\ lens_scalar L (f_kind f) (snd kv)
                                        /\ len_ok (enc_entry P em kk kp (f_kind f) vp kv)) l
    | _, _ => lens_scalar L (f_kind f) v
    end.

  (* every byte string, packed payload, map entry and embedded message is shorter than 2^64 bytes *)
  Fixpoint lens_msg (fuel : nat) (d : list field) (m : list (N * pval)) : Prop :=
    match fuel with
    | O => True
    | S fu =>
        Forall (fun f => match dm_get m (f_num f) with
                         | Some v => lens_field (enc_msg P fu)
                                                (fun d' m' => lens_msg fu d' m' /\ len_ok (enc_msg P fu d' m')) f v
                         | None => True
                         end) d
    end.
End Lens.

Section Message.
  Variable P : list (list field).
  Variable lossy : bool.
  Hypothesis pool_ok : pool_okb P = true.

  Section Level.
    Variable cm : list field -> value -> pres (list (N * pval)).
    Variable sm : list field -> value -> bool.
    Variable pm : list field -> list (N * pval) -> pres value.
    Variable st : list field -> value -> value.
    Variable em : list field -> list (N * pval) -> bytes.
    Variable wt lens : list field -> list (N * pval) -> Prop.
    Hypothesis below : forall i v', sm (get_msg P i) v' = true ->
      exists m', cm (get_msg P i) v' = POk m' /\ (lens (get_msg P i) m' -> wt (get_msg P i) m')
                 /\ pm (get_msg P i) m' = POk (st (get_msg P i) v').

    (* as wt_msg and lens_msg ask of an embedded message: its encoding also fits a length prefix *)
    Let WT d m := wt d m /\ len_ok (em d m).
    Let L d m := lens d m /\ len_ok (em d m).

    (* names the converted value and computes what the model's functions make of it *)
    Ltac converted :=
      eexists; split; [reflexivity|];
      cbn [lens_scalar lens_plain wt_scalar wt_plain ptv_scalar strip_scalar is_default_scalar is_default_value
           default_of is_neg_zero].

    (* conversion of a shaped value: well-typed (given its size), read back as itself without its defaults; for the
       scalar kinds it is the default exactly when the value is the proto3 default *)
    Lemma conv_scalar k x :
      shaped_scalar P sm k x = true ->
      exists pv, conv_raw P lossy cm x k = POk pv
                 /\ (lens_scalar P L k pv -> wt_scalar P WT k pv)
                 /\ ptv_scalar P pm k pv = POk (strip_scalar P st k x)
                 /\ (is_msg_kind k = false ->
                     is_default_scalar k pv = is_default_value k x
                     /\ (is_default_scalar k pv = true -> is_neg_zero x = false -> pv = default_of k)).
    Proof.
      intros Hs. destruct x as [b| |i|f|b| |kvs| |]; try (destruct k; discriminate).
      - destruct k; try discriminate; cbn [shaped_scalar] in Hs; cbn [conv_raw].
        + (* string *) rewrite (lossy_valid b Hs). converted. repeat split; auto.
          intros Hd _. destruct b; [reflexivity | discriminate].
        + (* bytes *) converted. repeat split; auto.
          intros Hd _. destruct b; [reflexivity | discriminate].
        + (* enum: the name of a declared number, which is printed back as that name *)
          apply andb_true_iff in Hs. destruct Hs as [Hu Hs]. rewrite (lossy_valid b Hu).
          destruct (enum_by_name vals b) as [z|]; [|discriminate].
          rewrite !andb_true_iff in Hs. destruct Hs as [[Hr Hs] Hdf]. apply in_range_spec in Hr. apply Bool.eqb_prop in Hdf.
          destruct (enum_by_number vals z) as [n|] eqn:Ez; [|discriminate]. apply bytes_eqb_eq in Hs. subst n.
          converted. rewrite Ez. repeat split; try lia; auto.
          intros Hd _. apply Z.eqb_eq in Hd. subst. reflexivity.
      - (* integers are stored as given, except that `as u64` wraps the negative ones *)
        destruct k; try discriminate; cbn [shaped_scalar] in Hs; apply in_range_spec in Hs; cbn [conv_raw];
          rewrite ?wrap_s_id, ?wrap_u_id by lia; converted.
        (* the two unsigned 64-bit kinds, where wrap_u 64 i is stored and read back through `as i64` *)
        all: try (rewrite (wrap_s_of_u 64), (wrap_u_zero 64) by lia; pose proof (wrap_u_bound 64 i eq_refl) as Hb).
        all: repeat split; try lia; intros Hd _; apply Z.eqb_eq in Hd; rewrite Hd; reflexivity.
      - destruct k; try discriminate; cbn [shaped_scalar] in Hs;
          rewrite !andb_true_iff, !negb_true_iff, !sf_eqb_eq in Hs; converted.
        + (* double *) destruct Hs as [[Hn Hc] Hr]. apply in_range_spec in Hr. rewrite Hn.
          repeat split; try lia; auto.
          intros Hz Hneg. destruct f as [[|]| | |]; try discriminate; reflexivity.
        + (* float: exactly a binary32, so narrowing loses nothing, not even the sign of zero *)
          destruct Hs as [[[[[Hn Hn'] Hw] Hc] Hr] Hz]. apply in_range_spec in Hr. apply Bool.eqb_prop in Hz.
          rewrite Hn', Hw, Hz. repeat split; try lia; auto.
          intros Hz' Hneg. destruct f as [[|]| | |]; try discriminate; reflexivity.
      - (* bool *) destruct k; try discriminate. converted. repeat split.
        intros Hd _. destruct b; [discriminate | reflexivity].
      - (* an embedded message: the level below *)
        destruct k; try discriminate. destruct (below idx (VObj kvs) Hs) as (m' & Hc & Hw & Hp).
        exists (PMsg m'). cbn [conv_raw]. rewrite Hc. split; [reflexivity|]. split; [|split; [exact Hp | discriminate]].
        intros [Hl1 Hl2]. exact (conj (Hw Hl1) Hl2).
    Qed.

    Lemma shaped_not_arr k a : shaped_scalar P sm k (VArr a) = false.
    Proof. destruct k; reflexivity. Qed.
    Lemma shaped_not_null k : shaped_scalar P sm k VNull = false.
    Proof. destruct k; reflexivity. Qed.

    Lemma ptv_field_scalar f pv y : ptv_scalar P pm (f_kind f) pv = POk y -> ptv_field P pm f pv = POk y.
    Proof. destruct pv; cbn [ptv_field]; try (intros H; exact H); cbn [ptv_scalar]; discriminate. Qed.

    Lemma conv_list_shaped k a :
      forallb (shaped_scalar P sm k) a = true ->
      exists l, conv_list P lossy cm k a = POk l
                /\ (Forall (lens_scalar P L k) l -> Forall (wt_scalar P WT k) l)
                /\ ptv_list P pm k l = POk (map (strip_scalar P st k) a)
                /\ length l = length a.
    Proof.
      induction a as [|x a IH]; intros H.
      - exists []. repeat split. trivial.
      - cbn [forallb] in H. apply andb_true_iff in H. destruct H as [Hx Ha].
        destruct (conv_scalar k x Hx) as (pv & Hc & Hw & Hp & _).
        destruct (IH Ha) as (l & Hcl & Hwl & Hpl & Hlen).
        exists (pv :: l). cbn [conv_list map ptv_list length]. rewrite Hc, Hcl, Hp, Hpl, Hlen. repeat split.
        intros Hl. inversion Hl; subst. constructor; auto.
    Qed.

    Lemma key_eqb_text a b : pval_key_eqb a b = true -> map_key_text a = map_key_text b.
    Proof.
      destruct a, b; cbn; try discriminate; intros H;
        [apply Bool.eqb_prop in H | apply Z.eqb_eq in H | apply bytes_eqb_eq in H]; subst; reflexivity.
    Qed.

    Lemma parse_dec_range sg lo hi s z : parse_dec sg lo hi s = Some z -> lo <= z <= hi.
    Proof.
      unfold parse_dec.
      destruct (match s with
                | 43%N :: r => (false, r)
                | 45%N :: r => if sg then (true, r) else (false, s)
                | _ => (false, s)
                end) as [neg ds].
      destruct ds; [discriminate|]. destruct (digits_val (n :: ds) 0) as [v|]; [|discriminate].
      destruct (in_range lo hi (if neg then - v else v)) eqn:E; unfold in_range in E; rewrite E; [|discriminate].
      intros [= <-]. exact (in_range_spec _ _ _ E).
    Qed.

    Lemma canonical_key_spec kk key :
      canonical_key kk key = true ->
      exists pk, parse_map_key kk key = POk pk /\ map_key_text pk = key /\ (lens_plain pk -> wt_plain kk pk).
    Proof.
      unfold canonical_key. destruct (parse_map_key kk key) as [pk| |] eqn:E; try discriminate.
      intros H. apply andb_true_iff in H. destruct H as [Ht Hu]. apply bytes_eqb_eq in Ht.
      exists pk. split; [reflexivity|]. split; [exact Ht|].
      unfold parse_map_key in E.
      destruct kk; try discriminate;
        try (destruct (parse_dec _ _ _ key) as [z|] eqn:Ep; [|discriminate]; inversion E; subst;
             apply parse_dec_range in Ep; intros _; cbn [wt_plain]; lia).
      - (* bool *) destruct (bytes_eqb key txt_true); [|destruct (bytes_eqb key txt_false); [|discriminate]];
          inversion E; subst; intros _; exact I.
      - (* string *) inversion E; subst. intros Hl. split; assumption.
    Qed.

    Definition entry_shaped (kk vk : skind) (vpres : bool) (kv : bytes * value) : bool :=
      canonical_key kk (fst kv) && shaped_scalar P sm vk (snd kv) && (vpres || negb (is_neg_zero (snd kv))).

    Definition entry_lens (kk vk : skind) (kp vp : bool) (kv : pval * pval) : Prop :=
      lens_plain (fst kv) /\ lens_scalar P L vk (snd kv) /\ len_ok (enc_entry P em kk kp vk vp kv).

    (* the entries converted so far (acc) and the ones to come have different keys, so each is added at the end *)
    Lemma conv_entries_shaped kk vk kp vp : (vp = false -> is_msg_kind vk = false) ->
      forall o acc, forallb (entry_shaped kk vk vp) o = true -> NoDup (map (fun e : pval * pval => map_key_text (fst e)) acc ++ map fst o) ->
      exists l, conv_entries P lossy cm kk vk o acc = POk (acc ++ l)
                /\ map (fun e : pval * pval => map_key_text (fst e)) l = map fst o
                /\ (Forall (entry_lens kk vk kp vp) l -> Forall (map_entry_ok P em WT vk kk kp vp) l)
                /\ forall acc', ptv_entries P pm vk l acc'
                                = POk (fold_left ins_entry (map (fun e : bytes * value => (fst e, strip_scalar P st vk (snd e))) o) acc').
    Proof.
      intros Hmsg. induction o as [|[key x] o IH]; intros acc Hsh Hnd.
      - exists []. rewrite app_nil_r. repeat split. constructor.
      - cbn [forallb] in Hsh. unfold entry_shaped at 1 in Hsh. cbn [fst snd] in Hsh.
        rewrite !andb_true_iff in Hsh. destruct Hsh as [[[Hk Hx] Hnz] Ho].
        destruct (canonical_key_spec kk key Hk) as (pk & Hpk & Htxt & Hwk).
        destruct (conv_scalar vk x Hx) as (pv & Hc & Hw & Hp & Hd).
        cbn [conv_entries]. rewrite Hpk. cbn [pbind].
        replace (match x with VArr _ => PErr | _ => conv_raw P lossy cm x vk end) with (conv_raw P lossy cm x vk)
          by (destruct x; try reflexivity; rewrite shaped_not_arr in Hx; discriminate).
        rewrite Hc. cbn [pbind map] in *. rewrite map_insert_append.
        2:{ apply Forall_forall. intros e He. destruct (pval_key_eqb (fst e) pk) eqn:E; [exfalso | reflexivity].
            apply (NoDup_remove_2 _ _ _ Hnd), in_or_app. left.
            rewrite <- Htxt, <- (key_eqb_text _ _ E). exact (in_map (fun e => map_key_text (fst e)) _ e He). }
        destruct (IH (acc ++ [(pk, pv)]) Ho) as (l & Hcl & Hkeys & Hwl & Hpl).
        { rewrite map_app, <- app_assoc. cbn [map app fst]. rewrite Htxt. exact Hnd. }
        exists ((pk, pv) :: l). rewrite Hcl, <- app_assoc. cbn [app map fst]. rewrite Htxt, Hkeys.
        split; [reflexivity|]. split; [reflexivity|]. split; [|intros acc'; cbn [ptv_entries snd]; rewrite Hp, Htxt; exact (Hpl _)].
        intros Hl. inversion Hl as [|? ? (Hl1 & Hl2 & Hl3) Hl']; subst. cbn [fst snd] in *.
        constructor; [|exact (Hwl Hl')]. repeat split; cbn [fst snd]; auto.
        intros -> Hdef. destruct (Hd (Hmsg eq_refl)) as [_ Hz]. apply (Hz Hdef), negb_true_iff, Hnz.
    Qed.

    Lemma keys_distinct_of_texts (l : list (pval * pval)) : NoDup (map (fun e : pval * pval => map_key_text (fst e)) l) -> keys_distinct l.
    Proof.
      induction l as [|[k v] r IH]; intros H; [exact I|]. cbn [map fst] in H. inversion H as [|? ? Hn Hr]; subst.
      split; [|exact (IH Hr)].
      apply Forall_forall. intros e He. destruct (pval_key_eqb k (fst e)) eqn:E; [|reflexivity].
      exfalso. apply Hn. rewrite (key_eqb_text _ _ E). exact (in_map (fun e => map_key_text (fst e)) _ e He).
    Qed.

    Definition field_result (f : field) (x : value) (pv : pval) : Prop :=
      match strip_field P st f x with
      | Some y => has_value f pv = true /\ ptv_field P pm f pv = POk y
      | None => has_value f pv = false
      end.

    Lemma conv_field_shaped f x :
      field_okb f = true -> shaped_field P sm f x = true ->
      exists pv, conv_field P lossy cm f x = POk pv
                 /\ (lens_field P em L f pv -> wt_field P em WT f pv)
                 /\ field_result f x pv.
    Proof.
      intros Hok Hs. unfold shaped_field in Hs. unfold field_okb in Hok.
      unfold field_result, strip_field, lens_field, wt_field, has_value, conv_field.
      destruct (f_card f) as [pres|packed|kk kp vp].
      - (* singular *)
        destruct (conv_scalar (f_kind f) x Hs) as (pv & Hcv & Hw & Hp & Hd).
        exists pv. split; [destruct x; exact Hcv|]. split; [exact Hw|].
        apply ptv_field_scalar in Hp. destruct pres; [split; trivial|].
        apply negb_true_iff in Hok. rewrite (proj1 (Hd Hok)).
        destruct (is_default_value (f_kind f) x); [reflexivity | split; trivial].
      - (* repeated *)
        destruct x; try discriminate.
        destruct (conv_list_shaped (f_kind f) vs Hs) as (l & Hcl & Hwl & Hpl & Hlen).
        exists (PList l). rewrite Hcl. split; [reflexivity|]. split.
        + intros [Hl1 Hl2]. exists l. split; [reflexivity|]. split; [exact (Hwl Hl1)|].
          intros ->. split; [exact Hok | exact (Hl2 eq_refl)].
        + destruct vs, l; try discriminate Hlen; [reflexivity|]. split; [reflexivity|]. cbn [ptv_field]. rewrite Hpl. reflexivity.
      - (* map *)
        destruct x; try discriminate. apply andb_true_iff in Hs. destruct Hs as [Hsort Hent].
        apply andb_true_iff in Hok. destruct Hok as [Hkk Hvp].
        destruct (conv_entries_shaped kk (f_kind f) kp vp) with (o := kvs) (acc := @nil (pval * pval))
          as (l & Hcl & Hkeys & Hwl & Hpl); [intros -> | exact Hent | exact (sorted_nodup _ Hsort) |].
        { apply negb_true_iff. exact Hvp. }
        exists (PMap l). rewrite Hcl. split; [reflexivity|]. split.
        + intros Hl. exists l. split; [reflexivity|]. split; [exact (is_key_kindb_spec kk Hkk)|]. split; [|exact (Hwl Hl)].
          apply keys_distinct_of_texts. rewrite Hkeys. exact (sorted_nodup _ Hsort).
        + (* read back entry by entry into a sorted object: the same entries, already in order *)
          pose proof (Hpl []) as Hptv.
          rewrite <- collect_unfold, (collect_of_perm _ _ (eq_trans (sorted_map_values _ kvs) Hsort) (Permutation_refl _)) in Hptv.
          destruct kvs, l; try discriminate Hkeys; [reflexivity|]. split; [reflexivity|]. cbn [ptv_field]. rewrite Hptv. reflexivity.
    Qed.

    Section Fields.
      Variable d : list field.
      Hypothesis d_wf : wf_desc d.
      Hypothesis d_fields : forall f, In f d -> field_okb f = true.
      Hypothesis d_names : names_distinct d = true.
      Variable o : obj.
      Hypothesis o_sorted : obj_sorted o = true.
      Hypothesis o_shaped : forallb (fun kv : bytes * value =>
                                       match find_by_name d (fst kv) with
                                       | Some f => shaped_field P sm f (snd kv)
                                       | None => false
                                       end) o = true.

      (* the value an object holds under a field's name is shaped for that field, so it converts *)
      Lemma present_converts f x : In f d -> obj_get o (f_name f) = Some x ->
        x <> VNull
        /\ exists pv, conv_field P lossy cm f x = POk pv
                      /\ (lens_field P em L f pv -> wt_field P em WT f pv)
                      /\ field_result f x pv.
      Proof.
        intros Hin Hg. rewrite forallb_forall in o_shaped. pose proof (o_shaped _ (obj_get_in _ _ _ Hg)) as Hsh.
        cbn [fst snd] in Hsh. rewrite (find_by_name_self d f d_names Hin) in Hsh. split.
        - intros ->. unfold shaped_field in Hsh. destruct (f_card f); try discriminate.
          rewrite shaped_not_null in Hsh. discriminate.
        - exact (conv_field_shaped f x (d_fields f Hin) Hsh).
      Qed.

      Definition conv_of (f : field) : option pval :=
        match obj_get o (f_name f) with
        | Some x => match conv_field P lossy cm f x with POk pv => Some pv | _ => None end
        | None => None
        end.

      Definition conv_result : list (N * pval) := build conv_of d.

      Definition conv_step (acc : pres (list (N * pval))) (f : field) : pres (list (N * pval)) :=
        pbind acc (fun m =>
          match obj_get o (f_name f) with
          | None | Some VNull => POk m
          | Some x => pbind (conv_field P lossy cm f x) (fun pv => POk (dm_set m (f_num f) pv))
          end).

      Lemma conv_step_slot f acc : In f d -> all_lt (f_num f) acc ->
        conv_step (POk acc) f = POk (acc ++ slot (f_num f) (conv_of f)).
      Proof.
        intros Hin Hacc. unfold conv_step, conv_of. cbn [pbind].
        destruct (obj_get o (f_name f)) as [x|] eqn:Eg; [|rewrite app_nil_r; reflexivity].
        destruct (present_converts f x Hin Eg) as (Hnull & pv & Hc & _). rewrite Hc. cbn [pbind slot].
        rewrite dm_set_append by exact Hacc. destruct x; congruence.
      Qed.

      Lemma conv_get f : In f d -> dm_get conv_result (f_num f) = conv_of f.
      Proof. exact (build_get conv_of 0 d f d_wf). Qed.

      (* what proto_to_value adds for one field *)
      Definition strip_of (f : field) : list (bytes * value) :=
        match obj_get o (f_name f) with
        | Some x => match strip_field P st f x with Some y => [(f_name f, y)] | None => [] end
        | None => []
        end.

      Definition ptv_step (m : list (N * pval)) (acc : pres obj) (f : field) : pres obj :=
        pbind acc (fun o' =>
          match dm_get m (f_num f) with
          | Some v => if has_value f v then pbind (ptv_field P pm f v) (fun x => POk (obj_set o' (f_name f) x)) else POk o'
          | None => POk o'
          end).

      Lemma ptv_fold : forall d2 acc, incl d2 d ->
        fold_left (ptv_step conv_result) d2 (POk acc)
        = POk (fold_left ins_entry (flat_map strip_of d2) acc).
      Proof.
        induction d2 as [|f d2 IH]; intros acc Hsub; [reflexivity|].
        cbn [fold_left flat_map]. rewrite fold_left_app.
        apply incl_cons_inv in Hsub. destruct Hsub as [Hin Hsub].
        unfold ptv_step at 2. cbn [pbind]. rewrite (conv_get f Hin). unfold conv_of, strip_of.
        destruct (obj_get o (f_name f)) as [x|] eqn:Eg; [|exact (IH _ Hsub)].
        destruct (present_converts f x Hin Eg) as (_ & pv & Hc & _ & Hr).
        rewrite Hc. unfold field_result in Hr. destruct (strip_field P st f x) as [y|].
        - destruct Hr as [Hh Hp]. rewrite Hh, Hp. exact (IH _ Hsub).
        - rewrite Hr. exact (IH _ Hsub).
      Qed.

      Lemma in_strip_of f k y :
        In (k, y) (strip_of f)
        <-> k = f_name f /\ exists x, obj_get o (f_name f) = Some x /\ strip_field P st f x = Some y.
      Proof. apply in_kept. Qed.

      Lemma in_strip_entry k' x k y :
        In (k, y) (strip_entry P st d (k', x))
        <-> k = k' /\ exists f, find_by_name d k' = Some f /\ strip_field P st f x = Some y.
      Proof. exact (in_kept (find_by_name d k') (fun f => strip_field P st f x) k' k y). Qed.

      Lemma strip_of_nodup d2 : names_distinct d2 = true -> NoDup (map fst (flat_map strip_of d2)).
      Proof.
        induction d2 as [|f d2 IH]; intros Hn; [constructor|]. cbn [names_distinct] in Hn.
        apply andb_true_iff in Hn. destruct Hn as [Hf Hr]. cbn [flat_map]. rewrite map_app.
        unfold strip_of at 1. destruct (obj_get o (f_name f)); [|exact (IH Hr)].
        destruct (strip_field P st f v); [|exact (IH Hr)]. cbn [map fst app]. constructor; [|exact (IH Hr)].
        intros Hin. apply in_map_iff in Hin. destruct Hin as ([k y] & Hk & Hin).
        apply in_flat_map in Hin. destruct Hin as (g & Hg & Hin). apply in_strip_of in Hin. cbn [fst] in Hk.
        apply (name_free_in _ _ _ Hf Hg). destruct Hin as [-> _]. exact Hk.
      Qed.

      Lemma strip_entries_sorted (o2 : obj) : obj_sorted o2 = true -> obj_sorted (flat_map (strip_entry P st d) o2) = true.
      Proof.
        induction o2 as [|[k x] o2 IH]; intros Hs; [reflexivity|]. cbn [flat_map].
        pose proof (IH (sorted_tail _ _ _ Hs)) as Hr.
        unfold strip_entry at 1. cbn [fst snd]. destruct (find_by_name d k); [|exact Hr].
        destruct (strip_field P st f x); [|exact Hr]. cbn [app]. apply sorted_cons; [exact Hr|].
        intros k' y Hkv. apply in_flat_map in Hkv. destruct Hkv as ([k'' x'] & Hin & Hkv).
        apply in_strip_entry in Hkv. destruct Hkv as [-> _]. exact (sorted_head_lt k x o2 Hs _ _ Hin).
      Qed.

      (* proto_to_value enumerates the kept fields by field number, strip_msg by key: the same entries *)
      Lemma kept_perm : Permutation (flat_map strip_of d) (flat_map (strip_entry P st d) o).
      Proof.
        apply NoDup_Permutation.
        - apply (NoDup_map_inv fst). apply strip_of_nodup. exact d_names.
        - apply (NoDup_map_inv fst). apply sorted_nodup. apply strip_entries_sorted. exact o_sorted.
        - intros [k y]. rewrite !in_flat_map. split.
          + intros (f & Hf & Hin). apply in_strip_of in Hin. destruct Hin as (-> & x & Hx & Hs).
            exists (f_name f, x). split; [exact (obj_get_in _ _ _ Hx)|].
            apply in_strip_entry. split; [reflexivity|]. exists f. split; [exact (find_by_name_self d f d_names Hf) | exact Hs].
          + intros ([k' x] & Hkx & Hin). apply in_strip_entry in Hin. destruct Hin as (-> & f & Hf & Hs).
            destruct (find_by_name_in _ _ _ Hf) as [Hfd <-]. exists f. split; [exact Hfd|].
            apply in_strip_of. split; [reflexivity|]. exists x. split; [exact (sorted_in_get o o_sorted _ x Hkx) | exact Hs].
      Qed.

      (* one level of conv_shaped, with the level below abstract *)
      Lemma level_result :
        exists m, fold_left conv_step d (POk []) = POk m
          /\ (Forall (fun f => match dm_get m (f_num f) with Some v => lens_field P em L f v | None => True end) d ->
              Forall (fun f => match dm_get m (f_num f) with Some v => wt_field P em WT f v | None => True end) d)
          /\ pbind (fold_left (ptv_step m) d (@POk obj [])) (fun o' => POk (VObj o'))
             = POk (VObj (flat_map (strip_entry P st d) o)).
      Proof.
        exists conv_result. split; [|split].
        - exact (fold_in_order conv_step conv_of d 0 [] d_wf (Forall_nil _) conv_step_slot).
        - rewrite !Forall_forall. intros Hl f Hin. specialize (Hl f Hin). revert Hl. rewrite (conv_get f Hin). unfold conv_of.
          destruct (obj_get o (f_name f)) as [x|] eqn:Eg; [|trivial].
          destruct (present_converts f x Hin Eg) as (_ & pv & Hc & Hw & _). rewrite Hc. exact Hw.
        - rewrite (ptv_fold d [] (incl_refl d)). cbn [pbind]. do 2 f_equal.
          apply collect_of_perm; [apply strip_entries_sorted; exact o_sorted | exact kept_perm].
      Qed.
    End Fields.
  End Level.

  Theorem conv_shaped : forall fu d v,
    desc_okb d = true -> shaped_msg P fu d v = true ->
    exists m, conv_msg P lossy fu d v = POk m
              /\ (lens_msg P fu d m -> wt_msg P fu d m)
              /\ ptv_msg P fu d m = POk (strip_msg P fu d v).
  Proof.
    induction fu as [|fu IH]; intros d v Hd Hs; [discriminate|].
    cbn [shaped_msg] in Hs. destruct v; try discriminate.
    apply andb_true_iff in Hs. destruct Hs as [Hsort Hsh], (desc_okb_spec d Hd) as (Hwf & _ & Hf & Hn).
    exact (level_result (conv_msg P lossy fu) (shaped_msg P fu) (ptv_msg P fu) (strip_msg P fu) (enc_msg P fu)
                        (wt_msg P fu) (lens_msg P fu) (fun i v' => IH _ v' (pool_okb_get P i pool_ok)) d Hwf Hf Hn kvs Hsort Hsh).
  Qed.

  (* parse_proto (encode_proto v) = strip_defaults v, for every message-shaped v whose encoding fits its length prefixes *)
  Theorem message_roundtrip d v :
    desc_okb d = true -> shaped P d v = true ->
    exists m, conv_msg P lossy glue_fuel d v = POk m
              /\ encode_proto P lossy d v = POk (encode_msg P d m)
              /\ (lens_msg P glue_fuel d m -> parse_proto P d (encode_msg P d m) = POk (strip_defaults P d v)).
  Proof.
    intros Hd Hs. destruct (conv_shaped glue_fuel d v Hd Hs) as (m & Hc & Hw & Hp).
    exists m. split; [exact Hc|]. split; [unfold encode_proto; rewrite Hc; reflexivity|].
    intros Hl. unfold parse_proto, decode_msg, encode_msg, strip_defaults.
    pose proof (fun i => desc_okb_spec _ (pool_okb_get P i pool_ok)) as Hpool.
    destruct (desc_okb_spec d Hd) as (Hwf & Hok & _).
    change 101%nat with glue_fuel.
    rewrite (msg_roundtrip P (fun i => proj1 (Hpool i)) glue_fuel d m Hwf (Hw Hl)). cbn [pbind].
    rewrite (ptv_canon P (fun i => proj1 (Hpool i)) (fun i => proj1 (proj2 (Hpool i))) glue_fuel d m Hwf Hok). exact Hp.
  Qed.
End Message.
