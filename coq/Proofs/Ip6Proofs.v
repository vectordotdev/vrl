(* Proofs about Model/Ip.v: the RFC 5952 text of every IPv6 address (first longest run of two or
   more zero groups written "::", or "::ffff:a.b.c.d" for IPv4-mapped addresses) is read back by
   IpAddr::from_str as the same address; ip_ntop / ip_pton on 16 bytes. *)
From Coq Require Import String.
From Coq Require Import List NArith ZArith Bool Lia.
From VRL Require Import Base.Bytes Base.Value Model.ConvRes Model.IntText Model.Ip
  Proofs.ListFacts Proofs.IpProofs.
Import ListNotations.
Local Open Scope Z_scope.

Definition u16 (g : Z) : Prop := 0 <= g <= 65535.
Definition hexdigit (c : N) : Prop := to_digit 16 c <> None.

Definition colon_groups (gs : list Z) : bytes := flat_map (fun g => 58%N :: hex_u16 g) gs.

Lemma fmt_subslice_cons g gs : fmt_subslice (g :: gs) = hex_u16 g ++ colon_groups gs.
Proof.
  revert g. induction gs as [|g' gs IH]; intros g.
  - cbn. rewrite app_nil_r. reflexivity.
  - change (fmt_subslice (g :: g' :: gs)) with (hex_u16 g ++ ch_colon :: fmt_subslice (g' :: gs)).
    rewrite IH. reflexivity.
Qed.

Lemma colon_groups_cons_app g gs rest :
  colon_groups (g :: gs) ++ rest = 58%N :: hex_u16 g ++ colon_groups gs ++ rest.
Proof. unfold colon_groups. cbn [flat_map]. rewrite <- app_assoc. reflexivity. Qed.

(* the input that may follow a group list: the end, or the "::" *)
Definition stop (rest : bytes) : Prop := rest = [] \/ exists r, rest = 58%N :: 58%N :: r.
(* the input that may follow one group: the end or a colon *)
Definition colon_or_end (rest : bytes) : Prop := rest = [] \/ exists r, rest = 58%N :: r.

Lemma colon_groups_colon_or_end gs rest : stop rest -> colon_or_end (colon_groups gs ++ rest).
Proof.
  intros Hs. destruct gs as [|g gs]; [destruct Hs as [->|[r ->]]; [left | right; eexists]; reflexivity|].
  right. cbn [colon_groups flat_map app]. eexists. reflexivity.
Qed.

Lemma colon_or_end_not_hex rest : colon_or_end rest -> not_digit_start 16 rest.
Proof. intros [->|[r ->]]; [exact I | reflexivity]. Qed.

(* No dotted quad starts at a hex group that is followed by a colon or by the end: where the decimal digits of
   the first octet stop there is no dot. *)
Lemma read_digits_hex_prefix r : colon_or_end r -> forall s acc count v n rest' t,
  Forall hexdigit s -> read_digits 10 3 (s ++ r) acc count = Some (v, n, rest') -> rest' <> 46%N :: t.
Proof.
  intros Hr. induction s as [|c s IH]; intros acc count v n rest' t Hh E; cbn [app read_digits] in E.
  - destruct Hr as [->|[r' ->]]; injection E as _ _ <-; discriminate.
  - inversion Hh as [|? ? Hc Hs]; subst. destruct (to_digit 10 c) eqn:D.
    + destruct (Nat.ltb 3 (S count)); [discriminate | eapply IH; eassumption].
    + injection E as _ _ <-. intros [= ->]. apply Hc. reflexivity.
Qed.

Lemma read_ipv4_hex_none s r : Forall hexdigit s -> colon_or_end r -> read_ipv4_addr (s ++ r) = None.
Proof.
  intros Hs Hr. unfold read_ipv4_addr, read_octet at 1, read_separator at 1, read_number.
  destruct (read_digits 10 3 (s ++ r) 0 O) as [[[v n] rest']|] eqn:E; [|reflexivity].
  destruct (Nat.eqb n 0); [reflexivity|].
  destruct (negb false && match s ++ r with 48%N :: _ => true | _ => false end && Nat.ltb 1 n); [reflexivity|].
  destruct (v <=? 255); [|reflexivity].
  unfold read_octet at 1, read_separator at 1. destruct rest' as [|c t]; [reflexivity|].
  destruct (N.eqb_spec c ch_dot) as [->|]; [|reflexivity].
  destruct (read_digits_hex_prefix r Hr s 0 O _ _ _ t Hs E). reflexivity.
Qed.

Lemma read_ipv4_hex_group g r : u16 g -> colon_or_end r -> read_ipv4_addr (hex_u16 g ++ r) = None.
Proof. intros Hg Hr. apply read_ipv4_hex_none; [apply hex_u16_digits; exact Hg | exact Hr]. Qed.

(* at the end of the input and at "::" the first character already decides that no group is read *)
Lemma read_groups_stop n i rest : stop rest -> read_groups n i rest = ([], false, rest).
Proof. intros [->|[r ->]]; destruct n as [|[|n]], i; reflexivity. Qed.

(* The groups of a list are read back one by one.  Only index 0 (fmt_subslice) is used below; the later
   indices, where a colon comes first, are what the induction passes through. *)
Lemma read_groups_text : forall gs n i rest,
  Forall u16 gs -> (length gs <= n)%nat -> stop rest ->
  read_groups n i ((match i with O => fmt_subslice gs | S _ => colon_groups gs end) ++ rest) = (gs, false, rest).
Proof.
  induction gs as [|g gs IH]; intros n i rest Hg Hn Hs.
  - destruct i; apply read_groups_stop; exact Hs.
  - destruct n as [|n']; [cbn in Hn; lia|]. cbn [length] in Hn.
    inversion Hg as [|? ? Hg1 Hg2]; subst.
    pose proof (colon_groups_colon_or_end gs rest Hs) as Hce.
    rewrite read_groups_S.
    destruct i; [rewrite fmt_subslice_cons, <- app_assoc | rewrite colon_groups_cons_app]; cbn [read_separator];
      change ((58 =? ch_colon)%N) with true; cbv iota;
      rewrite (read_ipv4_hex_group g _ Hg1 Hce), (read_hex_u16 g _ Hg1 (colon_or_end_not_hex _ Hce)),
        (IH n' (S _) rest) by (auto; lia);
      destruct (Nat.leb 1 n'); reflexivity.
Qed.

Lemma read_groups_fmt gs n rest :
  Forall u16 gs -> (length gs <= n)%nat -> stop rest ->
  read_groups n 0 (fmt_subslice gs ++ rest) = (gs, false, rest).
Proof. apply (read_groups_text gs n 0). Qed.

(* the loop only looks at which segments are zero *)
Fixpoint zero_span_b (bs : list bool) (i : nat) (longest current : nat * nat) : nat * nat :=
  match bs with
  | [] => longest
  | b :: rest =>
      if b then
        let cur := (if Nat.eqb (snd current) 0 then i else fst current, S (snd current)) in
        let lon := if Nat.ltb (snd longest) (snd cur) then cur else longest in
        zero_span_b rest (S i) lon cur
      else zero_span_b rest (S i) longest (O, O)
  end.

Definition zmask (G : list Z) : list bool := map (fun g => g =? 0) G.

Lemma zero_span_mask G : forall i l c, zero_span G i l c = zero_span_b (zmask G) i l c.
Proof. induction G as [|g G IH]; intros i l c; [reflexivity|]. cbn [zmask map zero_span zero_span_b]. destruct (g =? 0); apply IH. Qed.

(* all 256 zero patterns: the span lies inside the address and covers zero segments only *)
Lemma zero_span_b_ok B : length B = 8%nat ->
  let '(start, len) := zero_span_b B O (O, O) (O, O) in
  Nat.leb (start + len) 8 = true /\ firstn len (skipn start B) = repeat true len.
Proof.
  intros Hl. destruct B as [|b0 [|b1 [|b2 [|b3 [|b4 [|b5 [|b6 [|b7 [|? ?]]]]]]]]]; try discriminate.
  destruct b0, b1, b2, b3, b4, b5, b6, b7; vm_compute; split; reflexivity.
Qed.

Lemma skipn_skipn' {A} n m (l : list A) : skipn n (skipn m l) = skipn (m + n) l.
Proof. revert l; induction m; intros l; cbn; [reflexivity|]. destruct l; [destruct n; reflexivity | apply IHm]. Qed.

Lemma all_zero_repeat L : forall n, zmask L = repeat true n -> L = repeat 0 n.
Proof.
  induction L as [|g L IH]; intros [|n]; cbn [zmask map repeat]; try discriminate; [reflexivity|].
  intros [= ->%Z.eqb_eq H]. f_equal. apply IH. exact H.
Qed.

Lemma zero_span_decomp G : length G = 8%nat ->
  let '(start, len) := zero_span G O (O, O) (O, O) in
  G = firstn start G ++ repeat 0 len ++ skipn (start + len) G /\ (start + len <= 8)%nat.
Proof.
  intros Hl. rewrite zero_span_mask.
  assert (Hm : length (zmask G) = 8%nat) by (unfold zmask; rewrite map_length; exact Hl).
  pose proof (zero_span_b_ok _ Hm) as H.
  destruct (zero_span_b (zmask G) O (O, O) (O, O)) as [start len].
  destruct H as [Hle%Nat.leb_le Hz]. split; [|exact Hle].
  unfold zmask in Hz. rewrite skipn_map, firstn_map in Hz. apply all_zero_repeat in Hz.
  rewrite <- (firstn_skipn start G) at 1. f_equal.
  rewrite <- (firstn_skipn len (skipn start G)) at 1. rewrite skipn_skipn'. f_equal. exact Hz.
Qed.

Lemma to_ipv4_mapped_some gs v4 : to_ipv4_mapped gs = Some v4 ->
  exists ab cd, gs = [0; 0; 0; 0; 0; 65535; ab; cd] /\ v4 = [ab / 256; ab mod 256; cd / 256; cd mod 256].
Proof.
  do 9 (destruct gs as [|? gs]; try discriminate). unfold to_ipv4_mapped.
  destruct (_ && _) eqn:E; [|discriminate]. rewrite !andb_true_iff, !Z.eqb_eq in E.
  intros [= <-]. destruct E as [[[[[-> ->] ->] ->] ->] ->]. eauto.
Qed.

Lemma fmt_first_none gs rest : gs <> [] -> Forall u16 gs -> stop rest -> read_ipv4_addr (fmt_subslice gs ++ rest) = None.
Proof.
  intros Hne Hg Hs. destruct gs as [|g gs]; [congruence|]. inversion Hg; subst.
  rewrite fmt_subslice_cons, <- app_assoc. apply read_ipv4_hex_group; [assumption|].
  apply colon_groups_colon_or_end. exact Hs.
Qed.

(* eight groups written out *)
Lemma parse_ip_full G : length G = 8%nat -> Forall u16 G -> parse_ip (fmt_subslice G) = Some (V6 G).
Proof.
  intros Hl Hg. unfold parse_ip. rewrite <- (app_nil_r (fmt_subslice G)).
  assert (Hne : G <> []) by (intros ->; discriminate).
  rewrite (fmt_first_none G [] Hne Hg (or_introl eq_refl)).
  unfold read_ipv6_addr. rewrite (read_groups_fmt G 8 [] Hg) by (try lia; left; reflexivity).
  rewrite Hl. reflexivity.
Qed.

(* groups, "::", groups: the gap is filled with zero groups *)
Lemma parse_ip_compressed H T len : Forall u16 H -> Forall u16 T -> (0 < len)%nat -> (length H + len + length T = 8)%nat ->
  parse_ip (fmt_subslice H ++ 58%N :: 58%N :: fmt_subslice T) = Some (V6 (H ++ repeat 0 len ++ T)).
Proof.
  intros HH HT Hlen Hl.
  assert (Stop2 : stop (58%N :: 58%N :: fmt_subslice T)) by (right; eexists; reflexivity).
  assert (N4 : read_ipv4_addr (fmt_subslice H ++ 58%N :: 58%N :: fmt_subslice T) = None).
  { destruct H; [apply read_ipv4_colon | apply fmt_first_none; [discriminate | exact HH | exact Stop2]]. }
  unfold parse_ip. rewrite N4. unfold read_ipv6_addr.
  rewrite (read_groups_fmt H 8 _ HH ltac:(lia) Stop2), (proj2 (Nat.eqb_neq (length H) 8)) by lia.
  cbv iota zeta. rewrite <- (app_nil_r (fmt_subslice T)).
  rewrite (read_groups_fmt T (8 - (length H + 1)) [] HT) by (try lia; left; reflexivity).
  replace (8 - length H - length T)%nat with len by lia. reflexivity.
Qed.

Theorem ipv6_text_roundtrip G :
  length G = 8%nat -> Forall u16 G -> parse_ip (ipv6_to_string G) = Some (V6 G).
Proof.
  intros Hl Hg. unfold ipv6_to_string.
  destruct (to_ipv4_mapped G) as [v4|] eqn:M.
  - (* IPv4-mapped *)
    apply to_ipv4_mapped_some in M as (ab & cd & -> & ->).
    rewrite Forall_forall in Hg.
    pose proof (Hg ab ltac:(cbn; tauto)) as H6. pose proof (Hg cd ltac:(cbn; tauto)) as H7. unfold u16 in H6, H7.
    change (ascii_bytes "::ffff:"%string ++ ?x) with (mapped_text x).
    rewrite parse_ip_mapped_text by (unfold octet; Z.div_mod_to_equations; lia).
    do 2 f_equal. repeat f_equal; Z.div_mod_to_equations; lia.
  - (* the first longest zero run, compressed when it has two or more groups *)
    pose proof (zero_span_decomp G Hl) as D.
    destruct (zero_span G O (O, O) (O, O)) as [start len]. destruct D as [DG Dle].
    destruct (Nat.ltb_spec 1 len) as [L|L]; [|apply parse_ip_full; assumption].
    destruct (Forall_firstn_skipn u16 start G Hg) as [HH _], (Forall_firstn_skipn u16 (start + len) G Hg) as [_ HT].
    rewrite (parse_ip_compressed _ _ len) by (auto; rewrite ?firstn_length, ?skipn_length; lia).
    rewrite <- DG. reflexivity.
Qed.

(* pairs of bytes and sixteen-bit segments, for any even number of bytes *)
Lemma segments_octets_pairs : forall n (b : bytes), length b = (2 * n)%nat -> wf_bytes b = true ->
  let G := segments_of_octets (octets_of_bytes b) in
  length G = n /\ Forall u16 G /\ bytes_of_octets (octets_of_segments G) = b.
Proof.
  induction n as [|n IH]; intros b Hl Hw.
  - destruct b; [|discriminate]. repeat split. constructor.
  - destruct b as [|x [|y b]]; cbn [length] in Hl; try lia.
    cbn [wf_bytes forallb] in Hw. apply andb_true_iff in Hw as [Hx%N.ltb_lt Hw]. apply andb_true_iff in Hw as [Hy%N.ltb_lt Hw].
    destruct (IH b ltac:(lia) Hw) as (L & F & E).
    cbv zeta. cbn [octets_of_bytes map segments_of_octets octets_of_segments bytes_of_octets length].
    split; [f_equal; exact L|]. split; [constructor; [unfold u16; lia | exact F]|].
    f_equal; [Z.div_mod_to_equations; lia|]. f_equal; [Z.div_mod_to_equations; lia | exact E].
Qed.

Lemma segments_octets_roundtrip (b : bytes) :
  length b = 16%nat -> wf_bytes b = true ->
  let G := segments_of_octets (octets_of_bytes b) in
  length G = 8%nat /\ Forall u16 G /\ bytes_of_octets (octets_of_segments G) = b.
Proof. apply (segments_octets_pairs 8). Qed.

Theorem ntop_pton_roundtrip_v6 b :
  length b = 16%nat -> wf_bytes b = true ->
  exists s, ip_ntop (VBytes b) = ROk (VBytes s) /\ ip_pton (VBytes s) = ROk (VBytes b).
Proof.
  intros Hl Hw. destruct (segments_octets_roundtrip b Hl Hw) as (L8 & HG & Hb).
  unfold ip_ntop. rewrite Hl. cbn [Nat.eqb]. eexists. split; [reflexivity|].
  unfold ip_pton. rewrite (ipv6_text_roundtrip _ L8 HG). rewrite Hb. reflexivity.
Qed.

(* the canonical text of an address is a fixed point of ip_to_ipv6 *)
Theorem ip_to_ipv6_canonical G :
  length G = 8%nat -> Forall u16 G -> ip_to_ipv6 (VBytes (ipv6_to_string G)) = ROk (VBytes (ipv6_to_string G)).
Proof. intros Hl Hg. unfold ip_to_ipv6. rewrite (ipv6_text_roundtrip G Hl Hg). reflexivity. Qed.
