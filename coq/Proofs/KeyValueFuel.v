(* C24 — the fuel of the separated_list1 loop in Model/KeyValue.v (input length + 1) is never exhausted:
   every sub-parser returns a suffix no longer than its input and the loop's own progress check rejects an
   iteration that consumed nothing. *)
From Coq Require Import List NArith Bool Lia Arith.
From VRL Require Import Base.Bytes Model.KeyValue.
Import ListNotations.
Local Open Scope nat_scope.

(* what a parser leaves is no longer than what it was given *)
Definition short {A} (s : str) (o : option (A * str)) : Prop :=
  forall x r, o = Some (x, r) -> length r <= length s.

Lemma first_some_short {A} s (a b : option (A * str)) : short s a -> short s b -> short s (first_some a b).
Proof. intros Ha Hb. destruct a as [[x r]|]; [exact Ha | exact Hb]. Qed.

Lemma strip_prefix_len p : forall s r, strip_prefix p s = Some r -> length r <= length s.
Proof.
  induction p as [|x p IH]; intros s r H; cbn in H.
  - injection H as <-. lia.
  - destruct s as [|y s]; [discriminate|]. destruct (N.eqb x y); [|discriminate].
    apply IH in H. cbn. lia.
Qed.

Lemma space0_len s : length (space0 s) <= length s.
Proof. induction s as [|c s IH]; cbn; auto. destruct (is_sptab c); cbn; lia. Qed.

Lemma many_sp_len s : length (many_sp s) <= length s.
Proof. induction s as [|c s IH]; cbn; auto. destruct (N.eqb c c_sp); cbn; lia. Qed.

Lemma pfd_len fd s r : parse_field_delimiter fd s = Some r -> length r <= length s.
Proof.
  unfold parse_field_delimiter. pose proof (many_sp_len s). destruct (bytes_eqb fd [c_sp]).
  - destruct s as [|c s]; [discriminate|]. destruct (N.eqb c c_sp); [|discriminate].
    intros [= <-]. pose proof (many_sp_len s). cbn. lia.
  - intros E. apply strip_prefix_len in E. lia.
Qed.

Lemma take_until_len pat s : short s (take_until pat s).
Proof.
  induction s as [|c s IH]; intros a b H; cbn [take_until] in H.
  - destruct (strip_prefix pat []); [|discriminate]. injection H as _ <-. lia.
  - destruct (strip_prefix pat (c :: s)); [injection H as _ <-; lia|].
    destruct (take_until pat s) as [[a' b']|] eqn:E; [|discriminate].
    injection H as _ <-. specialize (IH _ _ eq_refl). cbn. lia.
Qed.

(* esc_go steps by one or two characters: induction on a bound for the length *)
Lemma esc_go_len delim : forall n i, length i <= n -> short i (esc_go delim i).
Proof.
  induction n as [|n IH]; intros [|c t] Hn a b H; cbn [esc_go length] in *;
    [injection H as _ <-; cbn; lia | lia | injection H as _ <-; cbn; lia |].
  destruct (negb (N.eqb c c_bs) && negb (N.eqb c delim))%bool.
  - destruct (esc_go delim t) as [[a' b']|] eqn:E; [|discriminate]. injection H as _ <-.
    apply IH in E; [|lia]. lia.
  - destruct (N.eqb c c_bs); [|injection H as _ <-; cbn; lia].
    destruct t as [|d t']; [discriminate|].
    destruct (esc_go delim t') as [[a' b']|] eqn:E; [|discriminate]. injection H as _ <-.
    apply IH in E; [|cbn in Hn; lia]. cbn. lia.
Qed.

Lemma escaped_len delim i : short i (escaped delim i).
Proof.
  intros a b. unfold escaped. destruct (esc_go delim i) as [[a' b']|] eqn:E; [|discriminate].
  apply (esc_go_len delim (length i) i (le_n _)) in E.
  destruct a'; [destruct (is_nil i); [|discriminate]|]; intros [= _ <-]; cbn; lia.
Qed.

Lemma parse_delimited_len delim term s : short s (parse_delimited delim term s).
Proof.
  intros x r. unfold parse_delimited. destruct s as [|c s0]; [discriminate|]. destruct (N.eqb c delim); [|discriminate].
  set (m := match escaped delim s0 with Some _ => _ | None => _ end).
  assert (L : length (snd m) <= length s0).
  { subst m. destruct (escaped delim s0) as [[a b]|] eqn:E; [exact (escaped_len _ _ _ _ E) | cbn; lia]. }
  destruct m as [inner [|d r2]]; [discriminate|]. destruct (N.eqb d delim); [|discriminate].
  destruct (parse_field_delimiter term r2); [|destruct (is_nil (space0 r2)); [|discriminate]];
    intros [= _ <-]; cbn [snd length] in *; lia.
Qed.

Lemma parse_undelimited_len fd s : short s (Some (parse_undelimited fd s)).
Proof.
  intros x r. unfold parse_undelimited. destruct (take_until fd s) as [[a b]|] eqn:E; intros [= _ <-].
  - exact (take_until_len _ _ _ _ E).
  - cbn. lia.
Qed.

Lemma parse_value_len fd s : short s (Some (parse_value fd s)).
Proof.
  unfold parse_value.
  destruct (parse_delimited c_sq fd s) as [p|] eqn:E1; [rewrite <- E1; apply parse_delimited_len|].
  destruct (parse_delimited c_dq fd s) as [p|] eqn:E2; [rewrite <- E2; apply parse_delimited_len|].
  apply parse_undelimited_len.
Qed.

Lemma parse_key_len kvd fd sk s : short s (parse_key kvd fd sk s).
Proof.
  unfold parse_key. set (inner := if sk then _ else _).
  assert (Hin : short s inner).
  { subst inner. destruct sk; repeat (apply first_some_short; [apply parse_delimited_len|]);
      [|apply parse_undelimited_len].
    destruct (parse_undelimited kvd s) as [k1 r1] eqn:E.
    destruct (negb (is_nil k1) && negb (contains fd k1))%bool; [rewrite <- E|]; apply parse_undelimited_len. }
  destruct inner as [[k0 r0]|]; [|discriminate]. destruct (is_nil k0); [discriminate | exact Hin].
Qed.

Lemma parse_sep_len kvd ws s r : parse_sep kvd ws s = Some r -> length r <= length s.
Proof.
  unfold parse_sep. destruct ws; [apply strip_prefix_len|].
  destruct (strip_prefix kvd (space0 s)) as [r0|] eqn:E; [|discriminate]. intros [= <-].
  apply strip_prefix_len in E. pose proof (space0_len s). pose proof (space0_len r0). lia.
Qed.

Lemma parse_kv_len kvd fd ws sk s : short s (parse_kv kvd fd ws sk s).
Proof.
  intros o r. unfold parse_kv. destruct (parse_key kvd fd sk (space0 s)) as [[k r1]|] eqn:EK; [|discriminate].
  apply parse_key_len in EK. pose proof (space0_len s).
  set (seps := match parse_sep kvd ws r1 with Some _ => _ | None => _ end).
  assert (Hs : short r1 seps).
  { subst seps. intros b r2. destruct (parse_sep kvd ws r1) as [r2'|] eqn:ES.
    - apply parse_sep_len in ES. destruct (Nat.eqb (length r2') (length r1)); [discriminate|]. intros [= _ <-]. exact ES.
    - destruct sk; [|discriminate]. intros [= _ <-]. lia. }
  destruct seps as [[b r2]|]; [|discriminate]. specialize (Hs _ _ eq_refl).
  pose proof (parse_value_len fd r2) as LV. destruct (parse_value fd r2) as [v r3].
  specialize (LV _ _ eq_refl). intros [= _ <-]. lia.
Qed.

Lemma sep_loop_fuel kvd fd ws sk : forall fuel i acc,
  length i < fuel -> sep_loop kvd fd ws sk fuel i acc <> LFuel.
Proof.
  induction fuel as [|f IH]; intros i acc Hf; [lia|].
  cbn [sep_loop]. destruct (parse_field_delimiter fd i) as [i1|] eqn:E1; [|discriminate].
  apply pfd_len in E1.
  destruct (parse_kv kvd fd ws sk i1) as [[o i2]|] eqn:E2; [|discriminate].
  apply parse_kv_len in E2.
  destruct (Nat.eqb (length i2) (length i)) eqn:E3; [discriminate|].
  apply Nat.eqb_neq in E3. apply IH. lia.
Qed.

Theorem kv_fuel_sufficient kvd fd ws sk s : parse_key_value kvd fd ws sk s <> PFuel.
Proof.
  unfold parse_key_value.
  destruct (parse_line kvd fd ws sk s) eqn:E.
  - destruct (is_nil (trim rest)); discriminate.
  - discriminate.
  - exfalso. unfold parse_line in E.
    destruct (parse_kv kvd fd ws sk s) as [[o i1]|] eqn:E1; [|discriminate].
    apply parse_kv_len in E1. revert E. apply sep_loop_fuel. lia.
Qed.
