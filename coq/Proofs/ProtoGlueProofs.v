(* VRL's protobuf glue (Model/ProtoGlue.v) on top of the wire theorems: proto_to_value does not see the difference
   between a dynamic message and its normal form (`canon`), because a field that `canon` drops is one proto_to_value
   skips, and a message field always has presence.  Proofs/ProtoShapedProofs.v uses it to get from
   decode (encode m) = canon m to parse_proto (encode_proto v) = strip_defaults v. *)
From Coq Require Import List NArith ZArith Bool Arith.
From VRL Require Import Base.Value Model.Proto Model.ProtoGlue Proofs.ProtoScalarProofs Proofs.ProtoMsgProofs.
Import ListNotations.

(* a message field always has presence (prost-reflect: supports_presence is true for message kinds) *)
Definition field_ok (f : field) : Prop :=
  match f_card f with
  | CSingular false => is_msg_kind (f_kind f) = false
  | _ => True
  end.
Definition desc_ok (d : list field) : Prop := Forall field_ok d.

Lemma fold_left_ext_in {A B} (f g : A -> B -> A) (l : list B) :
  (forall a b, In b l -> f a b = g a b) -> forall a, fold_left f l a = fold_left g l a.
Proof.
  induction l as [|b l IH]; intros H a; [reflexivity|]. cbn [fold_left].
  rewrite (H a b (or_introl eq_refl)). apply IH. intros a' b' Hin. apply H. right. exact Hin.
Qed.

Section Canon.
  Variable P : list (list field).
  Hypothesis wf_pool : forall i, wf_desc (get_msg P i).
  Hypothesis pool_ok : forall i, desc_ok (get_msg P i).

  Section Level.
    Variable pm : list field -> list (N * pval) -> pres value.
    Variable cn : list field -> list (N * pval) -> list (N * pval).
    Hypothesis below : forall i m', pm (get_msg P i) (cn (get_msg P i) m') = pm (get_msg P i) m'.

    Lemma ptv_scalar_canon k v : ptv_scalar P pm k (canon_scalar P cn k v) = ptv_scalar P pm k v.
    Proof.
      destruct k; try reflexivity. destruct v; try reflexivity. cbn [canon_scalar ptv_scalar]. apply below.
    Qed.

    Lemma ptv_list_canon k l : ptv_list P pm k (map (canon_scalar P cn k) l) = ptv_list P pm k l.
    Proof.
      induction l as [|x l IH]; [reflexivity|]. cbn [map ptv_list]. rewrite ptv_scalar_canon, IH. reflexivity.
    Qed.

    Lemma ptv_entries_canon k l : forall acc,
      ptv_entries P pm k (map (fun kv : pval * pval => (fst kv, canon_scalar P cn k (snd kv))) l) acc
      = ptv_entries P pm k l acc.
    Proof.
      induction l as [|[a b] l IH]; intros acc; [reflexivity|]. cbn [map ptv_entries fst snd].
      rewrite ptv_scalar_canon. destruct (ptv_scalar P pm k b); cbn [pbind]; try reflexivity. apply IH.
    Qed.

    (* only an embedded message changes, and ptv_field treats it as ptv_scalar does *)
    Lemma ptv_field_scalar_canon f v :
      ptv_field P pm f (canon_scalar P cn (f_kind f) v) = ptv_field P pm f v.
    Proof.
      destruct (f_kind f) eqn:Ek; try reflexivity. destruct v; try reflexivity.
      cbn [canon_scalar ptv_field]. rewrite Ek. cbn [ptv_scalar]. apply below.
    Qed.

    Lemma ptv_field_canon f v : ptv_field P pm f (canon_field P cn f v) = ptv_field P pm f v.
    Proof.
      unfold canon_field. destruct (f_card f); try apply ptv_field_scalar_canon;
        destruct v; try apply ptv_field_scalar_canon; cbn [ptv_field].
      - rewrite ptv_list_canon. reflexivity.
      - rewrite ptv_entries_canon. reflexivity.
    Qed.

    Lemma has_canon f v : field_ok f -> has_value f v = true -> has_value f (canon_field P cn f v) = true.
    Proof.
      intros Hok Hh. unfold has_value, canon_field, field_ok in *. destruct (f_card f) as [[|]|pk|kk kp vp].
      - reflexivity.
      - rewrite (canon_scalar_plain P cn _ v Hok). exact Hh.
      - destruct v; try (destruct (f_kind f); try exact Hh; reflexivity).
        destruct l; [discriminate | reflexivity].
      - destruct v; try (destruct (f_kind f); try exact Hh; reflexivity).
        destruct l; [discriminate | reflexivity].
    Qed.
  End Level.

  Theorem ptv_canon : forall fuel d m, wf_desc d -> desc_ok d ->
    ptv_msg P fuel d (canon P fuel d m) = ptv_msg P fuel d m.
  Proof.
    induction fuel as [|fu IH]; intros d m Hd Hok; [reflexivity|].
    rewrite canon_build. cbn [ptv_msg]. f_equal.
    assert (below : forall i m', ptv_msg P fu (get_msg P i) (canon P fu (get_msg P i) m') = ptv_msg P fu (get_msg P i) m').
    { intros i m'. apply IH; [apply wf_pool | apply pool_ok]. }
    apply fold_left_ext_in. intros acc f Hin. destruct acc as [o| |]; cbn [pbind]; try reflexivity.
    rewrite (build_get _ 0 d f Hd Hin). unfold canon_of.
    destruct (dm_get m (f_num f)) as [v|]; [|reflexivity].
    destruct (has_value f v) eqn:Hh; [|reflexivity].
    rewrite (has_canon (canon P fu) f v (proj1 (Forall_forall _ _) Hok f Hin) Hh).
    rewrite (ptv_field_canon (ptv_msg P fu) (canon P fu) below). reflexivity.
  Qed.
End Canon.
