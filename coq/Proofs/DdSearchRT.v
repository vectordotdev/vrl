(* Proofs about Model/DdSearch.v (C30): each kind of printed value text is read back by the `value`
   rule as the same alternative (the parse_value_ theorems), and a printed `field? value` clause is read back as its node
   while nothing else of the grammar claims its start (clause_reads). *)
From Coq Require Import String List NArith Bool Lia.
From Coq Require Import Floats.SpecFloat.
From VRL Require Import Base.Bytes Model.DdNode Model.DdSearch
  Proofs.DdSearchProofs Proofs.DdSearchNum.
Import ListNotations.
Local Open Scope N_scope.

Definition head_ok (c : N) : Prop := c = 92 \/ (lucene_special c = false /\ is_ws c = false).

Lemma head_ok_neq c k : head_ok c -> lucene_special k = true -> k <> 92 -> (c =? k) = false.
Proof.
  intros [->|[H _]] K N.
  - apply N.eqb_neq. congruence.
  - apply not_special_neq; auto.
Qed.

Lemma head_ok_not_ws c : head_ok c -> is_ws c = false.
Proof. intros [->|[_ H]]; [reflexivity | exact H]. Qed.

Lemma escaped_head v :
  nonempty v = true -> no_ws v = true -> exists c r, lucene_escape v = c :: r /\ head_ok c.
Proof.
  destruct v as [|c v]; [discriminate|]. intros _ W. apply no_ws_cons in W as [W _].
  cbn [lucene_escape]. destruct (lucene_special c) eqn:Sc.
  - exists 92, (c :: lucene_escape v). split; [reflexivity | left; reflexivity].
  - exists c, (lucene_escape v). split; [reflexivity | right; auto].
Qed.

Lemma skip_head c r : is_ws c = false -> skip (c :: r) = c :: r.
Proof. intros H. cbn. rewrite H. reflexivity. Qed.

Lemma strip_prefix_none p s : starts_with s p = false -> strip_prefix p s = None.
Proof.
  revert s; induction p as [|c p IH]; intros s; cbn; [discriminate|].
  destruct s as [|x s]; [reflexivity|]. destruct (x =? c); cbn; [apply IH | reflexivity].
Qed.

Definition alt_star (s : bytes) : option (pvalue * bytes) :=
  match s with c :: r => if (c =? 42) && term_end r then Some (PVStar, r) else None | [] => None end.

Definition alt_term (s : bytes) : option (pvalue * bytes) :=
  match lex_term s with Some (t, r) => if term_end r then Some (PVTerm t, r) else None | None => None end.

Lemma parse_value_eq s :
  parse_value s =
  match alt_star s with
  | Some x => Some x
  | None =>
  match lex_phrase s with
  | Some (p, r) => Some (PVPhrase p, r)
  | None =>
  match lex_term_prefix s with
  | Some (p, r) => Some (PVPrefix p, r)
  | None =>
  match parse_comparison s with
  | Some x => Some x
  | None =>
  match parse_range s with
  | Some x => Some x
  | None =>
  match alt_term s with
  | Some x => Some x
  | None =>
  match lex_term_glob s with
  | Some (g, r) => Some (PVGlob g, r)
  | None => None
  end end end end end end end.
Proof. reflexivity. Qed.

Lemma parse_comparison_head c r : (c =? 62) = false -> (c =? 60) = false -> parse_comparison (c :: r) = None.
Proof.
  intros G L. unfold parse_comparison, lex_operator.
  change (bs ">=") with [62; 61]. change (bs "<=") with [60; 61]. change (bs ">") with [62]. change (bs "<") with [60].
  cbn [strip_prefix]. rewrite G, L. reflexivity.
Qed.

Lemma no_modifier c r : (c =? 43) = false -> (c =? 45) = false -> no_kw (c :: r) -> parse_modifiers (c :: r) = None.
Proof.
  intros P M K. unfold parse_modifiers. rewrite (strip_prefix_none (bs "NOT")) by (apply K; cbn; tauto).
  cbn. rewrite P, M. reflexivity.
Qed.

Section Heads.
  Variables (c : N) (r : bytes).
  Hypothesis Hc : head_ok c.

  Lemma head_alt_star : alt_star (c :: r) = None.
  Proof. cbn. rewrite (head_ok_neq c 42 Hc eq_refl) by discriminate. reflexivity. Qed.

  Lemma head_lex_phrase : lex_phrase (c :: r) = None.
  Proof. cbn. rewrite (head_ok_neq c 34 Hc eq_refl) by discriminate. reflexivity. Qed.

  Lemma head_parse_comparison : parse_comparison (c :: r) = None.
  Proof. apply parse_comparison_head; apply head_ok_neq; auto; discriminate. Qed.

  Lemma head_parse_range : parse_range (c :: r) = None.
  Proof.
    cbn. rewrite (head_ok_neq c 91 Hc eq_refl), (head_ok_neq c 123 Hc eq_refl) by discriminate. reflexivity.
  Qed.

  Lemma head_not_matchall : strip_prefix (bs "*:*") (c :: r) = None.
  Proof. cbn. rewrite (head_ok_neq c 42 Hc eq_refl) by discriminate. reflexivity. Qed.

  Lemma head_not_lparen : strip_prefix [40] (c :: r) = None.
  Proof. cbn. rewrite (head_ok_neq c 40 Hc eq_refl) by discriminate. reflexivity. Qed.

  Lemma head_skip : skip (c :: r) = c :: r.
  Proof. apply skip_head. apply head_ok_not_ws; exact Hc. Qed.

  Lemma head_no_modifier : no_kw (c :: r) -> parse_modifiers (c :: r) = None.
  Proof. apply no_modifier; apply head_ok_neq; auto; discriminate. Qed.
End Heads.

Lemma lex_term_prefix_escaped_none s rest :
  nonempty s = true -> no_ws s = true -> uni_free s = true -> term_end rest = true ->
  lex_term_prefix (lucene_escape s ++ rest) = None.
Proof.
  intros N W U E. rewrite lex_term_prefix_scan, (term_scan_escaped s rest N W U (term_end_stops rest E)).
  destruct rest as [|c r]; [reflexivity|].
  pose proof (term_end_head (fun c => negb (c =? 42)) c r E eq_refl) as H. apply negb_true_iff in H.
  rewrite H. reflexivity.
Qed.

Theorem parse_value_term v rest :
  term_ok v = true -> term_end rest = true ->
  parse_value (lucene_escape v ++ rest) = Some (PVTerm (lucene_escape v), rest).
Proof.
  intros T E. destruct (term_ok_parts v T) as (N & W & U & K).
  destruct (escaped_head v N W) as (c & r & Hv & Hc).
  rewrite parse_value_eq.
  rewrite (lex_term_prefix_escaped_none v rest N W U E).
  unfold alt_term. rewrite (lex_term_escaped v rest T (term_end_stops rest E)). rewrite E.
  rewrite Hv. cbn [app].
  rewrite (head_alt_star c _ Hc), (head_lex_phrase c _ Hc), (head_parse_comparison c _ Hc), (head_parse_range c _ Hc).
  reflexivity.
Qed.

(* a quoted phrase: no condition at all *)
Theorem parse_value_quoted v rest :
  parse_value (34 :: quoted_escape v ++ 34 :: rest) = Some (PVPhrase (quoted_escape v), rest).
Proof.
  rewrite parse_value_eq. change (alt_star (34 :: quoted_escape v ++ 34 :: rest)) with (@None (pvalue * bytes)).
  rewrite lex_phrase_quoted. reflexivity.
Qed.

Theorem parse_value_prefix v rest :
  nonempty v = true -> no_ws v = true -> uni_free v = true -> term_end rest = true ->
  parse_value (lucene_escape v ++ 42 :: rest) = Some (PVPrefix (lucene_escape v), rest).
Proof.
  intros N W U E. destruct (escaped_head v N W) as (c & r & Hv & Hc).
  rewrite parse_value_eq. rewrite (lex_term_prefix_escaped v rest N W U E).
  rewrite Hv. cbn [app]. rewrite (head_alt_star c _ Hc), (head_lex_phrase c _ Hc). reflexivity.
Qed.

Lemma term_start_invalid g c r :
  (c =? 92) = false -> invalid_char c = true -> is_glob c = false -> term_start_char g (c :: r) = None.
Proof.
  intros H1 H2 H3. cbn [term_start_char]. rewrite H1. unfold invalid_start. rewrite H2, H3.
  rewrite !orb_true_r, andb_false_r. reflexivity.
Qed.

Lemma lex_operator_printed op x r :
  (x =? 61) = false -> lex_operator (cmp_lucene op ++ x :: r) = Some (op, x :: r).
Proof.
  intros H. unfold lex_operator. destruct op; cbn; rewrite ?H; reflexivity.
Qed.

(* after the printed operator only the comparison alternative is left *)
Lemma parse_value_cmp op X :
  parse_value (cmp_lucene op ++ X) = parse_comparison (cmp_lucene op ++ X).
Proof.
  rewrite parse_value_eq.
  assert (alt_star (cmp_lucene op ++ X) = None /\ lex_phrase (cmp_lucene op ++ X) = None /\
          lex_term_prefix (cmp_lucene op ++ X) = None) as (-> & -> & ->) by (destruct op; repeat split; reflexivity).
  destruct (parse_comparison (cmp_lucene op ++ X)); [reflexivity|]. destruct op; reflexivity.
Qed.

(* the string does not read as a number: NUM_VALUE does not match its escaped text *)
Definition numlike (s : bytes) : bool :=
  match s with
  | [] => false
  | c :: r => if c =? 45 then match r with d :: _ => is_digit d | [] => false end else is_digit c
  end.

Lemma digits_nondigit c r : is_digit c = false -> digits (c :: r) = ([], c :: r).
Proof. intros H. cbn. rewrite H. reflexivity. Qed.

Lemma digit_not_stop x : is_digit x = true -> stop_char x = false.
Proof.
  rewrite is_digit_spec. intros H. unfold stop_char, is_ws, invalid_char.
  rewrite !(proj2 (N.eqb_neq x _)) by lia. reflexivity.
Qed.

Lemma num_value_escaped_none v rest :
  nonempty v = true -> numlike v = false -> stops rest = true -> num_value (lucene_escape v ++ rest) = None.
Proof.
  destruct v as [|c v]; [discriminate|]. intros _ NL S. cbn [numlike] in NL.
  unfold num_value. cbn [lucene_escape].
  destruct (N.eqb_spec c 45) as [->|Hc].
  - (* "\-", then not a digit *)
    cbn [lucene_special N.eqb Pos.eqb orb app strip_prefix].
    destruct v as [|d v]; cbn [lucene_escape app].
    + destruct rest as [|x rest']; [reflexivity|]. rewrite digits_nondigit; [reflexivity|].
      destruct (is_digit x) eqn:D; [|reflexivity]. apply digit_not_stop in D. cbn [stops] in S. congruence.
    + destruct (lucene_special d); cbn [app]; rewrite digits_nondigit by (reflexivity || exact NL); reflexivity.
  - apply N.eqb_neq in Hc. destruct (lucene_special c) eqn:Sc; cbn [app strip_prefix].
    + cbn [N.eqb Pos.eqb]. rewrite Hc, digits_nondigit by reflexivity. reflexivity.
    + rewrite Hc, (not_special_neq c 92 Sc eq_refl), digits_nondigit by exact NL. reflexivity.
Qed.

Theorem parse_value_cmp_str op v rest :
  term_ok v = true -> numlike v = false -> term_end rest = true ->
  parse_value (cmp_lucene op ++ lucene_escape v ++ rest) = Some (PVCmp op false (lucene_escape v), rest).
Proof.
  intros T NL E. destruct (term_ok_parts v T) as (N & W & U & K). pose proof (term_end_stops rest E) as S.
  destruct (escaped_head v N W) as (c & r & Hv & Hc).
  rewrite parse_value_cmp. unfold parse_comparison.
  assert (lex_operator (cmp_lucene op ++ lucene_escape v ++ rest) = Some (op, lucene_escape v ++ rest)) as ->.
  { rewrite Hv. apply lex_operator_printed. apply (head_ok_neq c 61 Hc eq_refl). discriminate. }
  unfold lex_numeric_term. rewrite (num_value_escaped_none v rest N NL S), (lex_term_escaped v rest T S). reflexivity.
Qed.

Lemma term_end_num_stop rest : term_end rest = true -> num_stop rest = true.
Proof.
  destruct rest as [|c r]; [reflexivity|]. intros E.
  exact (term_end_head (fun c => negb (is_digit c) && negb (c =? 46) && negb (c =? 69)) c r E eq_refl).
Qed.

(* a comparison with a number whose text t is one NUMERIC_TERM *)
Lemma parse_value_cmp_num op t c r rest :
  t = c :: r -> int_char c = true -> lex_numeric_term (t ++ rest) = Some (t, rest) ->
  parse_value (cmp_lucene op ++ t ++ rest) = Some (PVCmp op true t, rest).
Proof.
  intros Et Hc Hl. rewrite parse_value_cmp. unfold parse_comparison.
  assert (lex_operator (cmp_lucene op ++ t ++ rest) = Some (op, t ++ rest)) as ->.
  { rewrite Et. apply lex_operator_printed, (class_neq int_char true c 61 Hc eq_refl). }
  rewrite Hl. reflexivity.
Qed.

Theorem parse_value_cmp_int op z rest :
  term_end rest = true ->
  parse_value (cmp_lucene op ++ dec_of_Z z ++ rest) = Some (PVCmp op true (dec_of_Z z), rest).
Proof.
  intros E. destruct (dec_of_Z_head z) as (c & r & Hz & Hc). apply (parse_value_cmp_num op _ c r rest Hz Hc).
  apply lex_numeric_term_dec, term_end_num_stop, E.
Qed.

(* the characters RANGE_VALUE accepts *)
Definition range_char (c : N) : bool := negb (is_ws c || (c =? 93) || (c =? 125)).

Lemma range_chars_app t rest :
  forallb range_char t = true ->
  (match rest with [] => true | c :: _ => negb (range_char c) end) = true ->
  range_chars (t ++ rest) = (t, rest).
Proof.
  intros T R. induction t as [|c t IH].
  - destruct rest as [|c r]; [reflexivity|]. cbn [app range_chars].
    unfold range_char in R. rewrite negb_involutive in R. rewrite R. reflexivity.
  - cbn [forallb] in T. apply andb_true_iff in T as [Tc T]. cbn [app range_chars].
    unfold range_char in Tc. apply negb_true_iff in Tc. rewrite Tc, IH; auto.
Qed.

Lemma lex_range_value_app t rest :
  nonempty t = true -> forallb range_char t = true ->
  (match rest with [] => true | c :: _ => negb (range_char c) end) = true ->
  lex_range_value (t ++ rest) = Some (t, rest).
Proof.
  intros N T R. unfold lex_range_value. rewrite range_chars_app by auto.
  destruct t; [discriminate | reflexivity].
Qed.

Definition lbr (b : bool) : N := if b then 91 else 123.
Definition rbr (b : bool) : N := if b then 93 else 125.

Lemma range_value_skip t x : nonempty t = true -> forallb range_char t = true -> skip (t ++ x) = t ++ x.
Proof.
  destruct t as [|c t]; [discriminate|]. intros _ T. cbn [forallb] in T. apply andb_true_iff in T as [Tc _].
  unfold range_char in Tc. rewrite negb_true_iff, !orb_false_iff in Tc. apply skip_head, Tc.
Qed.

(* a range: both brackets of the same kind, bounds made of RANGE_VALUE characters *)
Theorem parse_value_range b lo hi rest :
  nonempty lo = true -> forallb range_char lo = true ->
  nonempty hi = true -> forallb range_char hi = true ->
  parse_value (lbr b :: lo ++ bs " TO " ++ hi ++ rbr b :: rest) = Some (PVRange b lo hi b, rest).
Proof.
  intros Nl Tl Nh Th. set (X := lo ++ bs " TO " ++ hi ++ rbr b :: rest). rewrite parse_value_eq.
  assert (alt_star (lbr b :: X) = None /\ lex_phrase (lbr b :: X) = None /\ lex_term_prefix (lbr b :: X) = None /\
          parse_comparison (lbr b :: X) = None) as (-> & -> & -> & ->) by (destruct b; repeat split; reflexivity).
  unfold parse_range, X.
  assert ((lbr b =? 91) || (lbr b =? 123) = true) as -> by (destruct b; reflexivity).
  rewrite (range_value_skip lo), (lex_range_value_app lo) by auto.
  change (skip (bs " TO " ++ hi ++ rbr b :: rest)) with (bs "TO" ++ 32 :: hi ++ rbr b :: rest).
  rewrite strip_prefix_app. change (skip (32 :: hi ++ rbr b :: rest)) with (skip (hi ++ rbr b :: rest)).
  rewrite (range_value_skip hi), (lex_range_value_app hi) by (auto; destruct b; reflexivity).
  destruct b; reflexivity.
Qed.

Definition plain (s : bytes) : bool := forallb (fun c => negb (lucene_special c)) s.

(* text that is printed as it is and read back as one TERM *)
Definition raw_ok (a : bytes) : bool := term_ok a && plain a.

(* attribute names: raw_ok and not one of the two pseudo-fields *)
Definition attr_ok (a : bytes) : bool :=
  raw_ok a && negb (bytes_eqb a EXISTS_FIELD) && negb (bytes_eqb a MISSING_FIELD).

Lemma raw_ok_parts a : raw_ok a = true -> term_ok a = true /\ plain a = true /\ lucene_escape a = a /\ unescape a = a.
Proof.
  unfold raw_ok. intros H. apply andb_true_iff in H as [T P]. repeat split; auto.
  - apply lucene_escape_plain; exact P.
  - apply unescape_plain; exact P.
Qed.

Lemma attr_ok_raw a : attr_ok a = true -> raw_ok a = true.
Proof. unfold attr_ok. rewrite !andb_true_iff. tauto. Qed.

Lemma escaped_opens v rest :
  term_ok v = true -> stops rest = true ->
  skip (lucene_escape v ++ rest) = lucene_escape v ++ rest /\
  strip_prefix (bs "*:*") (lucene_escape v ++ rest) = None /\
  parse_modifiers (lucene_escape v ++ rest) = None /\
  lex_term (lucene_escape v ++ rest) = Some (lucene_escape v, rest).
Proof.
  intros T S. destruct (term_ok_parts v T) as (N & W & U & K). destruct (escaped_head v N W) as (c & r & Ev & Hc).
  pose proof (no_kw_escaped v rest K S) as NK. pose proof (lex_term_escaped v rest T S) as L. rewrite Ev in *.
  cbn [app] in *. repeat split; auto using head_skip, head_not_matchall, head_no_modifier.
Qed.

(* text printed raw (an attribute) followed by the colon is read as the field, and as nothing else *)
Lemma field_colon a X :
  raw_ok a = true ->
  skip (a ++ 58 :: X) = a ++ 58 :: X /\ strip_prefix (bs "*:*") (a ++ 58 :: X) = None /\
  parse_modifiers (a ++ 58 :: X) = None /\ parse_field_opt (a ++ 58 :: X) = (Some a, X) /\
  multiterm_lookahead (a ++ 58 :: X) = false.
Proof.
  intros H. destruct (raw_ok_parts a H) as (T & _ & E & _).
  destruct (escaped_opens a (58 :: X) T eq_refl) as (S & M & P & L). rewrite E in *.
  unfold parse_field_opt, multiterm_lookahead. rewrite L. auto.
Qed.

(* what follows an item inside a list: blank, then AND / OR *)
Definition follows_conj (rest : bytes) : bool :=
  match rest with c :: r => is_ws c && kw_and_or (skip r) | [] => false end.

(* the start of a clause without field, s, is not claimed by the match-all token, a field or a modifier;
   m: whether multitermlookahead matches there *)
Definition bare_start (s : bytes) (m : bool) : Prop :=
  strip_prefix (bs "*:*") s = None /\ parse_field_opt s = (None, s) /\ parse_modifiers s = None /\
  multiterm_lookahead s = m.

(* s opens with a value text that is read as pv; D: no field stands before it *)
Definition value_reads (D : Prop) (s : bytes) (pv : pvalue) (rest : bytes) (m : bool) : Prop :=
  parse_value s = Some (pv, rest) /\ skip s = s /\ (D -> bare_start s m).

(* value texts that open with a quote, a comparison operator or a bracket *)
Lemma opener_value D s pv rest :
  match s with c :: _ => In c [34; 62; 60; 91; 123] | [] => False end -> parse_value s = Some (pv, rest) ->
  value_reads D s pv rest false.
Proof.
  intros H P. destruct s as [|c r]; [destruct H|]. split; [exact P|].
  destruct H as [<-|[<-|[<-|[<-|[<-|[]]]]]]; repeat split; reflexivity.
Qed.

(* a bare term can open a multiterm, unless a blank and AND / OR follow *)
Lemma term_value D v rest :
  term_ok v = true -> term_end rest = true ->
  value_reads D (lucene_escape v ++ rest) (PVTerm (lucene_escape v)) rest (negb (follows_conj rest)).
Proof.
  intros T E. destruct (escaped_opens v rest T (term_end_stops rest E)) as (S & M & P & L).
  split; [apply parse_value_term; assumption|]. split; [exact S|]. intros _.
  unfold bare_start, parse_field_opt, multiterm_lookahead. rewrite L. destruct rest as [|x r]; [auto|].
  (* x ends the term: it is neither the colon nor the star *)
  pose proof (term_end_head (fun c => negb ((c =? 58) || (c =? 42))) x r E eq_refl) as H. apply negb_true_iff in H.
  rewrite H. apply orb_false_iff in H as [-> _]. cbn [follows_conj skip]. destruct (is_ws x); auto.
Qed.

Lemma prefix_value D v rest :
  term_ok v = true -> term_end rest = true ->
  value_reads D (lucene_escape v ++ 42 :: rest) (PVPrefix (lucene_escape v)) rest false.
Proof.
  intros T E. destruct (term_ok_parts v T) as (N & W & U & K).
  destruct (escaped_opens v (42 :: rest) T eq_refl) as (S & M & P & L).
  split; [apply parse_value_prefix; assumption|]. split; [exact S|]. intros _.
  unfold bare_start, parse_field_opt, multiterm_lookahead. rewrite L. auto.
Qed.

Definition is_none {A} (o : option A) : bool := match o with None => true | Some _ => false end.

(* a string bound: RANGE_VALUE characters, and not re-read as `*`, a number or a quoted string *)
Definition str_bound_ok (s : bytes) : bool :=
  nonempty s && forallb range_char s && bytes_eqb (escape_quotes s) s && negb (bytes_eqb s [42])
  && is_none (parse_i64 s) && is_none (parse_f64 s).

Section Clause.
  Variable sub : bytes -> bytes -> option (list qitem * bytes).

  (* s opens with the printed clause of n, no blank or modifier before it *)
  Definition clause_reads (s : bytes) (n : node) (rest : bytes) (m : bool) : Prop :=
    parse_clause sub DEFAULT_FIELD s = Some (VOk n, rest) /\ skip s = s /\ parse_modifiers s = None /\
    multiterm_lookahead s = m.

  (* a printed `field? value` clause: the value text opens s, behind the optional field *)
  Lemma clause_of_value a s pv n rest m m' :
    attr_ok a = true -> clause_node a pv = VOk n ->
    value_reads (bytes_eqb a DEFAULT_FIELD = true) s pv rest m -> bytes_eqb a DEFAULT_FIELD && m = m' ->
    clause_reads (is_default_attr a ++ s) n rest m'.
  Proof.
    intros A Hn (Hpv & Hs & Hdef) <-. apply attr_ok_raw in A. unfold clause_reads, parse_clause, is_default_attr.
    destruct (bytes_eqb a DEFAULT_FIELD) eqn:D.
    - apply bytes_eqb_eq in D. subst a. cbn [app]. destruct (Hdef eq_refl) as (-> & -> & M & L).
      rewrite Hs, Hpv. cbn [or_default]. rewrite Hn. auto.
    - rewrite <- app_assoc. cbn [app]. destruct (field_colon a s A) as (S & -> & M & -> & L).
      rewrite Hs, Hpv. cbn [or_default]. rewrite Hn. auto.
  Qed.

  (* on a real attribute name visit_clause only looks at the value *)
  Lemma clause_node_attr a pv :
    attr_ok a = true ->
    clause_node a pv =
    match pv with
    | PVStar => if bytes_eqb a DEFAULT_FIELD then VOk NAll else VOk (NWild a [42])
    | PVTerm t => VOk (NTerm a (unescape t))
    | PVPhrase p => VOk (NQuoted a (unescape p))
    | PVPrefix p => VOk (NPrefix a (unescape p))
    | PVGlob g => VOk (NWild a (unescape g))
    | PVRange lb lo hi rb =>
        if Bool.eqb lb rb then VOk (NRange a (cval_from lo) lb (cval_from hi) rb) else VPanic
    | PVCmp op numeric raw =>
        VOk (NCmp a op (if numeric then cval_from raw else CStr (unescape raw)))
    end.
  Proof.
    intros A. destruct (raw_ok_parts a (attr_ok_raw a A)) as (_ & _ & _ & U). unfold attr_ok in A.
    rewrite !andb_true_iff, !negb_true_iff in A. destruct A as [[_ E] M].
    unfold clause_node. rewrite E, M, U. reflexivity.
  Qed.

  (* exists / missing: the attribute is printed raw *)
  Lemma clause_pseudo (F : bytes) (mk : bytes -> node) a rest :
    raw_ok F = true -> (forall t, clause_node F (PVTerm t) = VOk (mk (unescape t))) ->
    raw_ok a = true -> term_end rest = true ->
    clause_reads ((F ++ [58]) ++ a ++ rest) (mk a) rest false.
  Proof.
    intros HF Hmk Ha E. destruct (raw_ok_parts a Ha) as (T & _ & El & Eu).
    destruct (term_value True a rest T E) as (Pv & S & _). rewrite El in *.
    rewrite <- app_assoc. cbn [app]. destruct (field_colon F (a ++ rest) HF) as (SF & M & P & Fd & L).
    unfold clause_reads, parse_clause. rewrite M, Fd, S, Pv. cbn [or_default]. rewrite Hmk, Eu. auto.
  Qed.

  Variable fdisp : spec_float -> bytes.

  (* a numeric bound: its text t reads back as cv, is one NUMERIC_TERM and is made of RANGE_VALUE characters *)
  Definition num_text_ok (t : bytes) (cv : cval) : Prop :=
    cval_from t = cv /\ forallb range_char t = true /\ (exists c r, t = c :: r /\ int_char c = true) /\
    (forall rest, term_end rest = true -> lex_numeric_term (t ++ rest) = Some (t, rest)).

  Lemma int_char_range c : int_char c = true -> range_char c = true.
  Proof.
    unfold int_char, range_char. intros H. apply orb_true_iff in H as [H|H].
    - apply is_digit_spec in H. apply negb_true_iff. unfold is_ws.
      rewrite !orb_false_iff, !N.eqb_neq. repeat split; lia.
    - apply N.eqb_eq in H. subst. reflexivity.
  Qed.

  Lemma int_text_ok z : i64_range z = true -> num_text_ok (dec_of_Z z) (CInt z).
  Proof.
    intros R. repeat split.
    - apply cval_from_dec; exact R.
    - pose proof (dec_of_Z_chars z) as H. rewrite forallb_forall in *. intros c Hc. apply int_char_range; auto.
    - destruct (dec_of_Z_head z) as (c & r & E & Hc). eauto.
    - intros rest E. apply lex_numeric_term_dec. apply term_end_num_stop; exact E.
  Qed.

  Lemma clause_cmp_num a op t cv rest :
    attr_ok a = true -> num_text_ok t cv -> term_end rest = true ->
    clause_reads (is_default_attr a ++ cmp_lucene op ++ t ++ rest) (NCmp a op cv) rest false.
  Proof.
    intros A (Hcv & _ & (c & r & Et & Hc) & Hlex) E.
    apply (clause_of_value a _ (PVCmp op true t) _ _ false); auto using andb_false_r.
    - rewrite clause_node_attr, Hcv by exact A. reflexivity.
    - apply opener_value; [destruct op; cbn; tauto | apply (parse_value_cmp_num op t c r); auto].
  Qed.

  (* floats: the Display text of the float is a hypothesis *)
  Variable fok : spec_float -> bool.
  Hypothesis Hfloat : forall f, fok f = true -> num_text_ok (fdisp f) (CFloat f).

  Definition bound_ok (cv : cval) : bool :=
    match cv with
    | CUnb => true
    | CInt z => i64_range z
    | CStr s => str_bound_ok s
    | CFloat f => fok f
    end.

  Lemma escape_range_chars s : forallb range_char s = true -> forallb range_char (lucene_escape s) = true.
  Proof.
    induction s as [|c s IH]; [reflexivity|]. cbn [forallb lucene_escape]. intros H.
    apply andb_true_iff in H as [Hc H]. destruct (lucene_special c); cbn [forallb]; rewrite ?Hc, IH; auto.
  Qed.

  Lemma escape_nonempty s : nonempty s = true -> nonempty (lucene_escape s) = true.
  Proof. destruct s as [|c s]; [discriminate|]. intros _. cbn. destruct (lucene_special c); reflexivity. Qed.

  Lemma bound_text cv :
    bound_ok cv = true ->
    cval_from (cval_lucene fdisp cv) = cv /\ nonempty (cval_lucene fdisp cv) = true /\
    forallb range_char (cval_lucene fdisp cv) = true.
  Proof.
    destruct cv as [|s|z|f]; cbn [bound_ok cval_lucene]; intros H.
    - repeat split.
    - unfold str_bound_ok in H. rewrite !andb_true_iff, negb_true_iff in H. destruct H as [[[[[N R] Q] S] I] F].
      repeat split; [|apply escape_nonempty; exact N | apply escape_range_chars; exact R].
      unfold cval_from. rewrite unescape_lucene_escape. apply bytes_eqb_eq in Q. rewrite Q, S.
      destruct (parse_i64 s); [discriminate|]. destruct (parse_f64 s); [discriminate|]. reflexivity.
    - destruct (int_text_ok z H) as (A & B & (c & r & E & _) & _). repeat split; auto. rewrite E. reflexivity.
    - destruct (Hfloat f H) as (A & B & (c & r & E & _) & _). repeat split; auto. rewrite E. reflexivity.
  Qed.

  Lemma clause_range a lo hi b rest :
    attr_ok a = true -> bound_ok lo = true -> bound_ok hi = true ->
    clause_reads (to_lucene fdisp (NRange a lo b hi b) ++ rest) (NRange a lo b hi b) rest false.
  Proof.
    intros A Hlo Hhi. destruct (bound_text lo Hlo) as (Cl & Nl & Rl). destruct (bound_text hi Hhi) as (Ch & Nh & Rh).
    cbn [to_lucene]. rewrite <- !app_assoc.
    apply (clause_of_value a _ (PVRange b (cval_lucene fdisp lo) (cval_lucene fdisp hi) b) _ _ false); auto using andb_false_r.
    - rewrite clause_node_attr, Bool.eqb_reflx, Cl, Ch by exact A. reflexivity.
    - pose proof (parse_value_range b _ _ rest Nl Rl Nh Rh) as P. apply opener_value; destruct b; (cbn; tauto) || exact P.
  Qed.
End Clause.

(* the text "1.5" of a float bound: one digit, the point, one digit, read by the lexer as one NUMERIC_TERM *)
Lemma num_text_ok_one_point_five f : cval_from (bs "1.5") = CFloat f -> num_text_ok (bs "1.5") (CFloat f).
Proof.
  intros Hf. repeat split; [exact Hf | |].
  - exists 49%N, [46%N; 53%N]. split; reflexivity.
  - intros rest E. destruct (num_stop_spec rest (term_end_num_stop rest E)) as (S1 & S2 & S3).
    unfold lex_numeric_term, num_value. change (bs "1.5" ++ rest) with (49%N :: 46%N :: [53%N] ++ rest).
    cbn [strip_prefix N.eqb Pos.eqb digits is_digit N.leb N.compare Pos.compare Pos.compare_cont andb].
    rewrite (digits_app [53%N] rest eq_refl S1). cbn [app]. cbn [strip_prefix] in S3. rewrite S3. reflexivity.
Qed.
