(* Proofs about Model/Conversion.v: the integer, float and boolean conversions and the names Conversion::parse accepts
   (timestamps: ConversionTsProofs.v). *)
From Coq Require Import List NArith ZArith Bool Lia.
From Coq Require Import Floats.SpecFloat.
From VRL Require Import Base.Bytes Base.Value Model.ConvRes Model.Arith Model.IntText Model.NumFns Model.Casing.
From VRL Require Import Proofs.ArithProofs Proofs.IntTextProofs Proofs.NumFnsTextProofs.
From VRL Require Import Model.Conversion.
Import ListNotations.
Local Open Scope Z_scope.

Lemma mem_In s l : mem s l = true <-> In s l.
Proof.
  unfold mem. rewrite existsb_exists. split.
  - intros (x & Hx & E). apply bytes_eqb_eq in E. subst. exact Hx.
  - intros H. exists s. split; [exact H | apply bytes_eqb_refl].
Qed.

Lemma mem_false s l : mem s l = false <-> ~ In s l.
Proof.
  split.
  - intros H Hin. apply mem_In in Hin. congruence.
  - intros H. destruct (mem s l) eqn:E; [apply mem_In in E; contradiction | reflexivity].
Qed.

Lemma to_lower_inv c x : to_lower c = x -> c = x \/ (is_lower x = true /\ c = (x - 32)%N).
Proof.
  unfold to_lower. destruct (is_upper c) eqn:U; intros <-; [right | left; reflexivity].
  unfold is_upper, is_lower in *. rewrite andb_true_iff, !N.leb_le in *. lia.
Qed.

Lemma variants_complete : forall s l, map to_lower s = l -> In s (variants l).
Proof.
  induction s as [|c s IH]; intros l H; subst l.
  - left. reflexivity.
  - cbn [map variants]. specialize (IH _ eq_refl).
    destruct (to_lower_inv c _ eq_refl) as [E | [L E]].
    + destruct (is_lower (to_lower c)).
      * apply in_or_app. left. rewrite E at 1. apply in_map. exact IH.
      * rewrite E at 1. apply in_map. exact IH.
    + rewrite L. apply in_or_app. right. rewrite E at 1. apply in_map. exact IH.
Qed.

Lemma bool_variants_ok :
  forallb (fun b => forallb (fun l => forallb (fun s =>
     match parse_bool s with Some b' => Bool.eqb b b' | None => false end) (variants l)) (spellings b))
    [true; false] = true.
Proof. vm_compute. reflexivity. Qed.

(* a spelling written exactly is not a number and is in lower case already *)
Lemma lit_plain b s : mem s (spellings b) = true -> parse_i64 s = None /\ In (map to_lower s) (spellings b).
Proof.
  intros H%mem_In. destruct b; cbn in H; repeat (destruct H as [<- | H]; [split; vm_compute; auto|]); contradiction.
Qed.

Section WithChrono.
  Variable tzT : Type.
  Variable cl : tzT -> bytes -> bytes -> option dt.
  Variable cz : bytes -> bytes -> option dt.
  Variable c3 c2 : bytes -> option dt.

  Notation conv := (convert tzT cl cz c3 c2).

  Theorem convert_int_roundtrip z : ConvRes.in_i64 z = true ->
    exists s, int_to_string z = ROk s /\ conv CInteger s = COk (VInt z).
  Proof.
    intros Hz. destruct (format_radix_roundtrip 10 z ltac:(lia) Hz) as (s & Hf & Hp).
    exists s. split; [exact Hf|]. cbn [convert]. unfold parse_i64. rewrite Hp. reflexivity.
  Qed.

  (* nothing but an i64 in decimal is accepted *)
  Theorem convert_int_only_decimal s v : conv CInteger s = COk v ->
    exists z, v = VInt z /\ ConvRes.in_i64 z = true /\ from_str_radix s 10 = Some z.
  Proof.
    cbn [convert]. unfold parse_i64. destruct (from_str_radix s 10) as [z|] eqn:E; [|discriminate].
    intros [= <-]. exists z. split; [reflexivity|]. split; [exact (from_str_radix_range s 10 z E) | reflexivity].
  Qed.

  (* floats: the parser's result is returned unless it is NaN *)
  Theorem convert_float_partial (fmt_f64 : spec_float -> bytes) f :
    parse_f64 (fmt_f64 f) = Some f -> f_is_nan f = false -> conv CFloat (fmt_f64 f) = COk (VFloat f).
  Proof. intros Hp Hn. cbn [convert]. rewrite Hp, Hn. reflexivity. Qed.

  Theorem convert_float_int_text z : ConvRes.in_i64 z = true ->
    exists s, int_to_string z = ROk s /\ conv CFloat s = COk (VFloat (of_i64 z)).
  Proof.
    intros Hz. destruct (convert_int_roundtrip z Hz) as (s & Hs & _). exists s. split; [exact Hs|].
    cbn [convert]. rewrite (parse_f64_int_text z s Hz Hs), (of_i64_not_nan z). reflexivity.
  Qed.

  Theorem convert_float_nan s v : conv CFloat s = COk v -> exists f, v = VFloat f /\ f_is_nan f = false.
  Proof.
    cbn [convert]. destruct (parse_f64 s) as [f|]; [|discriminate].
    destruct (f_is_nan f) eqn:E; [discriminate|]. intros [= <-]. exists f. split; [reflexivity | exact E].
  Qed.

  (* every documented spelling, in every letter case, gives its meaning *)
  Theorem bool_spellings b l s : In l (spellings b) -> map to_lower s = l -> conv CBoolean s = COk (VBool b).
  Proof.
    intros Hl Hs. apply variants_complete in Hs.
    pose proof bool_variants_ok as H. rewrite forallb_forall in H.
    assert (Hb : In b [true; false]) by (destruct b; cbn; auto).
    specialize (H b Hb). rewrite forallb_forall in H. specialize (H l Hl).
    rewrite forallb_forall in H. specialize (H s Hs).
    cbn [convert]. destruct (parse_bool s) as [b'|]; [|discriminate].
    apply Bool.eqb_prop in H. subst. reflexivity.
  Qed.

  (* integers: zero is false, everything else is true *)
  Theorem bool_numeric s n : parse_i64 s = Some n -> conv CBoolean s = COk (VBool (negb (n =? 0))).
  Proof.
    intros Hn. cbn [convert]. unfold parse_bool.
    destruct (mem s true_lits) eqn:E1; [destruct (lit_plain true s E1); congruence|].
    destruct (mem s false_lits) eqn:E2; [destruct (lit_plain false s E2); congruence|].
    cbn [orb]. destruct (bytes_eqb s zero_lit) eqn:E3.
    { apply bytes_eqb_eq in E3. subst s. vm_compute in Hn. inversion Hn; subst. reflexivity. }
    rewrite Hn. reflexivity.
  Qed.

  (* nothing else is accepted *)
  Theorem bool_exact s v : conv CBoolean s = COk v ->
    exists b, v = VBool b /\
      (In (map to_lower s) (spellings b) \/ exists n, parse_i64 s = Some n /\ b = negb (n =? 0)).
  Proof.
    enough (E : forall b, parse_bool s = Some b ->
                In (map to_lower s) (spellings b) \/ exists n, parse_i64 s = Some n /\ b = negb (n =? 0)).
    { cbn [convert]. destruct (parse_bool s) as [b|]; [|discriminate]. intros [= <-]. eauto. }
    unfold parse_bool. intros b.
    destruct (mem s true_lits) eqn:E1; [intros [= <-]; left; exact (proj2 (lit_plain true s E1))|].
    destruct (mem s false_lits) eqn:E2; [intros [= <-]; left; exact (proj2 (lit_plain false s E2))|].
    cbn [orb]. destruct (bytes_eqb s zero_lit) eqn:E3.
    { intros [= <-]. right. exists 0. apply bytes_eqb_eq in E3. subst s. split; reflexivity. }
    destruct (parse_i64 s) as [n|]; [intros [= <-]; eauto|].
    destruct (mem (map to_lower s) true_lits) eqn:E4; [intros [= <-]; left; apply mem_In, E4|].
    destruct (mem (map to_lower s) false_lits) eqn:E5; [intros [= <-]; left; apply mem_In, E5 | discriminate].
  Qed.
End WithChrono.

Definition no_bar (s : bytes) : Prop := ~ In 124%N s.

(* s.splitn(2, '|'): the first part has no '|', and the parts put the text together again *)
Lemma split_bar_inv s : forall a b, split_bar s = (a, b) ->
  no_bar a /\ s = a ++ match b with Some r => 124%N :: r | None => [] end.
Proof.
  induction s as [|c s IH]; intros a b; cbn [split_bar].
  - intros [= <- <-]. split; [intros []|reflexivity].
  - destruct (N.eqb_spec c 124) as [->|Hc]; [intros [= <- <-]; split; [intros []|reflexivity]|].
    destruct (split_bar s) as [a' b']. intros [= <- <-]. destruct (IH a' b' eq_refl) as [Hn E].
    split; [intros [Hin|Hin]; [congruence | exact (Hn Hin)] | cbn [app]; f_equal; exact E].
Qed.

Lemma split_bar_app a b : no_bar a -> split_bar (a ++ 124%N :: b) = (a, Some b).
Proof.
  induction a as [|c a IH]; intros Hn; cbn [app split_bar]; [reflexivity|].
  destruct (N.eqb_spec c 124) as [->|_]; [destruct Hn; left; reflexivity|].
  rewrite IH; [reflexivity|]. intros Hin. apply Hn. right; exact Hin.
Qed.

Lemma strip_pad (step : bytes -> option bytes) pad : forall s fuel,
  (forall c r, In c pad -> step (c :: r) = Some r) -> step s = None -> (length pad <= fuel)%nat ->
  strip step fuel (pad ++ s) = s.
Proof.
  induction pad as [|c pad IH]; intros s fuel Hstep Hs Hf; cbn [app].
  - destruct fuel; cbn [strip]; [reflexivity | rewrite Hs; reflexivity].
  - destruct fuel as [|fuel]; [cbn in Hf; lia|]. cbn [strip].
    rewrite (Hstep c (pad ++ s) (or_introl eq_refl)).
    apply IH; [intros c' r Hin; apply Hstep; right; exact Hin | exact Hs | cbn in Hf; lia].
Qed.

Definition ascii_ws_pad (pad : bytes) : Prop := forall c, In c pad -> is_ascii_ws c = true.

Lemma ws_head_ascii c r : is_ascii_ws c = true -> ws_head (c :: r) = Some r.
Proof. intros H. unfold ws_head. rewrite H. reflexivity. Qed.
Lemma ws_last_ascii c r : is_ascii_ws c = true -> ws_last (c :: r) = Some r.
Proof. intros H. unfold ws_last. rewrite H. reflexivity. Qed.

(* trimming ASCII white space around a word that neither starts nor ends with white space *)
Lemma trim_padded p1 p2 w :
  ascii_ws_pad p1 -> ascii_ws_pad p2 -> ws_head (w ++ p2) = None -> ws_last (rev w) = None ->
  trim (p1 ++ w ++ p2) = w.
Proof.
  intros H1 H2 Hh Hl'. unfold trim.
  rewrite (strip_pad ws_head p1 (w ++ p2));
    [| intros c r Hin; apply ws_head_ascii, H1, Hin | exact Hh | rewrite app_length; lia].
  rewrite rev_app_distr.
  rewrite (strip_pad ws_last (rev p2) (rev w));
    [apply rev_involutive | intros c r Hin; apply ws_last_ascii, H2, in_rev, Hin | exact Hl'
     | rewrite rev_length, app_length; lia].
Qed.

Lemma ws_not_bar c : is_ascii_ws c = true -> c <> 124%N.
Proof. intros H ->. vm_compute in H. discriminate. Qed.

Section Names.
  Variable tzT : Type.

  (* the documented table *)
  Definition documented (tz : tzT) (a : bytes) (c : conversion tzT) : Prop :=
    (In a names_bytes /\ c = CBytes) \/ (In a names_integer /\ c = CInteger) \/ (In a names_float /\ c = CFloat)
    \/ (In a names_boolean /\ c = CBoolean) \/ (a = name_timestamp /\ c = CTimestamp tz).

  (* the chain of tests Conversion::parse makes on a name without '|' is that table: the lists are disjoint *)
  Lemma plain_name_documented tz a c :
    (if mem a names_bytes then Some CBytes
     else if mem a names_integer then Some CInteger
     else if mem a names_float then Some CFloat
     else if mem a names_boolean then Some CBoolean
     else if bytes_eqb a name_timestamp then Some (CTimestamp tz) else None) = Some c <-> documented tz a c.
  Proof.
    unfold documented. split.
    - rewrite <- !mem_In, <- bytes_eqb_eq.
      destruct (mem a names_bytes); [intros [= <-]; auto|].
      destruct (mem a names_integer); [intros [= <-]; auto|].
      destruct (mem a names_float); [intros [= <-]; auto 6|].
      destruct (mem a names_boolean); [intros [= <-]; auto 8|].
      destruct (bytes_eqb a name_timestamp); [intros [= <-]; auto 10 | discriminate].
    - intros [[H ->]|[[H ->]|[[H ->]|[[H ->]|[-> ->]]]]]; try reflexivity;
        cbn in H; repeat (destruct H as [<-|H]; [reflexivity|]); destruct H.
  Qed.

  (* Conversion::parse accepts exactly the documented names: without a '|' the trimmed name must be in the table;
     with one, the part before the first '|' must trim to "timestamp" and the rest (trimmed) is the format *)
  Theorem names_exact name tz c :
    parse_conv tzT name tz = Some c <->
      ((no_bar name /\ documented tz (trim name) c)
       \/ (exists a fmt, name = a ++ 124%N :: fmt /\ no_bar a /\ trim a = name_timestamp
                         /\ c = conv_timestamp tzT (trim fmt) tz)).
  Proof.
    unfold parse_conv. destruct (split_bar name) as [a [b|]] eqn:E;
      pose proof (split_bar_inv name _ _ E) as [Hn Hname].
    - assert (Hbar : ~ no_bar name) by (intros H; apply H; rewrite Hname; apply in_elt).
      split.
      + destruct (bytes_eqb (trim a) name_timestamp) eqn:E5; [|discriminate]. apply bytes_eqb_eq in E5.
        intros [= <-]. right. exists a, b. auto.
      + intros [[Hnb _] | (a' & fmt & Hname' & Hn' & Ht & ->)]; [contradiction|].
        rewrite Hname', (split_bar_app a' fmt Hn') in E. injection E as <- <-.
        rewrite Ht, bytes_eqb_refl. reflexivity.
    - rewrite app_nil_r in Hname. subst a. rewrite plain_name_documented. split; [auto|].
      intros [[_ D] | (a & fmt & Hname & _)]; [exact D|].
      destruct Hn. rewrite Hname. apply in_elt.
  Qed.

  Definition all_names : list bytes :=
    names_bytes ++ names_integer ++ names_float ++ names_boolean ++ [name_timestamp].

  (* every documented name is accepted, with any amount of ASCII white space around it, and means what the table says *)
  Theorem names_sound p1 p2 w tz : ascii_ws_pad p1 -> ascii_ws_pad p2 -> In w all_names ->
    exists c, parse_conv tzT (p1 ++ w ++ p2) tz = Some c /\ documented tz w c.
  Proof.
    intros H1 H2 Hw.
    assert (Hc : exists c, documented tz w c /\ trim (p1 ++ w ++ p2) = w /\ no_bar w).
    { cbn in Hw. repeat (destruct Hw as [<- | Hw];
        [eexists; split; [apply plain_name_documented; reflexivity|];
         split; [apply trim_padded; try assumption; reflexivity
                | intros Hin; cbn in Hin; repeat (destruct Hin as [Hin|Hin]; [discriminate|]); exact Hin]|]).
      contradiction. }
    destruct Hc as (c & Hd & Ht & Hnb). exists c. split; [|exact Hd].
    apply names_exact. left. split; [|rewrite Ht; exact Hd].
    intros Hin. apply in_app_or in Hin. destruct Hin as [Hin|Hin]; [exact (ws_not_bar _ (H1 _ Hin) eq_refl)|].
    apply in_app_or in Hin. destruct Hin as [Hin|Hin]; [exact (Hnb Hin) | exact (ws_not_bar _ (H2 _ Hin) eq_refl)].
  Qed.
End Names.
