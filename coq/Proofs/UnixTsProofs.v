(* Proofs about Model/UnixTs.v: integer -> timestamp -> integer is exact in every unit; timestamp -> integer ->
   timestamp is the truncation of the timestamp to the unit (towards minus infinity), hence exact on multiples
   of the unit. *)
From Coq Require Import NArith ZArith Bool Lia.
From VRL Require Import Base.Value Model.ConvRes Model.UnixTs Proofs.ConvResFacts.
Local Open Scope Z_scope.
(* lia reads div and mod, up to the end of this section only *)
Section DivMod.
Ltac Zify.zify_post_hook ::= Z.div_mod_to_equations.

(* to_unix_timestamp fails only for nanoseconds outside i64: both arms of the negative-side fix-up recompose ns *)
Theorem to_unix_nanos ns :
  to_unix_timestamp (VTs ns) Nanoseconds = if in_i64 ns then ROk (VInt ns) else RErr.
Proof.
  cbn [to_unix_timestamp]. unfold ts_secs, ts_subsec.
  destruct (Z.ltb_spec (ns / 1000000000) 0);
    [replace ((ns / 1000000000 + 1) * 1000000000 + (ns mod 1000000000 - 1000000000)) with ns by lia
    |replace (ns / 1000000000 * 1000000000 + ns mod 1000000000) with ns by lia];
    (destruct (in_i64 ns) eqn:I; [|rewrite andb_false_r; reflexivity]); apply in_i64_iff in I;
    rewrite (proj2 (in_i64_iff _)) by lia; reflexivity.
Qed.

Theorem from_to_unix u v t :
  in_i64 v = true -> from_unix_timestamp (VInt v) u = ROk t -> to_unix_timestamp t u = ROk (VInt v).
Proof.
  intros Hv H. destruct u; cbn [from_unix_timestamp] in H; unfold from_timestamp in H;
    try (destruct (secs_in_range _); inversion H; subst; cbn [to_unix_timestamp]; unfold ts_secs, ts_subsec;
         do 2 f_equal; lia).
  injection H as <-. rewrite to_unix_nanos, Hv. reflexivity.
Qed.

Theorem to_from_unix u ns :
  ts_in_range ns = true -> (u = Nanoseconds -> in_i64 ns = true) ->
  exists v, to_unix_timestamp (VTs ns) u = ROk (VInt v) /\ in_i64 v = true
            /\ from_unix_timestamp (VInt v) u = ROk (VTs (ns - ns mod unit_ns u)).
Proof.
  intros Hr Hn. unfold ts_in_range in Hr. pose proof (proj1 (secs_in_range_iff _) Hr) as Hr'.
  unfold ts_min_secs, ts_max_secs in Hr'.
  destruct u.
  4: { rewrite to_unix_nanos, (Hn eq_refl). exists ns. cbn [from_unix_timestamp unit_ns].
       rewrite Z.mod_1_r, Z.sub_0_r. auto. }
  (* the other units: the whole seconds of the integer are those of the timestamp *)
  all: (eexists; split; [reflexivity|]); unfold ts_secs, ts_subsec; (split; [apply in_i64_iff; lia|]);
    cbn [from_unix_timestamp unit_ns]; unfold from_timestamp.
  - rewrite Hr. do 2 f_equal. lia.
  - replace (_ / 1000) with (ns / 1000000000) by lia. rewrite Hr. do 2 f_equal. lia.
  - replace (_ / 1000000) with (ns / 1000000000) by lia. rewrite Hr. do 2 f_equal. lia.
Qed.

(* the timestamp that comes back is never later than the original and less than one unit earlier *)
Lemma truncation_bounds u ns : ns - unit_ns u < ns - ns mod unit_ns u <= ns.
Proof. destruct u; cbn [unit_ns]; lia. Qed.
End DivMod.
