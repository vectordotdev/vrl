(* C05: the trip count of format_number's padding loop; zip's collect loop stops, because every round shortens the
   shortest array by one. *)
From Coq Require Import List NArith ZArith Lia.
From VRL Require Import Base.Value Model.Fuel.
Import ListNotations.

Lemma pad_iterations_bound scale len :
  (scale < two64)%Z -> (0 <= len)%Z -> (0 <= pad_iterations scale len <= Z.max scale 0)%Z.
Proof.
  intros Hs Hl. unfold pad_iterations. destruct (Z.leb_spec scale 0); [lia|].
  unfold pad_iterations_cast, as_usize. rewrite Z.mod_small by lia.
  destruct (Z.ltb_spec len scale); lia.
Qed.

(* without the guard: a negative scale cast to usize is scale + 2^64 *)
Lemma pad_iterations_cast_negative scale len :
  (- 9223372036854775808 <= scale < 0)%Z -> (0 <= len <= 64)%Z ->
  (9223372036854775744 <= pad_iterations_cast scale len)%Z.
Proof.
  intros Hs Hl. unfold pad_iterations_cast, as_usize.
  rewrite <- (Z.mod_add scale 1 two64), Z.mod_small by (unfold two64; lia).
  destruct (Z.ltb_spec len (scale + 1 * two64)); unfold two64 in *; lia.
Qed.

Lemma multizip_nil fuel : multizip fuel [] = None.
Proof. induction fuel as [|f IH]; cbn; [|rewrite IH]; reflexivity. Qed.

Lemma fold_min_min (a : list (list value)) m k :
  fold_left (fun m x => Nat.min m (length x)) a (Nat.min m k) = Nat.min m (fold_left (fun m x => Nat.min m (length x)) a k).
Proof. revert k. induction a as [|x a IH]; intros k; cbn; [reflexivity|]. rewrite <- IH. f_equal. lia. Qed.

Lemma min_len_cons l r : r <> [] -> min_len (l :: r) = Nat.min (length l) (min_len r).
Proof. destruct r as [|l2 r2]; [congruence|]. intros _. exact (fold_min_min r2 _ _). Qed.

(* one round takes an element off every list: the shortest length goes down by one *)
Lemma heads_tails_min its : forall hs ts,
  heads_tails its = Some (hs, ts) -> its <> [] -> ts <> [] /\ min_len its = S (min_len ts).
Proof.
  induction its as [|l rest IH]; intros hs ts H Hne; [congruence|]. cbn in H.
  destruct l as [|x r]; [discriminate|]. destruct (heads_tails rest) as [[hs' ts']|] eqn:E; [|discriminate].
  injection H as <- <-. split; [discriminate|]. destruct rest as [|l2 rest2].
  - cbn in E. injection E as <- <-. reflexivity.
  - destruct (IH _ _ eq_refl) as [Hts M]; [discriminate|].
    rewrite (min_len_cons _ (l2 :: rest2)), (min_len_cons r ts'), M by (assumption || discriminate). cbn [length]. lia.
Qed.

Lemma multizip_terminates its : its <> [] -> forall fuel, min_len its < fuel -> multizip fuel its <> None.
Proof.
  intros Hne fuel. revert its Hne. induction fuel as [|f IH]; intros its Hne Hf; [lia|].
  cbn [multizip]. destruct (heads_tails its) as [[hs ts]|] eqn:E; [|discriminate].
  destruct (heads_tails_min _ _ _ E Hne) as [Hts M].
  specialize (IH ts Hts ltac:(lia)). destruct (multizip f ts); congruence.
Qed.
