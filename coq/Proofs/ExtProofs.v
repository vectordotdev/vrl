(* The run of a program depends on the function semantics only through the functions it calls
   (C14: results are a function of source, event, metadata and those functions; C36: a parameter
   such as the timezone that reaches only F can matter only through calls sensitive to it). *)
From Coq Require Import List.
From VRL Require Import Base.Value Model.Expr Model.Eval Model.Info Proofs.ListFacts Proofs.ExprInd Proofs.EvalProofs.
Import ListNotations.

Section Ext.
  Variable F1 F2 : fname -> list value -> option value.
  Variable binop : opcode -> value -> value -> option value.

  Definition agree_on (fs : list fname) : Prop := forall f, In f fs -> forall args, F1 f args = F2 f args.

  Lemma agree_app_l a b : agree_on (a ++ b) -> agree_on a.
  Proof. intros H f Hf. apply H. apply in_or_app; auto. Qed.
  Lemma agree_app_r a b : agree_on (a ++ b) -> agree_on b.
  Proof. intros H f Hf. apply H. apply in_or_app; auto. Qed.

  Definition ext_expr (e : expr) : Prop :=
    agree_on (fnames e) -> forall s, eval F1 binop e s = eval F2 binop e s.

  Lemma loop_ext {X Y} (st1 st2 : X -> state -> (Y + err) * state) items :
    Forall (fun a => forall s, st1 a s = st2 a s) items -> forall s, loop st1 items s = loop st2 items s.
  Proof.
    induction 1 as [|a r Ha _ IH]; intros s; cbn [loop]; auto.
    rewrite Ha. destruct (st2 a s) as [[b|e] s']; auto. rewrite IH. reflexivity.
  Qed.

  Lemma operands_ext es : Forall ext_expr es -> agree_on (fnames_l es) ->
    forall s, loop (eval F1 binop) es s = loop (eval F2 binop) es s.
  Proof.
    intros H Ha. apply loop_ext. unfold fnames_l in Ha.
    induction H as [|e es He _ IH]; constructor; cbn [flat_map] in Ha.
    - exact (He (agree_app_l _ _ Ha)).
    - exact (IH (agree_app_r _ _ Ha)).
  Qed.

  Lemma blk_ext es : Forall ext_expr es -> agree_on (fnames_l es) ->
    forall s, blk F1 binop es s = blk F2 binop es s.
  Proof.
    intros H Ha s. destruct es as [|e es]; [reflexivity|].
    rewrite !(blk_loop _ _ _ VNull), (operands_ext _ H Ha) by discriminate. reflexivity.
  Qed.

  Lemma run2_ext b1 b2 p0 p1 a b : (forall s, b1 s = b2 s) -> forall s, run2 b1 p0 p1 a b s = run2 b2 p0 p1 a b s.
  Proof.
    intros H s. unfold run2. destruct (bind_param s p0 a) as [o s1]. destruct (bind_param s1 p1 b) as [o1 s2].
    rewrite H. reflexivity.
  Qed.

  (* each step is its runner followed by something that does not depend on the body *)
  Lemma run_closure_ext b1 b2 ps cf v : (forall s, b1 s = b2 s) ->
    forall s, run_closure b1 ps cf v s = run_closure b2 ps cf v s.
  Proof.
    intros H s. assert (H2 := fun p0 p1 a b => run2_ext b1 b2 p0 p1 a b H).
    unfold run_closure.
    destruct cf, v; auto; try (rewrite !(run1_run2 _ _ _ VNull); apply H2);
      f_equal; apply loop_ext, Forall_forall; intros a _ s1;
      autounfold with steps;
      rewrite ?(run1_run2 _ _ _ VNull), H2; reflexivity.
  Qed.

  Theorem eval_ext e : ext_expr e.
  Proof.
    induction e using expr_ind'; intros Ha s; cbn [fnames] in Ha; try reflexivity.
    (* one operand, evaluated first *)
    all: try solve [cbn [eval]; rewrite (IHe Ha s); reflexivity].
    - rewrite !eval_arr, !arr_go_loop, (operands_ext es H Ha). reflexivity.
    - rewrite !eval_obj, !obj_go_loop, (operands_ext (map snd kvs)); [reflexivity|apply Forall_map; exact H|].
      unfold fnames_l. rewrite flat_map_map. exact Ha.
    - exact (blk_ext es H Ha s).
    - (* if *)
      rewrite !eval_if, (blk_ext c H (agree_app_l _ _ Ha) s).
      destruct (blk F2 binop c s) as [[v|er] s']; auto.
      destruct (try_boolean v) as [[|]|]; auto.
      + exact (blk_ext t H0 (agree_app_l _ _ (agree_app_r _ _ Ha)) s').
      + destruct f as [fb|]; auto. exact (blk_ext fb H1 (agree_app_r _ _ (agree_app_r _ _ Ha)) s').
    - (* op *)
      pose proof (IHe1 (agree_app_l _ _ Ha)) as E1. pose proof (IHe2 (agree_app_r _ _ Ha)) as E2.
      destruct o; rewrite ?eval_or, ?eval_and, ?eval_err, ?eval_plain by reflexivity; rewrite E1;
        destruct (eval F2 binop e1 s) as [[v|[ | | | ]] s']; auto; try destruct (falsy v); auto;
        rewrite E2; reflexivity.
    - destruct m as [m|]; [|reflexivity]. cbn [eval]. rewrite (H Ha s). reflexivity.
    - (* call *)
      rewrite !eval_call, !call_go_loop, (operands_ext args H (agree_app_r [f] _ Ha)).
      destruct (loop (eval F2 binop) args s) as [[vs|er] s']; [|reflexivity].
      rewrite (Ha f (or_introl eq_refl)). reflexivity.
    - (* closure *)
      rewrite !eval_closure, (IHe (agree_app_l _ _ Ha) s). destruct (eval F2 binop e s) as [[v|er] s']; auto.
      apply run_closure_ext. exact (blk_ext body H (agree_app_r _ _ Ha)).
  Qed.

  Theorem run_ext es : agree_on (fnames_l es) -> forall s, run F1 binop es s = run F2 binop es s.
  Proof.
    intros Ha s. unfold run. destruct (pop_fault s) as [bad fs]. destruct bad; auto.
    rewrite (eval_ext (EBlock es) Ha). reflexivity.
  Qed.
End Ext.
