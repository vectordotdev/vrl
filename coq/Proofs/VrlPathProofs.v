(* Proofs relating Model/VrlPathLex.v (the VRL source reading of a path) to Model/PathText.v: the VRL reading of the
   text the renderer writes for a path it can spell is that path. *)
From Coq Require Import List NArith ZArith Bool Lia.
From VRL Require Import Base.Value Model.PathText Model.VrlPathLex Proofs.PathTextProofs.
Import ListNotations.
Local Open Scope N_scope.

#[export] Hint Unfold is_ws is_ident_continue is_ident_start is_digit_or_us : cls.

Lemma ser_ident c : ser_char c = true -> is_ident_continue c = true.
Proof. cls. Qed.

(* f fails on the first unit of b, if there is one: where `span f` stops *)
Definition stops (f : N -> bool) (b : text) : Prop := match b with c :: _ => f c = false | [] => True end.

Lemma span_app f a : forall b, forallb f a = true -> stops f b -> span f (a ++ b) = (a, b).
Proof.
  induction a as [|c a IH]; intros b Ha Hb.
  - cbn. destruct b as [|c b]; cbn; auto. rewrite Hb. reflexivity.
  - cbn in Ha. apply andb_true_iff in Ha as [Hc Ha]. cbn. rewrite Hc. rewrite IH; auto.
Qed.

Lemma span_spec f l : forall a b, span f l = (a, b) -> l = a ++ b /\ forallb f a = true /\ stops f b.
Proof.
  induction l as [|c l IH]; cbn [span]; intros a b H.
  - injection H as <- <-. cbn. auto.
  - destruct (f c) eqn:Ec; [|injection H as <- <-; cbn; auto].
    destruct (span f l) as [a' b']. injection H as <- <-.
    destruct (IH a' b' eq_refl) as (-> & Ha & Hb). cbn. rewrite Ec, Ha. auto.
Qed.

Lemma dec_value_digits ds : forall v, forallb is_digit ds = true -> dec_value ds v = acc_pos ds v.
Proof.
  induction ds as [|d ds IH]; intros v H; [reflexivity|].
  apply andb_true_iff in H as [Hd H].
  cbn [dec_value]. assert ((d =? 95) = false) as -> by (clear - Hd; cls). apply IH, H.
Qed.

(* what vindex computes on an optional minus sign, digits and the closing bracket *)
Lemma vindex_digits neg d ds rest :
  forallb is_digit (d :: ds) = true ->
  vindex (sign neg ++ (d :: ds) ++ 93 :: rest) =
    if in_isize (sgn neg (acc_pos (d :: ds) 0)) then Some (sgn neg (acc_pos (d :: ds) 0), rest) else None.
Proof.
  intros Hd. pose proof Hd as [Hd1 _]%andb_true_iff.
  assert (Hsp : span is_digit_or_us ((d :: ds) ++ 93 :: rest) = (d :: ds, 93 :: rest)).
  { apply span_app; [|reflexivity]. revert Hd. apply forallb_impl. unfold is_digit_or_us. intros x ->. reflexivity. }
  assert (is_ws d = false /\ (d =? 45) = false) as [Hws H45] by (split; cls).
  unfold vindex. destruct neg; cbn [sign app skip_ws].
  1: change (is_ws 45) with false; cbn iota; change (45 =? 45) with true; rewrite Hd1.
  2: rewrite Hws, H45.
  all: cbn [andb]; cbn iota; rewrite Hd1; change (d :: ds ++ 93 :: rest) with ((d :: ds) ++ 93 :: rest);
    rewrite Hsp, dec_value_digits by exact Hd; unfold i64_ok; cbn [sgn]; destruct (in_isize _); reflexivity.
Qed.

Lemma vindex_render i rest :
  in_isize i = true -> vindex (render_int i ++ 93 :: rest) = Some (i, rest).
Proof.
  intros Hi. destruct (render_int_spec i) as (d & ds & -> & Hd & Hv).
  rewrite <- app_assoc, vindex_digits, Hv, Hi by exact Hd. reflexivity.
Qed.

Definition brace (c : N) : bool := (c =? 123) || (c =? 125).
Definition no_brace (l : text) : bool := forallb (fun c => negb (brace c)) l.

(* the two characters the renderer escapes are escapes the lexer knows, and stand for themselves *)
Lemma special_escape c : special c = true -> valid_escape c = true /\ esc_char c = Some c.
Proof. intros H. assert (c = 34 \/ c = 92) as [-> | ->] by cls; split; reflexivity. Qed.

Lemma string_lit_escape f : forall raw rest,
  string_lit (escape_field f ++ 34 :: rest) raw = Some (raw ++ escape_field f, rest).
Proof.
  induction f as [|c f IH]; intros raw rest; cbn [escape_field].
  - cbn. rewrite app_nil_r. reflexivity.
  - fold (special c). destruct (special c) eqn:Es; cbn [app string_lit].
    + rewrite (proj1 (special_escape c Es)), IH, <- app_assoc. reflexivity.
    + apply orb_false_iff in Es as [-> ->]. rewrite IH, <- app_assoc. reflexivity.
Qed.

Lemma unescape_escape f : unescape (escape_field f) = Some f.
Proof.
  induction f as [|c f IH]; [reflexivity|]. cbn [escape_field].
  fold (special c). destruct (special c) eqn:Es; cbn [unescape].
  - rewrite (proj2 (special_escape c Es)), IH. reflexivity.
  - apply orb_false_iff in Es as [_ ->]. rewrite IH. reflexivity.
Qed.

(* Template processing only acts on `{{` and on a backslash before `}}`: texts without either are template-free.
   Both scanners of template_syntax look for a pattern at the head of every suffix; `tpl_head` is that pattern. *)
Definition tf (l : text) : Prop := template_syntax l = false.

Definition tpl_head (l : text) : bool :=
  match l with
  | c :: d :: r => (c =? 123) && (d =? 123) || (c =? 92) && (d =? 125) && starts_with 125 r
  | _ => false
  end.

Lemma template_syntax_cons c l : template_syntax (c :: l) = tpl_head (c :: l) || template_syntax l.
Proof.
  unfold template_syntax. destruct l as [|d r]; [reflexivity|].
  change (has_template_open (c :: d :: r)) with ((c =? 123) && (d =? 123) || has_template_open (d :: r)).
  change (has_bsl_close (c :: d :: r)) with ((c =? 92) && (d =? 125) && starts_with 125 r || has_bsl_close (d :: r)).
  cbn [tpl_head].
  destruct ((c =? 123) && (d =? 123)), (has_template_open (d :: r)), ((c =? 92) && (d =? 125) && starts_with 125 r);
    reflexivity.
Qed.

Lemma tf_cons c l : tf (c :: l) -> tpl_head (c :: l) = false /\ tf l.
Proof. unfold tf. rewrite template_syntax_cons. apply orb_false_iff. Qed.

Lemma tf_app_r a b : tf (a ++ b) -> tf b.
Proof. induction a as [|c a IH]; [auto | intros [_ H]%tf_cons; auto]. Qed.

(* a pattern at the head of a text is still there when the text goes on *)
Lemma tpl_head_app a b : tpl_head (a ++ b) = false -> tpl_head a = false.
Proof.
  destruct a as [|c [|d [|e a]]]; try reflexivity; cbn [app tpl_head starts_with]; [|auto].
  rewrite andb_false_r, orb_false_r. intros [H _]%orb_false_iff. exact H.
Qed.

Lemma tf_app_l a b : tf (a ++ b) -> tf a.
Proof.
  induction a as [|c a IH]; [reflexivity|]. intros [Hh Ht]%tf_cons.
  unfold tf. rewrite template_syntax_cons, (tpl_head_app (c :: a) b Hh). apply IH, Ht.
Qed.

(* template processing leaves a template-free literal alone *)
Lemma template_plain_tf raw : forall cur segs,
  tf raw -> template false cur raw segs = push_lit segs (cur ++ raw).
Proof.
  induction raw as [|c r IH]; intros cur segs H.
  - cbn. rewrite app_nil_r. reflexivity.
  - apply tf_cons in H as [Hh Hr].
    enough (Hstep : template false cur (c :: r) segs = template false (cur ++ [c]) r segs)
      by (rewrite Hstep, IH, <- app_assoc by exact Hr; reflexivity).
    destruct r as [|c1 r1]; [reflexivity|]. cbn [template negb andb].
    cbn [tpl_head] in Hh. apply orb_false_iff in Hh as [-> ->].
    (* nor is there an escaped opener: it would put an opener at the head of the rest *)
    replace ((c =? 92) && (c1 =? 123) && starts_with 123 r1) with false; [reflexivity|].
    destruct r1 as [|c2 r2]; [rewrite andb_false_r; reflexivity|].
    apply tf_cons in Hr as [[Ho _]%orb_false_iff _]. cbn [starts_with]. rewrite <- andb_assoc, Ho, andb_false_r. reflexivity.
Qed.

Lemma field_of_raw_plain raw : tf raw -> field_of_raw raw = unescape raw.
Proof.
  intros H. unfold field_of_raw. rewrite template_plain_tf by auto. cbn [app]. unfold push_lit.
  destruct raw as [|c l]; [reflexivity|].
  cbn [app]. destruct (unescape (c :: l)) as [u|]; cbn [tsegs_to_string]; [rewrite app_nil_r|]; reflexivity.
Qed.

(* a text without braces is template-free *)
Lemma no_brace_tf l : no_brace l = true -> tf l.
Proof.
  unfold tf, no_brace. induction l as [|c l IH]; [reflexivity|]. cbn [forallb].
  intros [Hc H]%andb_true_iff. rewrite template_syntax_cons, (IH H), orb_false_r.
  destruct l as [|d l]; [reflexivity|]. cbn [forallb] in H. apply andb_true_iff in H as [Hd _].
  apply negb_true_iff, orb_false_iff in Hc as [Hc _]. apply negb_true_iff, orb_false_iff in Hd as [_ Hd].
  cbn [tpl_head]. rewrite Hc, Hd, andb_false_r. reflexivity.
Qed.

(* escaping only adds backslashes *)
Lemma forallb_escape (P : N -> bool) f : P 92 = true -> forallb P f = true -> forallb P (escape_field f) = true.
Proof.
  intros H92. induction f as [|c f IH]; [reflexivity|]. cbn [escape_field forallb].
  intros [Hc Hf]%andb_true_iff. destruct ((c =? 34) || (c =? 92)); cbn [forallb]; rewrite ?H92, Hc, IH; auto.
Qed.

Lemma field_of_raw_escape f : no_brace f = true -> field_of_raw (escape_field f) = Some f.
Proof.
  intros H. rewrite field_of_raw_plain by (apply no_brace_tf, forallb_escape; auto). apply unescape_escape.
Qed.

(* which fields VRL source can spell the way the renderer writes them *)
Definition spellable_field (f : text) : bool :=
  if needs_quotes f then no_brace f
  else match f with
       | [] => false
       | [c] => negb (c =? 95) && negb (is_digit c)
       | c :: _ => if is_digit c then negb (forallb is_digit_or_us f) else true
       end.

Definition spellable (p : path) : bool :=
  forallb (fun s => match s with SField f => spellable_field f | SIndex _ => true end) p.

Lemma rest_not_ident p : stops is_ident_continue (render_from false p).
Proof. destruct p as [|[f|i] p]; cbn; auto. Qed.

Lemma span_dus_stops f : forall rest,
  forallb is_ident_continue f = true -> forallb is_digit_or_us f = false ->
  exists e tl, snd (span is_digit_or_us (f ++ rest)) = e :: tl /\ is_ident_continue e = true.
Proof.
  induction f as [|c f IH]; intros rest Hic Hd; [discriminate|].
  cbn in Hic, Hd. apply andb_true_iff in Hic as [Hc Hic].
  cbn [app span]. destruct (is_digit_or_us c) eqn:Ec.
  - cbn in Hd. destruct (IH rest Hic Hd) as (e & tl & Hs & He).
    destruct (span is_digit_or_us (f ++ rest)) as [a b]. cbn in *. eauto.
  - cbn. eauto.
Qed.

(* an unquoted field is one identifier token: it begins like an identifier and is not a lone `_`, or it begins with
   a digit and the numeric-looking prefix runs into an identifier unit *)
Lemma vident_plain f rest :
  needs_quotes f = false -> spellable_field f = true -> stops is_ident_continue rest ->
  vident (f ++ rest) = Some (f, rest).
Proof.
  intros Hq Hs Hrest. unfold spellable_field in Hs. rewrite Hq in Hs.
  destruct (needs_quotes_false f Hq) as (c & f' & -> & Hall%(forallb_impl _ _ _ ser_ident)).
  assert (Hspan : span is_ident_continue ((c :: f') ++ rest) = (c :: f', rest)) by (apply span_app; auto).
  pose proof Hall as [Hc _]%andb_true_iff. unfold is_ident_continue in Hc.
  unfold vident. cbn [app]. change (c :: f' ++ rest) with ((c :: f') ++ rest).
  destruct (is_ident_start c) eqn:Eis.
  - rewrite Hspan. destruct f' as [|c2 f'']; [|reflexivity].
    apply andb_true_iff in Hs as [->%negb_true_iff _]. reflexivity.
  - rewrite orb_false_r in Hc. rewrite Hc in Hs |- *.
    assert (Hnd : forallb is_digit_or_us (c :: f') = false).
    { destruct f' as [|c2 f'']; [rewrite andb_false_r in Hs; discriminate | apply negb_true_iff, Hs]. }
    destruct (span_dus_stops (c :: f') rest Hall Hnd) as (e & tl & Hsn & He).
    destruct (span is_digit_or_us ((c :: f') ++ rest)) as [a b]. cbn [snd] in Hsn. subst b.
    rewrite He, Hspan. reflexivity.
Qed.

Lemma vfield_quote z :
  vfield (34 :: z) = match string_lit z [] with
                     | Some (raw, rest) => match field_of_raw raw with Some f => Some (f, rest) | None => None end
                     | None => None
                     end.
Proof. reflexivity. Qed.

Lemma vfield_body f rest :
  spellable_field f = true -> stops is_ident_continue rest -> vfield (field_body f ++ rest) = Some (f, rest).
Proof.
  intros Hs Hrest. unfold field_body. destruct (needs_quotes f) eqn:Hq.
  - unfold spellable_field in Hs. rewrite Hq in Hs.
    cbn [app]. rewrite <- app_assoc. cbn [app]. rewrite vfield_quote, string_lit_escape. cbn [app].
    rewrite field_of_raw_escape by auto. reflexivity.
  - destruct (needs_quotes_false f Hq) as (c & f' & E & [Hc _]%andb_true_iff).
    rewrite <- (vident_plain f rest) by assumption. subst f. cbn [app vfield].
    assert ((c =? 34) = false) as -> by cls. reflexivity.
Qed.

Lemma field_body_first f :
  exists c tl, field_body f = c :: tl /\ is_ws c = false /\ (c =? 91) = false /\ (c =? 46) = false.
Proof.
  unfold field_body. destruct (needs_quotes f) eqn:Hq.
  - exists 34, (escape_field f ++ [34]). repeat split; reflexivity.
  - destruct (needs_quotes_false f Hq) as (c & f' & -> & [Hc _]%andb_true_iff).
    exists c, f'. repeat split; cls.
Qed.

(* one step of the segment loop, by the first unit of the text *)
Lemma vsegs_bracket f first x acc :
  vsegs (S f) first (91 :: x) acc =
    match vindex x with Some (i, rest) => vsegs f false rest (SIndex i :: acc) | None => None end.
Proof. reflexivity. Qed.

Lemma vsegs_dot f x acc :
  vsegs (S f) false (46 :: x) acc =
    match vfield x with Some (k, rest) => vsegs f false rest (SField k :: acc) | None => None end.
Proof. reflexivity. Qed.

Lemma vsegs_field f first c x acc :
  is_ws c = false -> (c =? 91) = false -> (c =? 46) = false ->
  vsegs (S f) first (c :: x) acc =
    match vfield (c :: x) with Some (k, rest) => vsegs f false rest (SField k :: acc) | None => None end.
Proof. intros Hw H91 H46. cbn [vsegs all_ws forallb]. rewrite Hw, H91, H46. reflexivity. Qed.

Lemma vrl_path_prefix pre r :
  vrl_path (prefix_char pre :: r) = option_map (pair pre) (vsegs (S (length r)) true r []).
Proof. destruct pre; reflexivity. Qed.

(* the VRL reading of the rendering of a spellable path, from any point of the segment loop *)
Lemma vsegs_render p : forall fuel b acc,
  spellable p = true -> indices_in_isize p = true ->
  (length (render_from b p) < fuel)%nat ->
  vsegs fuel b (render_from b p) acc = Some (rev acc ++ p).
Proof.
  induction p as [|s p IH]; intros [|fuel] b acc Hsp Hi Hlen; try (cbn in Hlen; lia).
  - cbn. rewrite app_nil_r. reflexivity.
  - cbn in Hsp, Hi. apply andb_true_iff in Hsp as [Hs Hsp]. apply andb_true_iff in Hi as [His Hi].
    assert (Hrec : forall s', (length (render_from false p) < fuel)%nat ->
              vsegs fuel false (render_from false p) (s' :: acc) = Some (rev acc ++ s' :: p)).
    { intros s' Hl. rewrite IH by auto. cbn [rev]. rewrite <- app_assoc. reflexivity. }
    destruct s as [f|i]; cbn [render_from] in *.
    + rewrite serialize_field_body in *.
      destruct (field_body_first f) as (c & tl & Ebody & Hws & H91 & H46).
      assert (Hl : (length (render_from false p) < fuel)%nat)
        by (rewrite !app_length, Ebody in Hlen; cbn [length] in Hlen; lia).
      pose proof (rest_not_ident p) as Hrest.
      destruct b; cbn [app].
      * rewrite Ebody. cbn [app]. rewrite vsegs_field by assumption.
        change (c :: tl ++ render_from false p) with ((c :: tl) ++ render_from false p).
        rewrite <- Ebody, vfield_body by auto. auto.
      * rewrite vsegs_dot, vfield_body by auto. auto.
    + rewrite vsegs_bracket, vindex_render by auto. apply Hrec.
      cbn [length] in Hlen. rewrite app_length in Hlen. cbn [length] in Hlen. lia.
Qed.

Theorem vrl_reads_rendering tp :
  spellable (snd tp) = true -> indices_in_isize (snd tp) = true ->
  vrl_path (render_target tp) = Some tp.
Proof.
  destruct tp as [pre p]. cbn [snd]. intros Hsp Hi.
  change (render_target (pre, p)) with (prefix_char pre :: render_from true p).
  rewrite vrl_path_prefix, vsegs_render by auto. reflexivity.
Qed.

(* the alphabet of the short-text agreement theorem: . % a 0 - @ _ dquote backslash [ ] space e-acute(UTF-8) *)
Definition alphabet : list text :=
  [[46]; [37]; [97]; [48]; [45]; [64]; [95]; [34]; [92]; [91]; [93]; [32]; [195; 169]].
