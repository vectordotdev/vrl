(* C01 / C02 / C12 on the straight-line fragment of Core VRL (Model/TypeFragment.v).  An effect-free
   expression typed in a state the run-time state conforms to evaluates, without error and without touching
   variables, event or metadata, to a well-formed member of its (upgraded) kind, and its type_info leaves the
   type state alone (pure_sound); assigning such a value re-establishes conformance with the type state after
   the assignment (insert_conf); hence the same along a block and for a run of the program (run_sound). *)
From Coq Require Import List ZArith Bool Lia.
From VRL Require Import Base.Bytes Base.Value Model.ValueCrud Model.Kind Model.KindCrud Model.KindDomains Model.Expr
  Model.Eval Model.EvalInst Model.TypeInfo Model.TypeFragment Proofs.KindBasics Proofs.KindGetProofs
  Proofs.KindInsertProofs Proofs.ExprInd Proofs.EvalProofs Proofs.TypeInfoEqs Proofs.TypeConstProofs
  Proofs.TypeSoundBasics.
Import ListNotations.

Lemma same_data_refl s : same_data s s.
Proof. repeat split. Qed.
Lemma same_data_trans a b c : same_data a b -> same_data b c -> same_data a c.
Proof. unfold same_data. intros (A1 & A2 & A3 & A4) (B1 & B2 & B3 & B4). repeat split; congruence. Qed.

Lemma conf_same_data G s s' : same_data s s' -> conf G s -> conf G s'.
Proof. unfold same_data, conf. intros (A1 & A2 & A3 & A4). rewrite A1, A2, A3, A4. auto. Qed.

Lemma consts_same_data G s s' : same_data s s' -> consts_ok G s -> consts_ok G s'.
Proof. intros (Hv & _) H x t c Hx. rewrite Hv. eapply H; eauto. Qed.

Lemma conf_var G s x d : conf G s -> lvar (locals G) x = Some d ->
  exists v, var_get (vars s) x = Some v /\ member v (td_kind (fst d)) = true /\ wf_value v = true.
Proof. intros (H & _) E. eauto. Qed.

Lemma conf_ext G s pfx : conf G s -> member (tval s pfx) (ext_kind G pfx) = true /\ wf_value (tval s pfx) = true.
Proof. intros (_ & H1 & H2 & H3 & H4 & _). destruct pfx; cbn; auto. Qed.

Lemma conf_faults G s : conf G s -> faults s = [].
Proof. intros H. apply H. Qed.

Lemma conf_set G s x d w : conf G s -> member w (td_kind (fst d)) = true -> wf_value w = true ->
  conf (mkTs (lset (locals G) x d) (tgt G) (mdk G)) (set_vars s (var_set (vars s) x w)).
Proof.
  intros (Hv & Hr) Hm Hw. split; [|exact Hr]. intros y d'. cbn [locals set_vars vars]. rewrite lvar_lset, var_get_set.
  destruct (bytes_eqb x y); [|apply Hv]. intros [= <-]. eauto.
Qed.

Lemma conf_set_ext G s pfx k v lg : conf G s -> member v k = true -> wf_value v = true ->
  conf (set_ext_kind G pfx k) (with_target s pfx v lg []).
Proof. intros (Hv & He & Hwe & Hmd & Hwm & Hf) Hm Hw. destruct pfx; repeat split; auto. Qed.

Lemma conf_init ek mk event meta :
  member event ek = true -> wf_value event = true -> member meta mk = true -> wf_value meta = true ->
  conf (ts0 ek mk) (st0 [] event meta).
Proof. intros. unfold conf. cbn. repeat split; auto. discriminate. Qed.

(* no fault is scheduled, so a read of the target succeeds *)
Lemma conf_t_get G s pfx p : conf G s -> exists s', t_get s pfx p = (get (tval s pfx) p, s') /\ same_data s s'.
Proof. intros Hc. unfold t_get, pop_fault, same_data. rewrite (conf_faults G s Hc). cbn. eauto 6. Qed.

Lemma member_upgrade_opt o k : is_never k = false -> member_opt o k = true ->
  member (or_null o) (upgrade_undefined k) = true.
Proof.
  intros Hn H. pose proof (upgrade_sound o k H) as Hu. destruct o as [w|]; cbn [or_null]; auto.
  rewrite Hn, orb_false_r in Hu. destruct (upgrade_undefined k) as [pr a o]. cbn in *. exact Hu.
Qed.

Lemma upgrade_never_no_member v k : is_never k = true -> member v (upgrade_undefined k) = false.
Proof. intros H. unfold upgrade_undefined. rewrite H. apply member_is_never; auto. Qed.

Lemma is_never_upgrade k : is_never (upgrade_undefined k) = is_never k.
Proof.
  unfold upgrade_undefined. destruct (is_never k) eqn:E; auto.
  destruct (contains_undefined k); auto.
  destruct k as [[] a o]. unfold is_never, p_is_none. cbn. rewrite !orb_true_r. reflexivity.
Qed.


(* a boolean-typed value is a boolean: the equation k_is_boolean stands for says that the states of k other
   than boolean count 0, so k has no undefined to upgrade, and a value of any other state would count 1 *)
Lemma member_boolean_is_bool v k : k_is_boolean k = true -> member v (upgrade_undefined k) = true -> exists b, v = VBool b.
Proof.
  unfold k_is_boolean, only. intros Hk Hm. apply Nat.eqb_eq in Hk.
  destruct k as [[pb pi pf pB pt pr pn pu] a o]. cbn in Hk.
  destruct pu; [cbn in Hk; lia|]. rewrite upgrade_defined in Hm by reflexivity.
  destruct v; cbn in Hm; eauto; try (subst; cbn in Hk; lia).
  - destruct o; [cbn in Hk; lia | discriminate].
  - destruct a; [cbn in Hk; lia | discriminate].
Qed.

Lemma query_sound v k p : wf_value v = true -> q_ok k p = true -> member v k = true ->
  member (or_null (get v p)) (upgrade_undefined (at_path k p)) = true /\ wf_value (or_null (get v p)) = true.
Proof.
  intros Hw Hok Hm. unfold q_ok in Hok. apply andb_true_iff in Hok as [Hok Hnn].
  apply negb_true_iff in Hnn. split.
  - apply member_upgrade_opt; auto. apply get_sound; auto.
  - apply wf_or_null. intros w Hg. eapply wf_get; eauto.
Qed.

(* the instantiated operator table: == and != always produce a boolean *)
Lemma binop_inst_cmp o x y : o = OEq \/ o = ONe -> exists b, binop_inst o x y = Some (VBool b).
Proof. intros [->| ->]; eexists; reflexivity. Qed.

(* what is shown of a typing tr in G and an evaluation o from s: the typing gives some r and leaves G as it is;
   the evaluation gives some v and leaves the data of s as they are; v is a well-formed member of r *)
Definition pure_res (G : tstate) (s : state) (tr : tstate * tdef) (o : res * state) : Prop :=
  exists r v s', tr = (G, r) /\ o = (inl v, s') /\ same_data s s' /\ member v (upk r) = true /\ wf_value v = true.

Lemma pure_res_intro G s r v s' : same_data s s' -> member v (upk r) = true -> wf_value v = true ->
  pure_res G s (G, r) (inl v, s').
Proof. intros. exists r, v, s'. auto. Qed.

Section Pure.
  Variable F : fname -> list value -> option value.
  Variable binop : opcode -> value -> value -> option value.
  Variable T : fname -> list tdef -> list tdef -> tdef.
  Hypothesis binop_cmp : forall o x y, o = OEq \/ o = ONe -> exists b, binop o x y = Some (VBool b).
  Notation ev' := (eval F binop).
  Notation ti := (type_info binop T).
  Notation pure_ok := (pure_ok binop T).

  Definition pure_sound_at (e : expr) : Prop :=
    forall G s, pure_ok e G = true -> conf G s -> pure_res G s (ti e G) (ev' e s).

  (* the accumulators of the array loops hold the elements so far, newest first; s0 is where the loops started *)
  Lemma arr_pure es : Forall pure_sound_at es -> forall G s0 s acc accv fal,
    forallb (fun e1 => pure_ok e1 G) es = true -> conf G s -> same_data s0 s ->
    Forall2 (fun v k => member v k = true) (rev accv) (map td_kind (rev acc)) -> wf_value (VArr accv) = true ->
    pure_res G s0 (ti_arr binop T es G acc fal) (arr_go F binop es accv s).
  Proof.
    induction 1 as [|e1 es H1 _ IH]; intros G s0 s acc accv fal Hok Hc Hs0 Hacc Hwf.
    - apply pure_res_intro; [exact Hs0 | apply member_upgrade, member_arr_kind, Hacc |].
      rewrite wf_arr_iff in *. intros v Hv. apply Hwf, in_rev, Hv.
    - cbn [forallb] in Hok. apply andb_true_iff in Hok as [Hok1 Hok].
      destruct (H1 G s Hok1 Hc) as (r0 & v & s1 & Ht & Hev & Hsd & Hm & Hwv).
      cbn [ti_arr arr_go]. rewrite Ht, Hev, (member_not_never v (td_kind (td_upgrade r0)) Hm).
      apply IH; auto.
      + eapply conf_same_data; eauto.
      + eapply same_data_trans; eauto.
      + cbn [rev]. rewrite map_app. apply Forall2_app; [exact Hacc | repeat constructor; exact Hm].
      + cbn. rewrite Hwv. exact Hwf.
  Qed.

  Definition fold_kinds (ks : list (bytes * kind)) : list (bytes * kind) :=
    fold_left (fun m kv => aset bytes_cmp m (fst kv) (snd kv)) ks [].

  (* the same for objects: the map built so far, and the list of kinds that obj_kind will fold into a map *)
  Lemma obj_pure kvs : Forall (fun kv => pure_sound_at (snd kv)) kvs -> forall G s0 s acc accm fal ret,
    forallb (fun kv => pure_ok (snd kv) G) kvs = true -> conf G s -> same_data s0 s ->
    obj_rel accm (fold_kinds (rev acc)) -> wf_value (VObj accm) = true ->
    pure_res G s0 (ti_obj binop T kvs G acc fal ret) (obj_go F binop kvs accm s).
  Proof.
    induction 1 as [|[k e1] kvs H1 _ IH]; intros G s0 s acc accm fal ret Hok Hc Hs0 Hr Hw.
    - apply pure_res_intro; [exact Hs0 | | exact Hw].
      apply member_upgrade, obj_rel_member; [apply wf_obj_iff, Hw | exact Hr].
    - cbn [forallb snd] in Hok, H1. apply andb_true_iff in Hok as [Hok1 Hok].
      destruct (H1 G s Hok1 Hc) as (r0 & v & s1 & Ht & Hev & Hsd & Hm & Hwv).
      cbn [ti_obj obj_go]. rewrite Ht, Hev, (member_not_never v (td_kind (td_upgrade r0)) Hm).
      apply IH; auto.
      + eapply conf_same_data; eauto.
      + eapply same_data_trans; eauto.
      + cbn [rev]. unfold fold_kinds. rewrite fold_left_app. apply obj_rel_set; auto.
      + apply wf_obj_set; auto.
  Qed.

  Theorem pure_sound : forall e, pure_sound_at e.
  Proof.
    induction e using expr_ind'; intros G s Hok Hc; try (cbn in Hok; discriminate).
    - (* literal *)
      apply pure_res_intro; [apply same_data_refl | apply member_upgrade, member_kind_of_value, Hok | exact Hok].
    - (* variable *)
      cbn in Hok. destruct (lvar (locals G) x) as [d|] eqn:E; [|discriminate].
      destruct (conf_var _ _ _ _ Hc E) as (v & Hv & Hm & Hw).
      cbn. rewrite E, Hv. apply pure_res_intro; [apply same_data_refl | apply member_upgrade, Hm | exact Hw].
    - (* external query *)
      destruct (conf_ext G s pfx Hc) as [Hm Hw].
      destruct (conf_t_get G s pfx p Hc) as (s' & Hg & Hsd).
      cbn [eval type_info]. rewrite Hg. apply pure_res_intro; [exact Hsd | apply (query_sound _ _ _ Hw Hok Hm) ..].
    - (* variable query *)
      cbn in Hok. apply andb_true_iff in Hok as [Hx Hok].
      unfold var_td in Hok. destruct (lvar (locals G) x) as [d|] eqn:E; [|discriminate].
      destruct (conf_var _ _ _ _ Hc E) as (v & Hv & Hm & Hw).
      cbn. rewrite E, Hv. apply pure_res_intro; [apply same_data_refl | apply (query_sound _ _ _ Hw Hok Hm) ..].
    - (* query on an expression *)
      cbn in Hok. apply andb_true_iff in Hok as [Hok Hg].
      apply andb_true_iff in Hok as [Hok1 Hnu]. apply negb_true_iff, orb_false_elim in Hnu.
      destruct (IHe G s Hok1 Hc) as (r & v & s1 & Ht & Hev & Hsd & Hm & Hw).
      rewrite Ht in Hg, Hnu. cbn [snd] in Hg, Hnu.
      unfold upk in Hm. rewrite upgrade_defined in Hm by apply Hnu.
      cbn [eval type_info]. rewrite Ht, Hev. apply pure_res_intro; [exact Hsd | apply (query_sound _ _ _ Hw Hg Hm) ..].
    - (* array *)
      rewrite eval_arr, ti_arr_eq. apply arr_pure; auto using same_data_refl. constructor.
    - (* object *)
      rewrite eval_obj, ti_obj_eq. apply obj_pure; auto using same_data_refl. exact (fun _ => I).
    - (* group *) cbn in *. apply IHe; auto.
    - (* == / != *)
      assert (pure_ok e1 G = true /\ pure_ok e2 G = true /\ (o = OEq \/ o = ONe)) as (Hok1 & Hok2 & Ho).
      { destruct o; cbn in Hok; try discriminate; apply andb_true_iff in Hok; tauto. }
      destruct (IHe1 G s Hok1 Hc) as (l & v1 & s1 & Ht1 & Hev1 & Hsd1 & _).
      destruct (IHe2 G s1 Hok2 (conf_same_data _ _ _ Hsd1 Hc)) as (r & v2 & s2 & Ht2 & Hev2 & Hsd2 & _).
      destruct (binop_cmp o v1 v2 Ho) as [b Hb].
      rewrite (eval_plain F binop o e1 e2 s), Hev1, Hev2, Hb by (destruct Ho; subst; reflexivity).
      replace (ti (EOp o e1 e2) G) with (G, td_with_kind (td_union l r) k_boolean)
        by (destruct Ho; subst; cbn [type_info]; rewrite Ht1, Ht2; reflexivity).
      apply pure_res_intro; [exact (same_data_trans _ _ _ Hsd1 Hsd2) | reflexivity ..].
    - (* ! *)
      cbn in Hok. apply andb_true_iff in Hok as [Hok1 Hb].
      destruct (IHe G s Hok1 Hc) as (r & v & s1 & Ht & Hev & Hsd & Hm & Hw).
      rewrite Ht in Hb. destruct (member_boolean_is_bool _ _ Hb Hm) as [b ->].
      cbn [eval type_info]. rewrite Ht, Hev. apply pure_res_intro; [exact Hsd | reflexivity ..].
    - (* exists(.path) *)
      destruct (conf_t_get G s pfx p Hc) as (s' & Hg & Hsd).
      cbn [eval type_info]. rewrite Hg. apply pure_res_intro; [exact Hsd | reflexivity ..].
    - (* exists(var.path) *)
      apply pure_res_intro; [apply same_data_refl | reflexivity ..].
  Qed.
End Pure.

Lemma insert_conf t G s v r c :
  assign_ok t G = true -> conf G s -> member v (upk r) = true -> wf_value v = true ->
  conf (insert_type_def t G r c) (target_insert s t v).
Proof.
  intros Hok Hc Hm Hw. destruct t as [|x [|sg p]|pfx p].
  - exact Hc.
  - (* the whole variable *)
    cbn [insert_type_def target_insert]. apply conf_set; auto.
    unfold upk in Hm. cbn. unfold kinsert. cbn [insert_rec]. rewrite (member_not_never _ _ Hm). exact Hm.
  - (* a path below a known variable *)
    cbn [assign_ok] in Hok. destruct (lvar (locals G) x) as [d|] eqn:El; [|discriminate].
    destruct (conf_var _ _ _ _ Hc El) as (w & Hg & Hmw & Hww).
    cbn [insert_type_def target_insert]. rewrite El, Hg.
    apply conf_set; auto; [apply kinsert_sound | apply wf_insert]; auto.
  - (* event / metadata *)
    cbn [assign_ok] in Hok. destruct (conf_ext G s pfx Hc) as [Hme Hwe].
    cbn [insert_type_def target_insert]. unfold t_insert, pop_fault. rewrite (conf_faults _ _ Hc).
    apply conf_set_ext; [exact Hc | apply kinsert_sound | apply wf_insert]; auto.
Qed.

(* How a statement, a block or a program of the fragment, typed tr in G and run from a conforming s, ends:
   with a well-formed value v of its kind, in a state s' that conforms to the type state after it; the
   constants stay right as well (C12) if no assignment records one below a variable (ck) *)
Definition sound_end (G : tstate) (s : state) (ck : bool) (tr : tstate * tdef) (v : value) (s' : state) : Prop :=
  conf (fst tr) s' /\ member v (upk (snd tr)) = true /\ wf_value v = true
  /\ (ck = true -> consts_ok G s -> consts_ok (fst tr) s').

Lemma sound_end_trans G s c1 G1 r v s1 c2 tr w s' :
  sound_end G s c1 (G1, r) v s1 -> sound_end G1 s1 c2 tr w s' -> sound_end G s (c1 && c2) tr w s'.
Proof.
  intros (_ & _ & _ & K1) (Hc & Hm & Hw & K2). repeat (split; [assumption|]).
  intros Hb. apply andb_true_iff in Hb as [H1 H2]. auto.
Qed.

Section Straight.
  Variable F : fname -> list value -> option value.
  Variable binop : opcode -> value -> value -> option value.
  Variable T : fname -> list tdef -> list tdef -> tdef.
  Hypothesis binop_cmp : forall o x y, o = OEq \/ o = ONe -> exists b, binop o x y = Some (VBool b).
  Notation ev' := (eval F binop).
  Notation ti := (type_info binop T).
  Notation stmt_ok := (stmt_ok binop T).
  Notation stmts_ok := (stmts_ok binop T).

  Lemma stmt_ok_inv e G : stmt_ok e G = true ->
    pure_ok binop T e G = true
    \/ exists t e1, e = EAssign t e1 /\ pure_ok binop T e1 G = true /\ assign_ok t G = true.
  Proof. destruct e; cbn [TypeFragment.stmt_ok]; auto. rewrite andb_true_iff. eauto 6. Qed.

  Lemma stmt_sound e G s : stmt_ok e G = true -> conf G s ->
    exists v s', ev' e s = (inl v, s') /\ sound_end G s (const_stmt_ok binop e G) (ti e G) v s'.
  Proof.
    intros Hok Hc. destruct (stmt_ok_inv e G Hok) as [Hp | (t & e1 & -> & Hp & Ha)];
      destruct (pure_sound F binop T binop_cmp _ G s Hp Hc) as (r & v & s1 & Ht & Hev & Hsd & Hm & Hw);
      pose proof (conf_same_data _ _ _ Hsd Hc) as Hc1.
    - exists v, s1. rewrite Ht. repeat (split; [assumption|]). intros _. apply consts_same_data, Hsd.
    - exists v, (target_insert s1 t v). cbn [eval type_info]. rewrite Ht, Hev.
      split; [reflexivity|]. split; [apply insert_conf; auto|]. repeat (split; [assumption|]).
      intros Hcs Hk. apply insert_consts.
      + eapply consts_same_data; eauto.
      + intros cy Hcy. pose proof (const_sound F binop e1 G s cy Hk Hcy) as E. rewrite Hev in E. congruence.
      + destruct t as [|x [|sg p]|]; auto. cbn in Hcs. destruct (resolve_constant binop e1 G); [discriminate | reflexivity].
  Qed.

  (* the value of a block is that of its last statement *)
  Lemma blk_sound : forall es G s res fal an ret, es <> [] -> stmts_ok es G = true -> conf G s ->
    exists v s', blk F binop es s = (inl v, s')
                 /\ sound_end G s (const_stmts_ok binop T es G) (ti_blk binop T es G res fal an ret) v s'.
  Proof.
    induction es as [|e es IH]; intros G s res fal an ret Hne Hok Hc; [congruence|].
    cbn [TypeFragment.stmts_ok] in Hok. apply andb_true_iff in Hok as [Hs Hr].
    destruct (stmt_sound e G s Hs Hc) as (v & s1 & Hev & H1).
    cbn [ti_blk TypeFragment.const_stmts_ok]. destruct (ti e G) as [G1 r].
    destruct es as [|e2 es].
    - exists v, s1. rewrite andb_true_r. split; [exact Hev | exact H1].
    - rewrite blk_cons, Hev by discriminate.
      edestruct (IH G1 s1 r) as (w & s' & Hb & H2); [discriminate | exact Hr | apply H1 |].
      exists w, s'. split; [exact Hb | exact (sound_end_trans _ _ _ _ _ _ _ _ _ _ _ H1 H2)].
  Qed.

  (* C01 + C02 (and C12) for straight-line programs of the fragment, run from any conforming state: the run
     succeeds, its value is in the kind the compiler computed for the program, the state it leaves conforms
     to the type state of Program::final_type_info, and every constant that type state holds for a variable
     is the value of that variable *)
  Theorem run_sound es G s : es <> [] -> stmts_ok es G = true -> conf G s ->
    exists v s', run F binop es s = (Success v, s')
                 /\ sound_end G s (const_stmts_ok binop T es G) (program_type_info binop T es G) v s'.
  Proof.
    intros Hne Hok Hc. rewrite ti_program_eq.
    destruct (blk_sound es G s (td_of k_null) false false k_never Hne Hok Hc) as (v & s' & Hb & H).
    exists v, s'. split; [|exact H].
    (* no fault is scheduled, so Runtime::resolve runs the block from s itself *)
    pose proof (conf_faults _ _ Hc) as Hf. rewrite run_rooted by (unfold root_ok, pop_fault; rewrite Hf; reflexivity).
    replace (rooted s) with s by (destruct s; cbn in Hf; subst; reflexivity).
    rewrite eval_block, Hb. reflexivity.
  Qed.
End Straight.
