(* Soundness of Kind::remove with respect to `member`, on the domain `remove_ok` (element removal goes
   through remove_shift, which is right only inside shift_ok). *)
From Coq Require Import List ZArith Bool Lia.
From VRL Require Import Base.Bytes Base.Value Model.ValueCrud Model.Kind Model.KindCrud Model.KindDomains
  Proofs.ListFacts Proofs.ValueCrudProofs Proofs.KindBasics Proofs.KindMergeProofs Proofs.KindGetProofs Proofs.KindInsertProofs.
Import ListNotations.

Fixpoint last_field (p : path) : bool :=
  match p with
  | [] => true
  | [SField _] => true
  | [SIndex _] => false
  | _ :: p' => last_field p'
  end.

Lemma last_field_cons s s' p : last_field (s :: s' :: p) = last_field (s' :: p).
Proof. destruct s; reflexivity. Qed.

Lemma or_undefined_k_undefined : or_undefined k_undefined = k_undefined.
Proof. reflexivity. Qed.

(* the value after Value::remove below the root *)
Definition rm_res (v : value) (p : path) (prune : bool) : value :=
  match rm v p prune with Some (_, v') => v' | None => v end.

Lemma rm_res_last_field m f cpt :
  rm_res (VObj m) [SField f] cpt = VObj (match obj_get m f with Some _ => obj_remove m f | None => m end).
Proof. unfold rm_res. cbn [rm]. destruct (obj_get m f); reflexivity. Qed.

Lemma rm_res_last_index vs i idx cpt : arr_index (length vs) i = Some idx ->
  rm_res (VArr vs) [SIndex i] cpt = VArr (match nth_error vs idx with Some _ => list_remove_nth vs idx | None => vs end).
Proof. intros H. unfold rm_res. cbn [rm]. unfold arr_remove. rewrite H. destruct (nth_error vs idx); reflexivity. Qed.

(* below an inner segment, without pruning, the child is replaced by what is left of it *)
Lemma rm_res_inner_field m f p' : p' <> [] -> obj_sorted m = true ->
  rm_res (VObj m) (SField f :: p') false =
  VObj (match obj_get m f with Some cv => obj_set m f (rm_res cv p' false) | None => m end).
Proof.
  intros Hp Hs. unfold rm_res. destruct p' as [|s' p']; [congruence|].
  change (rm (VObj m) (SField f :: s' :: p') false)
    with (match obj_get m f with
          | Some cv => match rm cv (s' :: p') false with
                       | Some (prev, cv'') => Some (prev, VObj (obj_set m f cv''))
                       | None => None
                       end
          | None => None
          end).
  destruct (obj_get m f) as [cv|] eqn:Eg; [|reflexivity].
  destruct (rm cv (s' :: p') false) as [[prev cv'']|]; [reflexivity|]. rewrite (obj_set_same _ Hs _ _ Eg). reflexivity.
Qed.

Lemma rm_res_inner_index vs i idx p' : p' <> [] -> arr_index (length vs) i = Some idx ->
  rm_res (VArr vs) (SIndex i :: p') false =
  VArr (match nth_error vs idx with Some cv => list_set vs idx (rm_res cv p' false) | None => vs end).
Proof.
  intros Hp Hi. unfold rm_res. destruct p' as [|s' p']; [congruence|].
  change (rm (VArr vs) (SIndex i :: s' :: p') false)
    with (match arr_get vs i with
          | Some cv => match rm cv (s' :: p') false with
                       | Some (prev, cv'') => Some (prev, VArr (arr_set vs i cv''))
                       | None => None
                       end
          | None => None
          end).
  unfold arr_get. rewrite Hi. destruct (nth_error vs idx) as [cv|] eqn:En; [|reflexivity].
  destruct (rm cv (s' :: p') false) as [[prev cv'']|].
  - rewrite (arr_set_at vs i idx _ Hi); [reflexivity | apply nth_error_Some; congruence].
  - rewrite (list_set_same _ _ _ En). reflexivity.
Qed.

Lemma nth_error_remove_nth {A} (l : list A) : forall idx n,
  nth_error (list_remove_nth l idx) n = if Nat.ltb n idx then nth_error l n else nth_error l (S n).
Proof.
  induction l as [|x l IH]; intros idx n.
  - cbn [list_remove_nth]. destruct (Nat.ltb n idx); destruct n; reflexivity.
  - destruct idx as [|idx]; cbn [list_remove_nth].
    + reflexivity.
    + destruct n as [|n]; cbn [nth_error]; auto. rewrite IH.
      destruct (Nat.ltb_spec n idx), (Nat.ltb_spec (S n) (S idx)); auto; lia.
Qed.

Lemma length_remove_nth {A} (l : list A) : forall idx, idx < length l -> length (list_remove_nth l idx) = length l - 1.
Proof.
  induction l as [|x l IH]; intros idx Hl; cbn in *; [lia|].
  destruct idx; cbn; [lia|]. rewrite IH by lia. lia.
Qed.

(* a negative index is inside the domain only where the kind fixes the length; there rm_index is what
   get_positive_index computes *)
Lemma rm_index_neg c i r : rm_index c i = Some r -> (i < 0)%Z ->
  contains_any_defined (unknown_kind c) = false /\ all_required c = true /\ get_positive_index c i = r
  /\ r = (if Nat.leb (Z.to_nat (- i)) (known_len c) then Some (known_len c - Z.to_nat (- i)) else None).
Proof.
  unfold rm_index, get_positive_index. destruct (Z.leb_spec 0 i); [lia|].
  destruct (contains_any_defined (unknown_kind c)); [discriminate|].
  destruct (all_required c); [|discriminate]. destruct (all_defined c) eqn:Hdef; [|discriminate]. cbn.
  intros [= <-] _. rewrite (largest_all_defined _ Hdef). unfold known_len. repeat split.
  destruct (max_opt (map fst (known c))) as [l|].
  - destruct (Z.geb_spec (Z.of_nat l) (- i - 1)), (Nat.leb_spec (Z.to_nat (- i)) (S l)); try lia; auto.
    f_equal. lia.
  - destruct (Nat.leb_spec (Z.to_nat (- i)) 0); auto. lia.
Qed.

Lemma rm_index_nonneg c i : (0 <= i)%Z -> rm_index c i = Some (Some (Z.to_nat i)).
Proof. unfold rm_index. intros H. destruct (Z.leb_spec 0 i); [reflexivity | lia]. Qed.

(* it is the position Value::remove computes in any member array *)
Lemma rm_index_value vs c i r : arr_ok vs c = true -> rm_index c i = Some r -> arr_index (length vs) i = r.
Proof.
  intros Hm Hr. destruct (Z.ltb_spec i 0) as [Hi|Hi].
  - destruct (rm_index_neg _ _ _ Hr Hi) as (Hd & Hreq & _ & ->).
    rewrite (arr_index_neg _ i Hi), (exact_length Hm Hreq Hd). reflexivity.
  - rewrite (rm_index_nonneg c i Hi) in Hr. rewrite (arr_index_nonneg _ i Hi). congruence.
Qed.

Lemma at_seg_index_rm k c i idx : arr_of k = Some c -> rm_index c i = Some (Some idx) ->
  at_seg k (SIndex i) = at_index k c idx.
Proof.
  intros Ha Hr. cbn [at_seg]. rewrite Ha. destruct (Z.ltb_spec i 0) as [Hi|Hi].
  - destruct (rm_index_neg _ _ _ Hr Hi) as (Hd & _ & _ & Hidx). rewrite Hd. fold (known_len c).
    destruct (Nat.leb_spec (Z.to_nat (- i)) (known_len c)); [|discriminate].
    inversion Hidx; subst idx. f_equal. lia.
  - rewrite (rm_index_nonneg c i Hi) in Hr. congruence.
Qed.

Lemma at_path_field_unknown k c f p' : is_never k = false -> obj_of k = Some c ->
  aget bytes_eqb (known c) f = None -> at_path k (SField f :: p') = at_path (unknown_kind c) p'.
Proof.
  intros Hn Ho E. rewrite at_path_step by exact Hn. cbn [at_seg]. unfold get_field.
  rewrite Ho, (coll_at_unknown E), or_undefined_unknown_kind. destruct (is_exact k); reflexivity.
Qed.

Lemma at_path_index_unknown k c i idx p' : is_never k = false -> arr_of k = Some c ->
  rm_index c i = Some (Some idx) -> aget Nat.eqb (known c) idx = None ->
  at_path k (SIndex i :: p') = at_path (unknown_kind c) p'.
Proof.
  intros Hn Ha Hr E. rewrite at_path_step, (at_seg_index_rm k c i idx Ha Hr) by exact Hn. unfold at_index.
  rewrite (coll_at_unknown E), or_undefined_unknown_kind. destruct (is_exact k); reflexivity.
Qed.

(* what the options computed at the end of the path say about the kind found there *)
Definition co_fits (co : compact_opt) (e : kind) : Prop :=
  co <> CPanic /\ (co = CAlways -> p_undefined (prims_of e) = false)
  /\ (co = CNever -> contains_any_defined e = false).

Lemma remove_undefined_id k : p_undefined (prims_of k) = false -> remove_undefined k = k.
Proof. destruct k as [[] a o]. cbn. intros ->. reflexivity. Qed.

(* the `unreachable!` of CompactOptions::new: a kind other than never has a defined state or admits undefined *)
Lemma co_new_fits k : is_never k = false -> co_fits (co_new (contains_any_defined k) (contains_undefined k)) k.
Proof.
  intros Hn. unfold contains_undefined. rewrite Hn, orb_false_r.
  destruct (p_undefined (prims_of k)) eqn:Hu, (contains_any_defined k) eqn:Hd; cbn [co_new]; unfold co_fits;
    try (repeat split; congruence).
  exfalso. apply negb_false_iff in Hd. rewrite is_undefined_never, (remove_undefined_id _ Hu), Hn in Hd. discriminate.
Qed.

Lemma remove_inner_nil k cpt : is_never k = false ->
  remove_inner k [] cpt = (k, co_new (contains_any_defined k) (contains_undefined k)).
Proof. intros Hn. cbn. rewrite Hn. reflexivity. Qed.

Lemma remove_inner_nil_fst k cpt : fst (remove_inner k [] cpt) = k.
Proof. cbn. destruct (is_never k) eqn:E; cbn; [symmetry; apply is_never_eq, E | reflexivity]. Qed.

Lemma remove_inner_nil_co k cpt : co_fits (snd (remove_inner k [] cpt)) k.
Proof.
  destruct (is_never k) eqn:Hn; [|rewrite remove_inner_nil by exact Hn; apply co_new_fits, Hn].
  cbn. rewrite Hn. cbn. rewrite (is_never_eq k Hn). repeat split; discriminate.
Qed.

Lemma remove_inner_undefined p cpt : p <> [] -> remove_inner k_undefined p cpt = (k_undefined, CNever).
Proof. destruct p as [|[f|i] p]; [congruence| |]; reflexivity. Qed.

Section CompactLemmas.
  Context {K : Type}.
  Variable rk : coll_ K kind -> K -> coll_ K kind.
  Variable cu : coll_ K kind -> coll_ K kind -> coll_ K kind.

  Lemma compact_never co (c : coll_ K kind) key : co <> CPanic -> snd (compact rk cu co c key false) = CNever.
  Proof. destruct co; cbn; congruence. Qed.

  Lemma compact_CNever (c : coll_ K kind) key cpt : compact rk cu CNever c key cpt = (c, CNever).
  Proof. reflexivity. Qed.

  Lemma compact_not_panic co (c : coll_ K kind) key cpt : co <> CPanic -> snd (compact rk cu co c key cpt) <> CPanic.
  Proof.
    destruct co; cbn; try congruence; intros _; destruct cpt; cbn; try discriminate;
      destruct (coll_is_empty _); discriminate.
  Qed.
End CompactLemmas.

Section Entry.
  Context {K : Type}.
  Variable keqb : K -> K -> bool.
  Variable kcmp : K -> K -> comparison.
  Variable R : kind -> kind * compact_opt.

  (* descend into the known child and write the result back; for a key that is not known, run on the
     temporary `apk` and keep only the options *)
  Definition rm_entry (c : coll_ K kind) (key : K) (apk : kind) : coll_ K kind * compact_opt :=
    match aget keqb (known c) key with
    | Some child => let '(child', co) := R child in (set_known c (aset kcmp (known c) key child'), co)
    | None => (c, snd (R apk))
    end.

  Definition entry_of (c : coll_ K kind) (key : K) (apk : kind) : kind :=
    match aget keqb (known c) key with Some child => child | None => apk end.

  Lemma rm_entry_known c key apk child : aget keqb (known c) key = Some child ->
    rm_entry c key apk = (set_known c (aset kcmp (known c) key (fst (R child))), snd (R child)).
  Proof. unfold rm_entry. intros ->. destruct (R child); reflexivity. Qed.

  Lemma rm_entry_unknown c key apk : aget keqb (known c) key = None -> rm_entry c key apk = (c, snd (R apk)).
  Proof. unfold rm_entry. intros ->. reflexivity. Qed.

  Lemma rm_entry_snd c key apk : snd (rm_entry c key apk) = snd (R (entry_of c key apk)).
  Proof. unfold rm_entry, entry_of. destruct (aget keqb (known c) key); [destruct (R k)|]; reflexivity. Qed.
End Entry.

Lemma rm_ok_nil k : rm_ok k [] = true.
Proof. cbn. destruct (is_never k); reflexivity. Qed.

Lemma rm_ok_undefined p : rm_ok k_undefined p = true.
Proof. destruct p as [|[f|i] p]; reflexivity. Qed.

(* what rm_ok says about the kind the removal descends into: a known child inside the domain, or the
   temporary `undefined` of a key that cannot be there *)
Lemma entry_rm_ok {K} (keqb : K -> K -> bool) (c : coll_ K kind) key apk p' :
  (p' <> [] -> match aget keqb (known c) key with
               | Some child => rm_ok child p'
               | None => negb (contains_any_defined (unknown_kind c))
               end = true) ->
  (aget keqb (known c) key = None -> apk = at_path (unknown_kind c) p') ->
  rm_ok (entry_of keqb c key apk) p' = true.
Proof.
  intros Hok Hapk. destruct p' as [|s' p']; [apply rm_ok_nil|]. specialize (Hok ltac:(discriminate)).
  unfold entry_of. destruct (aget keqb (known c) key); [exact Hok|]. apply negb_true_iff in Hok.
  rewrite (Hapk eq_refl), (unknown_undefined_only _ Hok), at_path_undefined. apply rm_ok_undefined.
Qed.

Section LastEntry.
  Context {K : Type}.
  Variable keqb : K -> K -> bool.
  Variable kcmp : K -> K -> comparison.
  Hypothesis keqb_spec : forall a b, keqb a b = true <-> a = b.
  Hypothesis kcmp_spec : forall a b, kcmp a b = Eq <-> a = b.

  (* at the last segment nothing is rewritten (the child comes back as it went in), and the options
     describe what the collection assigns to the key *)
  Lemma rm_entry_last (c : coll_ K kind) key apk cpt :
    (aget keqb (known c) key = None -> apk = unknown_kind c) ->
    let E := rm_entry keqb kcmp (fun x => remove_inner x [] cpt) c key apk in
    fst E = match aget keqb (known c) key with
            | Some child => set_known c (aset kcmp (known c) key child)
            | None => c
            end
    /\ (forall g, coll_at keqb (fst E) g = coll_at keqb c g)
    /\ co_fits (snd E) (coll_at keqb c key).
  Proof.
    intros Hapk. cbv zeta. destruct (aget keqb (known c) key) as [child|] eqn:Ek.
    - rewrite (rm_entry_known keqb kcmp _ c key apk child Ek), remove_inner_nil_fst. cbn [fst snd].
      split; [reflexivity|]. split.
      + intros g. apply (coll_at_set_same keqb kcmp keqb_spec kcmp_spec), Ek.
      + rewrite (coll_at_known Ek). apply remove_inner_nil_co.
    - rewrite (rm_entry_unknown keqb kcmp _ c key apk Ek), (Hapk eq_refl), (coll_at_unknown Ek). cbn [fst snd].
      split; [reflexivity|]. split; [reflexivity|]. apply remove_inner_nil_co.
  Qed.
End LastEntry.

Lemma remove_inner_field k f p' cpt c : is_never k = false -> obj_of k = Some c ->
  let E := rm_entry bytes_eqb bytes_cmp (fun x => remove_inner x p' cpt) c f (at_path k (SField f :: p')) in
  let X := compact_o (snd E) (fst E) f cpt in
  remove_inner k (SField f :: p') cpt = (Kind (prims_of k) (arr_of k) (Some (fst X)), snd X).
Proof.
  intros Hn Ho E X. cbn [remove_inner]. rewrite Hn, Ho. subst X E. unfold rm_entry.
  destruct (aget bytes_eqb (known c) f) as [child|]; [destruct (remove_inner child p' cpt)|];
    cbv beta iota zeta; cbn [fst snd]; destruct (compact_o _ _ _ _); reflexivity.
Qed.

(* the position an index segment works on, in the branches of remove_inner that work on one: a non-negative
   index, or a negative one into an array whose unknown kind has no defined state *)
Definition index_at (c : acoll) (i : Z) (idx : nat) : Prop :=
  (0 <= i)%Z /\ idx = Z.to_nat i
  \/ (i < 0)%Z /\ contains_any_defined (unknown_kind c) = false /\ get_positive_index c i = Some idx.

Lemma remove_inner_index_at k i p' cpt c idx : is_never k = false -> arr_of k = Some c -> index_at c i idx ->
  let E := rm_entry Nat.eqb Nat.compare (fun x => remove_inner x p' cpt) c idx (at_path k (SIndex i :: p')) in
  let X := compact_a (snd E) (fst E) idx cpt in
  remove_inner k (SIndex i :: p') cpt = (Kind (prims_of k) (Some (fst X)) (obj_of k), snd X).
Proof.
  intros Hn Ha Hi E X. cbn [remove_inner]. rewrite Hn, Ha.
  destruct Hi as [[Hi ->]|(Hi & Hd & Hg)];
    [destruct (Z.ltb_spec i 0); [lia|] | destruct (Z.ltb_spec i 0); [rewrite Hd, Hg | lia]];
    subst X E; unfold rm_entry;
    (destruct (aget Nat.eqb (known c) _) as [child|]; [destruct (remove_inner child p' cpt)|]);
    cbv beta iota zeta; cbn [fst snd]; destruct (compact_a _ _ _ _); reflexivity.
Qed.

Lemma remove_inner_index k i p' cpt c idx : is_never k = false -> arr_of k = Some c ->
  rm_index c i = Some (Some idx) ->
  let E := rm_entry Nat.eqb Nat.compare (fun x => remove_inner x p' cpt) c idx (at_path k (SIndex i :: p')) in
  let X := compact_a (snd E) (fst E) idx cpt in
  remove_inner k (SIndex i :: p') cpt = (Kind (prims_of k) (Some (fst X)) (obj_of k), snd X).
Proof.
  intros Hn Ha Hr. apply (remove_inner_index_at k i p' cpt c idx Hn Ha). destruct (Z.ltb_spec i 0) as [Hi|Hi].
  - right. destruct (rm_index_neg _ _ _ Hr Hi) as (Hd & _ & Hg & _). auto.
  - left. rewrite (rm_index_nonneg c i Hi) in Hr. inversion Hr. auto.
Qed.

Lemma remove_inner_index_out k i p' cpt c : is_never k = false -> arr_of k = Some c ->
  rm_index c i = Some None -> remove_inner k (SIndex i :: p') cpt = (k, CNever).
Proof.
  intros Hn Ha Hr. destruct (Z.ltb_spec i 0) as [Hi|Hi]; [|rewrite (rm_index_nonneg c i Hi) in Hr; discriminate].
  cbn [remove_inner]. rewrite Hn, Ha. destruct (Z.ltb_spec i 0); [|lia].
  destruct (rm_index_neg _ _ _ Hr Hi) as (Hd & _ & Hg & _). rewrite Hd, Hg. reflexivity.
Qed.

Lemma coll_at_remove_known_o (c : ocoll) f g :
  coll_at bytes_eqb (remove_known_o c f) g = if bytes_eqb f g then unknown_kind c else coll_at bytes_eqb c g.
Proof.
  unfold coll_at, remove_known_o. cbn [set_known known unknown_kind unknown].
  rewrite (aget_adel bytes_eqb bytes_eqb_eq). destruct (bytes_eqb f g); reflexivity.
Qed.

Lemma obj_ok_removed m (c1 : ocoll) f : obj_sorted m = true -> obj_ok m c1 = true ->
  obj_ok (obj_remove m f) (remove_known_o c1 f) = true.
Proof.
  intros Hs Hm. apply obj_ok_intro.
  - intros g w Hin. destruct (in_obj_remove_sorted _ _ Hs _ _ Hin) as [Hne Hin'].
    rewrite coll_at_remove_known_o. destruct (bytes_eqb f g) eqn:E; [apply bytes_eqb_eq in E; congruence|].
    eapply obj_ok_elem; eauto.
  - intros g Hg. rewrite coll_at_remove_known_o. destruct (bytes_eqb f g) eqn:E.
    + apply p_undefined_unknown_kind.
    + apply bytes_eqb_neq in E. apply (obj_ok_absent Hm). rewrite <- Hg. symmetry. apply obj_get_remove_other. auto.
Qed.

(* Always removes a field that is there, Never leaves one that is not, Maybe unions both *)
Lemma compact_o_last m (c1 : ocoll) f co cpt :
  obj_sorted m = true -> obj_ok m c1 = true -> co_fits co (coll_at bytes_eqb c1 f) ->
  (co = CMaybe -> ccompat bytes_eqb union_compat (remove_known_o c1 f) c1 = true) ->
  obj_ok (match obj_get m f with Some _ => obj_remove m f | None => m end) (fst (compact_o co c1 f cpt)) = true.
Proof.
  intros Hs Hm (Hp & HA & HN) HM. destruct co; cbn [compact_o compact fst]; try congruence.
  - destruct (obj_get m f) eqn:Eg; [apply obj_ok_removed; auto|].
    pose proof (obj_ok_absent Hm Eg) as Hu. rewrite (HA eq_refl) in Hu. discriminate.
  - apply (obj_ok_cmerge union union_compat union_sound union_undefined); auto.
    destruct (obj_get m f); [left; apply obj_ok_removed; auto | right; auto].
  - destruct (obj_get m f) as [w|] eqn:Eg; auto.
    pose proof (obj_ok_elem Hm (obj_get_in _ _ _ Eg)) as Hw.
    rewrite (not_defined_no_member (HN eq_refl)) in Hw. discriminate.
Qed.

Lemma last_field_sound k c f m cpt : is_never k = false -> obj_of k = Some c ->
  obj_sorted m = true -> obj_ok m c = true -> maybe_ok_o c f = true ->
  let E := rm_entry bytes_eqb bytes_cmp (fun x => remove_inner x [] cpt) c f (at_path k [SField f]) in
  obj_ok (match obj_get m f with Some _ => obj_remove m f | None => m end)
         (fst (compact_o (snd E) (fst E) f cpt)) = true.
Proof.
  intros Hn Ho Hs Hm Hok.
  destruct (rm_entry_last bytes_eqb bytes_cmp bytes_eqb_eq bytes_cmp_eq c f (at_path k [SField f]) cpt)
    as (HE & Hpt & Hco).
  { intros Ek. rewrite (at_path_field_unknown k c f [] Hn Ho Ek). apply at_path_nil. }
  cbv zeta. apply compact_o_last; auto.
  - apply obj_ok_fits, (fits_pointwise bytes_eqb _ _ c); [exact Hpt | apply obj_ok_fits, Hm].
  - rewrite Hpt. exact Hco.
  - intros _. rewrite HE. exact Hok.
Qed.

(* remove_shift, key by key *)
Definition shift_step (idx : nat) (m : list (nat * kind)) : list (nat * kind) :=
  match aget Nat.eqb m (S idx) with
  | Some x => aset Nat.compare (adel Nat.eqb m (S idx)) idx x
  | None => m
  end.

Lemma shift_step_idem idx m : shift_step idx (shift_step idx m) = shift_step idx m.
Proof.
  unfold shift_step. destruct (aget Nat.eqb m (S idx)) as [x|] eqn:E.
  - rewrite aget_aset', aget_adel'.
    destruct (Nat.eqb_spec idx (S idx)); [lia|]. rewrite Nat.eqb_refl. reflexivity.
  - rewrite E. reflexivity.
Qed.

(* the loop of remove_shift always looks at index+1: every round after the first is idle *)
Lemma fold_shift_step idx (l : list nat) : forall m,
  fold_left (fun m _ => shift_step idx m) l m = match l with [] => m | _ :: _ => shift_step idx m end.
Proof.
  induction l as [|a l IH]; intros m; cbn; auto. rewrite IH. destruct l; auto. apply shift_step_idem.
Qed.

Lemma remove_shift_known c idx :
  known (remove_shift c idx) =
  if Nat.leb (min_length c) idx then adel Nat.eqb (known c) idx
  else shift_step idx (adel Nat.eqb (known c) idx).
Proof.
  unfold remove_shift. cbn [set_known known].
  change (fun (m : list (nat * kind)) (_ : nat) =>
            match aget Nat.eqb m (S idx) with
            | Some x => aset Nat.compare (adel Nat.eqb m (S idx)) idx x
            | None => m
            end) with (fun (m : list (nat * kind)) (_ : nat) => shift_step idx m).
  rewrite fold_shift_step. destruct (Nat.leb_spec (min_length c) idx) as [Hl|Hl].
  - replace (min_length c - idx) with 0 by lia. reflexivity.
  - destruct (min_length c - idx) eqn:E; [lia|]. reflexivity.
Qed.

Lemma fold_max_ge r : forall x y, In y (x :: r) -> y <= fold_left Nat.max r x.
Proof.
  intros x y Hin. destruct (fold_max_spec r x) as (_ & H1 & H2). destruct Hin as [->|Hin]; auto.
Qed.

(* an index whose known kind has a defined state lies below min_length *)
Lemma defined_below_min_length c j kk : In (j, kk) (known c) -> contains_any_defined kk = true -> j < min_length c.
Proof.
  intros Hin Hd. apply (max_opt_lt (map fst (filter (fun kv => contains_any_defined (snd kv)) (known c)))).
  apply in_map_iff. exists (j, kk). split; auto. apply filter_In. auto.
Qed.

Lemma shift_ok_spec c idx j : shift_ok c idx = true -> S idx < j -> aget Nat.eqb (known c) j = None.
Proof.
  unfold shift_ok. rewrite forallb_forall. intros H Hj.
  destruct (aget Nat.eqb (known c) j) as [kk|] eqn:E; auto.
  specialize (H (j, kk) (aget_in Nat.eqb Nat.eqb_eq E)). cbn in H. apply Nat.leb_le in H. lia.
Qed.

(* what the shifted collection assigns to each index, inside shift_ok: the entry at idx+1 moves down when
   min_length reaches beyond idx, and nothing is known behind it *)
Lemma coll_at_remove_shift c idx n : shift_ok c idx = true ->
  let moved := negb (Nat.leb (min_length c) idx) && ahas Nat.eqb (known c) (S idx) in
  coll_at Nat.eqb (remove_shift c idx) n =
  if Nat.ltb n idx then coll_at Nat.eqb c n
  else if Nat.eqb n idx then (if moved then coll_at Nat.eqb c (S idx) else unknown_kind c)
  else if Nat.eqb n (S idx) then (if moved then unknown_kind c else coll_at Nat.eqb c (S idx))
  else unknown_kind c.
Proof.
  intros Hs. cbv zeta. unfold coll_at at 1, ahas. rewrite remove_shift_known.
  change (unknown_kind (remove_shift c idx)) with (unknown_kind c).
  assert (forall j, S idx < j -> aget Nat.eqb (known c) j = None) as Hbeyond by (intros j; apply shift_ok_spec, Hs).
  destruct (Nat.leb (min_length c) idx); cbn [negb andb]; [|unfold shift_step; rewrite aget_adel'];
    [|destruct (Nat.eqb_spec idx (S idx)); [lia|];
      destruct (aget Nat.eqb (known c) (S idx)) as [x|] eqn:E1; cbn [is_some]; [rewrite aget_aset'|]];
    rewrite ?aget_adel'; unfold coll_at; rewrite ?E1;
    destruct (Nat.ltb_spec n idx), (Nat.eqb_spec n idx), (Nat.eqb_spec n (S idx)),
      (Nat.eqb_spec idx n), (Nat.eqb_spec (S idx) n); try lia; subst; rewrite ?E1; try reflexivity;
    rewrite Hbeyond by lia; reflexivity.
Qed.

(* the removed-and-shifted collection types the array with element idx taken out *)
Lemma arr_ok_shifted vs c idx : arr_ok vs c = true -> shift_ok c idx = true -> idx < length vs ->
  arr_ok (list_remove_nth vs idx) (remove_shift c idx) = true.
Proof.
  intros Hm Hs Hidx. pose proof (fun n => coll_at_remove_shift c idx n Hs) as Hat. cbv zeta in Hat.
  set (moved := negb (Nat.leb (min_length c) idx) && ahas Nat.eqb (known c) (S idx)) in *.
  (* an element at S idx makes a kind known there defined, which puts S idx below min_length and forces the
     move; so where nothing moved, S idx is assigned the unknown kind *)
  assert (forall y, nth_error vs (S idx) = Some y -> moved = false ->
                    coll_at Nat.eqb c (S idx) = unknown_kind c) as Hstay.
  { intros y Hy Emv. unfold coll_at. destruct (aget Nat.eqb (known c) (S idx)) as [x|] eqn:E1; [exfalso | reflexivity].
    pose proof (arr_ok_elem Hm Hy) as Hyx. rewrite (coll_at_known E1) in Hyx.
    pose proof (defined_below_min_length c (S idx) x (aget_in Nat.eqb Nat.eqb_eq E1) (member_defined _ _ Hyx)).
    unfold moved, ahas in Emv. rewrite E1 in Emv. destruct (Nat.leb_spec (min_length c) idx); [lia | discriminate]. }
  apply arr_ok_intro.
  - intros n y Hn. rewrite nth_error_remove_nth in Hn. rewrite Hat.
    destruct (Nat.ltb_spec n idx) as [Hlt|Hge]; [apply (arr_ok_elem Hm Hn)|].
    pose proof (arr_ok_elem Hm Hn) as Hy.
    destruct (Nat.eqb_spec n idx) as [->|Hne].
    + destruct moved eqn:Emv; auto. rewrite <- (Hstay y Hn eq_refl). exact Hy.
    + rewrite (coll_at_unknown (shift_ok_spec c idx (S n) Hs ltac:(lia))) in Hy.
      destruct (Nat.eqb_spec n (S idx)) as [->|Hne2]; auto.
      destruct moved eqn:Emv; auto.
      (* not moved: whatever sits at S idx is typed by the unknown kind, like everything behind it *)
      assert (S idx < length vs) as Hl by (assert (S (S idx) < length vs) by (apply nth_error_Some; congruence); lia).
      destruct (nth_error vs (S idx)) as [z|] eqn:Ez; [|apply nth_error_None in Ez; lia].
      rewrite (Hstay z eq_refl eq_refl). exact Hy.
  - intros n Hl. rewrite length_remove_nth in Hl by auto. rewrite Hat.
    destruct (Nat.ltb_spec n idx) as [Hlt|Hge]; [lia|].
    destruct (Nat.eqb_spec n idx) as [->|Hne].
    + destruct moved; [|apply p_undefined_unknown_kind]. apply (arr_ok_absent Hm). lia.
    + destruct (Nat.eqb_spec n (S idx)) as [->|Hne2]; [|apply p_undefined_unknown_kind].
      destruct moved eqn:Emv; [apply p_undefined_unknown_kind|].
      destruct (nth_error vs (S idx)) as [z|] eqn:Ez.
      * rewrite (Hstay z eq_refl eq_refl). apply p_undefined_unknown_kind.
      * apply (arr_ok_absent Hm). apply nth_error_None, Ez.
Qed.

Lemma forallb_aset (P : nat * kind -> bool) (m : list (nat * kind)) k x :
  forallb P m = true -> P (k, x) = true -> forallb P (aset Nat.compare m k x) = true.
Proof.
  intros Hm Hx. induction m as [|[k' y] m IH]; cbn in *.
  - rewrite Hx. reflexivity.
  - apply andb_true_iff in Hm. destruct Hm as [Hy Hm]. destruct (Nat.compare k' k); cbn.
    + rewrite Hx, Hm. reflexivity.
    + rewrite Hy, IH; auto.
    + rewrite Hx, Hy, Hm. reflexivity.
Qed.

Lemma shift_ok_set c idx x : shift_ok c idx = true ->
  shift_ok (set_known c (aset Nat.compare (known c) idx x)) idx = true.
Proof.
  unfold shift_ok. cbn [set_known known]. intros H. apply forallb_aset; auto. cbn. apply Nat.leb_le. lia.
Qed.

Lemma compact_a_last vs (c1 : acoll) idx co cpt :
  arr_ok vs c1 = true -> shift_ok c1 idx = true -> co_fits co (coll_at Nat.eqb c1 idx) ->
  (co = CMaybe -> ccompat Nat.eqb union_compat (remove_shift c1 idx) c1 = true) ->
  arr_ok (match nth_error vs idx with Some _ => list_remove_nth vs idx | None => vs end)
         (fst (compact_a co c1 idx cpt)) = true.
Proof.
  intros Hm Hs (Hp & HA & HN) HM.
  assert (forall x, nth_error vs idx = Some x -> arr_ok (list_remove_nth vs idx) (remove_shift c1 idx) = true) as Hsh.
  { intros x Eg. apply arr_ok_shifted; auto. apply nth_error_Some. congruence. }
  destruct co; cbn [compact_a compact fst]; try congruence.
  - destruct (nth_error vs idx) eqn:Eg; [eauto|].
    pose proof (arr_ok_absent (i := idx) Hm) as Hu. rewrite (HA eq_refl) in Hu.
    apply nth_error_None in Eg. specialize (Hu Eg). discriminate.
  - apply (arr_ok_cmerge union union_compat union_sound union_undefined); auto.
    destruct (nth_error vs idx) eqn:Eg; [left; eauto | right; auto].
  - destruct (nth_error vs idx) as [w|] eqn:Eg; auto.
    pose proof (arr_ok_elem Hm Eg) as Hw.
    rewrite (not_defined_no_member (HN eq_refl)) in Hw. discriminate.
Qed.

Lemma last_index_sound k c i idx vs cpt : is_never k = false -> arr_of k = Some c ->
  rm_index c i = Some (Some idx) -> arr_ok vs c = true -> shift_ok c idx && maybe_ok_a c idx = true ->
  let E := rm_entry Nat.eqb Nat.compare (fun x => remove_inner x [] cpt) c idx (at_path k [SIndex i]) in
  arr_ok (match nth_error vs idx with Some _ => list_remove_nth vs idx | None => vs end)
         (fst (compact_a (snd E) (fst E) idx cpt)) = true.
Proof.
  intros Hn Ha Hr Hm Hok. apply andb_true_iff in Hok. destruct Hok as [Hsh Hmb].
  destruct (rm_entry_last Nat.eqb Nat.compare Nat.eqb_eq Nat.compare_eq_iff c idx (at_path k [SIndex i]) cpt)
    as (HE & Hpt & Hco).
  { intros Ek. rewrite (at_path_index_unknown k c i idx [] Hn Ha Hr Ek). apply at_path_nil. }
  cbv zeta. apply compact_a_last; auto.
  - apply arr_ok_fits, (fits_pointwise Nat.eqb _ _ c); [exact Hpt | apply arr_ok_fits, Hm].
  - rewrite HE. destruct (aget Nat.eqb (known c) idx); [apply shift_ok_set|]; exact Hsh.
  - rewrite Hpt. exact Hco.
  - intros _. rewrite HE. exact Hmb.
Qed.

(* members that are not the container are untouched by a change of that container *)
Lemma member_other_obj v k c' : (forall m, v <> VObj m) -> member v k = true ->
  member v (Kind (prims_of k) (arr_of k) (Some c')) = true.
Proof. destruct k as [p a o]. destruct v; cbn; auto. intros H. exfalso. eapply H; eauto. Qed.

Lemma member_other_arr v k c' : (forall vs, v <> VArr vs) -> member v k = true ->
  member v (Kind (prims_of k) (Some c') (obj_of k)) = true.
Proof. destruct k as [p a o]. destruct v; cbn; auto. intros H. exfalso. eapply H; eauto. Qed.

Lemma arr_ok_list_set vs (c : acoll) idx w' x' : arr_ok vs c = true -> idx < length vs -> member w' x' = true ->
  arr_ok (list_set vs idx w') (set_known c (aset Nat.compare (known c) idx x')) = true.
Proof.
  intros Hm Hl Hw. apply arr_ok_fits, (fits_set Nat.eqb Nat.compare Nat.eqb_eq Nat.compare_eq_iff);
    unfold arr_has, arr_lacks.
  - intros n y Hne Hn. rewrite nth_error_list_set_other in Hn by auto. apply (arr_ok_elem Hm Hn).
  - intros n _ Hn. rewrite length_list_set in Hn. apply (arr_ok_absent Hm Hn).
  - intros y Hn. rewrite nth_error_list_set_same in Hn by exact Hl. congruence.
  - rewrite length_list_set. lia.
Qed.

(* What the induction establishes for remove_inner inside rm_ok: the `unreachable!` of CompactOptions::new
   (CPanic, the only panic the model has) is not reached; nothing is left to compact
   above an inner segment when compaction is off; the primitive states stay; and a member with the path
   removed is a member of the result, when compaction is off or the path is a single segment. *)
Definition rm_spec (k : kind) (p : path) (cpt : bool) : Prop :=
  snd (remove_inner k p cpt) <> CPanic
  /\ (cpt = false -> p <> [] -> snd (remove_inner k p cpt) = CNever)
  /\ prims_of (fst (remove_inner k p cpt)) = prims_of k
  /\ (forall v, wf_value v = true -> cpt = false \/ length p <= 1 -> member v k = true ->
        member (rm_res v p cpt) (fst (remove_inner k p cpt)) = true).

Lemma inner_field_sound (c : ocoll) f m p' apk : p' <> [] ->
  wf_value (VObj m) = true -> obj_ok m c = true -> rm_spec (entry_of bytes_eqb c f apk) p' false ->
  (aget bytes_eqb (known c) f = None -> contains_any_defined (unknown_kind c) = false) ->
  let E := rm_entry bytes_eqb bytes_cmp (fun x => remove_inner x p' false) c f apk in
  obj_ok (match obj_get m f with Some cv => obj_set m f (rm_res cv p' false) | None => m end)
         (fst (compact_o (snd E) (fst E) f false)) = true.
Proof.
  intros Hp' Hwf Hm (_ & Hnv & Hpr & Hsd) Hd E. destruct (proj1 (wf_obj_iff _) Hwf) as [Hs Hwfc].
  assert (snd E = CNever) as -> by (unfold E; rewrite rm_entry_snd; auto).
  unfold compact_o. rewrite compact_CNever. cbn [fst]. unfold E, entry_of in *. clear E.
  destruct (aget bytes_eqb (known c) f) as [child|] eqn:Ek.
  - rewrite (rm_entry_known bytes_eqb bytes_cmp _ c f apk child Ek). cbn [fst].
    pose proof (coll_at_known Ek) as Hcc.
    destruct (obj_get m f) as [cv|] eqn:Eg.
    + apply obj_get_in in Eg. apply obj_ok_set; auto.
      * intros g w _. apply (obj_ok_elem Hm).
      * intros g _. apply (obj_ok_absent Hm).
      * apply Hsd; [apply (Hwfc _ _ Eg) | left; reflexivity|]. rewrite <- Hcc. apply (obj_ok_elem Hm Eg).
    + apply obj_ok_fits, (fits_set bytes_eqb bytes_cmp bytes_eqb_eq bytes_cmp_eq); unfold obj_has, obj_lacks.
      * intros g w _. apply (obj_ok_elem Hm).
      * intros g _. apply (obj_ok_absent Hm).
      * intros w Hin. rewrite (sorted_in_get _ Hs _ _ Hin) in Eg. discriminate.
      * intros _. rewrite Hpr, <- Hcc. apply (obj_ok_absent Hm Eg).
  - rewrite (rm_entry_unknown bytes_eqb bytes_cmp _ c f apk Ek). cbn [fst].
    destruct (obj_get m f) as [cv|] eqn:Eg; [exfalso | exact Hm].
    pose proof (obj_ok_elem Hm (obj_get_in _ _ _ Eg)) as Hcv.
    rewrite (coll_at_unknown Ek), (not_defined_no_member (Hd eq_refl)) in Hcv. discriminate.
Qed.

Lemma inner_index_sound (c : acoll) idx vs p' apk : p' <> [] ->
  wf_value (VArr vs) = true -> arr_ok vs c = true -> rm_spec (entry_of Nat.eqb c idx apk) p' false ->
  (aget Nat.eqb (known c) idx = None -> contains_any_defined (unknown_kind c) = false) ->
  let E := rm_entry Nat.eqb Nat.compare (fun x => remove_inner x p' false) c idx apk in
  arr_ok (match nth_error vs idx with Some cv => list_set vs idx (rm_res cv p' false) | None => vs end)
         (fst (compact_a (snd E) (fst E) idx false)) = true.
Proof.
  intros Hp' Hwf Hm (_ & Hnv & Hpr & Hsd) Hd E.
  assert (snd E = CNever) as -> by (unfold E; rewrite rm_entry_snd; auto).
  unfold compact_a. rewrite compact_CNever. cbn [fst]. unfold E, entry_of in *. clear E.
  destruct (aget Nat.eqb (known c) idx) as [child|] eqn:Ek.
  - rewrite (rm_entry_known Nat.eqb Nat.compare _ c idx apk child Ek). cbn [fst].
    pose proof (coll_at_known Ek) as Hcc.
    destruct (nth_error vs idx) as [cv|] eqn:En.
    + apply arr_ok_list_set; auto; [apply nth_error_Some; congruence|].
      apply Hsd; [apply (wf_arr Hwf En) | left; reflexivity|]. rewrite <- Hcc. apply (arr_ok_elem Hm En).
    + apply nth_error_None in En.
      apply arr_ok_fits, (fits_set Nat.eqb Nat.compare Nat.eqb_eq Nat.compare_eq_iff); unfold arr_has, arr_lacks.
      * intros n y _. apply (arr_ok_elem Hm).
      * intros n _. apply (arr_ok_absent Hm).
      * intros y Hy. apply nth_error_None in En. congruence.
      * intros _. rewrite Hpr, <- Hcc. apply (arr_ok_absent Hm En).
  - rewrite (rm_entry_unknown Nat.eqb Nat.compare _ c idx apk Ek). cbn [fst].
    destruct (nth_error vs idx) as [cv|] eqn:En; [exfalso | exact Hm].
    pose proof (arr_ok_elem Hm En) as Hcv.
    rewrite (coll_at_unknown Ek), (not_defined_no_member (Hd eq_refl)) in Hcv. discriminate.
Qed.

(* a removal that finds nothing to do, in the kind and in every member *)
Lemma rm_spec_idle k p cpt : remove_inner k p cpt = (k, CNever) ->
  (forall v, member v k = true -> rm v p cpt = None) -> rm_spec k p cpt.
Proof.
  unfold rm_spec. intros -> Hv. cbn [fst snd]. repeat split; try discriminate.
  intros v _ _ Hm. unfold rm_res. rewrite (Hv v Hm). exact Hm.
Qed.

Lemma remove_inner_spec : forall p k cpt, rm_ok k p = true -> rm_spec k p cpt.
Proof.
  unfold rm_spec.
  induction p as [|s p' IH]; intros k cpt Hok.
  - rewrite remove_inner_nil_fst. destruct (remove_inner_nil_co k cpt) as [Hp _]. repeat split; auto; congruence.
  - destruct (is_never k) eqn:Hn.
    { rewrite (is_never_eq k Hn). apply (rm_spec_idle k_never); [reflexivity|]. intros v Hm. rewrite member_never in Hm. discriminate. }
    cbn [rm_ok] in Hok. rewrite Hn in Hok. destruct s as [f|i].
    + destruct (obj_of k) as [c|] eqn:Ho.
      2:{ apply rm_spec_idle; [cbn [remove_inner]; rewrite Hn, Ho; reflexivity|].
          intros v Hm. destruct v; try reflexivity. rewrite member_obj, Ho in Hm. discriminate. }
      set (apk := at_path k (SField f :: p')).
      assert (rm_ok (entry_of bytes_eqb c f apk) p' = true) as He.
      { apply entry_rm_ok; [destruct p'; [congruence | intros _; exact Hok]|].
        apply (at_path_field_unknown k c f p' Hn Ho). }
      destruct (IH _ cpt He) as (Hp & _).
      rewrite (remove_inner_field k f p' cpt c Hn Ho). cbv zeta. cbn [fst snd]. fold apk.
      set (E := rm_entry bytes_eqb bytes_cmp (fun x => remove_inner x p' cpt) c f apk).
      assert (snd E <> CPanic) as HpE by (unfold E; rewrite rm_entry_snd; exact Hp).
      split; [apply compact_not_panic, HpE|]. split; [intros -> _; apply compact_never, HpE|].
      split; [reflexivity|]. intros v Hwf Hc Hm.
      destruct v as [ | | | | | | m | | ];
        try (apply member_other_obj; [discriminate | exact Hm]).
      rewrite member_obj, Ho in Hm. destruct (proj1 (wf_obj_iff _) Hwf) as [Hs Hwfc].
      destruct p' as [|s' p''].
      * rewrite rm_res_last_field, member_obj. cbn [obj_of]. apply last_field_sound; auto.
      * assert (cpt = false) as -> by (destruct Hc as [Hc|Hc]; [auto | cbn in Hc; lia]).
        rewrite rm_res_inner_field, member_obj by (auto; discriminate). cbn [obj_of].
        apply inner_field_sound; auto; [discriminate | apply IH, He|].
        intros Ek. rewrite Ek in Hok. apply negb_true_iff, Hok.
    + destruct (arr_of k) as [c|] eqn:Ha.
      2:{ apply rm_spec_idle; [cbn [remove_inner]; rewrite Hn, Ha; reflexivity|].
          intros v Hm. destruct v; try reflexivity. rewrite member_arr, Ha in Hm. discriminate. }
      destruct (rm_index c i) as [[idx|]|] eqn:Hr; [| |discriminate].
      2:{ apply rm_spec_idle; [apply (remove_inner_index_out k i p' cpt c Hn Ha Hr)|].
          intros v Hm. destruct v as [ | | | | | | | vs | ]; try reflexivity. rewrite member_arr, Ha in Hm.
          pose proof (rm_index_value _ _ _ _ Hm Hr) as Hai.
          destruct p'; cbn [rm]; unfold arr_remove, arr_get; rewrite Hai; reflexivity. }
      set (apk := at_path k (SIndex i :: p')).
      assert (rm_ok (entry_of Nat.eqb c idx apk) p' = true) as He.
      { apply entry_rm_ok; [destruct p'; [congruence | intros _; exact Hok]|].
        apply (at_path_index_unknown k c i idx p' Hn Ha Hr). }
      destruct (IH _ cpt He) as (Hp & _).
      rewrite (remove_inner_index k i p' cpt c idx Hn Ha Hr). cbv zeta. cbn [fst snd]. fold apk.
      set (E := rm_entry Nat.eqb Nat.compare (fun x => remove_inner x p' cpt) c idx apk).
      assert (snd E <> CPanic) as HpE by (unfold E; rewrite rm_entry_snd; exact Hp).
      split; [apply compact_not_panic, HpE|]. split; [intros -> _; apply compact_never, HpE|].
      split; [reflexivity|]. intros v Hwf Hc Hm.
      destruct v as [ | | | | | | | vs | ];
        try (apply member_other_arr; [discriminate | exact Hm]).
      rewrite member_arr, Ha in Hm. pose proof (rm_index_value _ _ _ _ Hm Hr) as Hai.
      destruct p' as [|s' p''].
      * rewrite (rm_res_last_index vs i idx cpt Hai), member_arr. cbn [arr_of]. apply last_index_sound; auto.
      * assert (cpt = false) as -> by (destruct Hc as [Hc|Hc]; [auto | cbn in Hc; lia]).
        rewrite (rm_res_inner_index vs i idx), member_arr by (try discriminate; exact Hai). cbn [arr_of].
        apply inner_index_sound; auto; [discriminate | apply IH, He|].
        intros Ek. rewrite Ek in Hok. apply negb_true_iff, Hok.
Qed.

Theorem remove_sound v k p cpt :
  wf_value v = true -> remove_ok k p cpt = true -> member v k = true ->
  snd (kremove k p cpt) = false /\ member (snd (remove v p cpt)) (fst (fst (kremove k p cpt))) = true.
Proof.
  intros Hwf Hok Hm. unfold remove_ok in Hok. apply andb_true_iff in Hok. destruct Hok as [Hc Hok].
  destruct p as [|s p].
  - (* the root *)
    split; [reflexivity|]. cbn [kremove remove fst snd].
    pose proof (member_not_never _ _ Hm) as Hn.
    unfold contains_object, contains_array, contains_primitive. rewrite Hn, !orb_false_r.
    destruct k as [pr a o]. destruct v; cbn in Hm |- *;
      try (destruct pr; unfold p_is_none; cbn in *; rewrite Hm; rewrite ?orb_true_r; cbn; reflexivity).
    + destruct o; [reflexivity | discriminate].
    + destruct a; [reflexivity | discriminate].
  - destruct (remove_inner_spec (s :: p) k cpt Hok) as (Hp & _ & _ & Hs).
    assert (cpt = false \/ length (s :: p) <= 1) as Hc'.
    { apply orb_true_iff in Hc. destruct Hc as [Hc|Hc]; [left; apply negb_true_iff; auto | right; apply Nat.leb_le; auto]. }
    specialize (Hs v Hwf Hc' Hm). unfold kremove, remove, rm_res in *.
    destruct (remove_inner k (s :: p) cpt) as [k' co]. cbn [fst snd] in *. split.
    + destruct co; congruence.
    + destruct (rm v (s :: p) cpt) as [[prev v']|]; exact Hs.
Qed.

(* a last segment that works on one key does not reach the `unreachable!` of CompactOptions::new: the child's
   options are computed there from a kind that is not never (co_new_fits) *)
Lemma last_step_no_panic {K} (keqb : K -> K -> bool) kcmp rk cu (c : coll_ K kind) key apk cpt :
  let E := rm_entry keqb kcmp (fun x => remove_inner x [] cpt) c key apk in
  snd (compact rk cu (snd E) (fst E) key cpt) <> CPanic.
Proof. cbv zeta. apply compact_not_panic. rewrite rm_entry_snd. apply remove_inner_nil_co. Qed.

Lemma remove_inner_single_no_panic k s cpt : snd (remove_inner k [s] cpt) <> CPanic.
Proof.
  destruct (is_never k) eqn:Hn; [cbn [remove_inner]; rewrite Hn; destruct s; discriminate|].
  destruct s as [f|i].
  { destruct (obj_of k) as [c|] eqn:Ho; [|cbn [remove_inner]; rewrite Hn, Ho; discriminate].
    rewrite (remove_inner_field k f [] cpt c Hn Ho). apply last_step_no_panic. }
  destruct (arr_of k) as [c|] eqn:Ha; [|cbn [remove_inner]; rewrite Hn, Ha; discriminate].
  assert (forall idx, index_at c i idx -> snd (remove_inner k [SIndex i] cpt) <> CPanic) as Hpos.
  { intros idx Hi. rewrite (remove_inner_index_at k i [] cpt c idx Hn Ha Hi). apply last_step_no_panic. }
  destruct (Z.ltb_spec i 0) as [Hi|Hi]; [|apply (Hpos _ (or_introl (conj Hi eq_refl)))].
  destruct (contains_any_defined (unknown_kind c)) eqn:Hd.
  2:{ destruct (get_positive_index c i) as [idx|] eqn:Hg; [apply (Hpos idx); right; auto|].
      cbn [remove_inner]. rewrite Hn, Ha, Hd, Hg. destruct (Z.ltb_spec i 0); [discriminate | lia]. }
  (* unknown length: a fold over the candidate positions, none of which panics *)
  cbn [remove_inner]. rewrite Hn, Ha, Hd. destruct (Z.ltb_spec i 0); [|lia].
  destruct (largest_known_index c) as [l|]; [|cbn; destruct (Nat.leb _ _); discriminate].
  match goal with |- context [fold_left ?F ?s ?a] => assert (snd (fold_left F s a) = false) as Hf end.
  { apply fold_left_inv with (P := fun acc => snd acc = false); [reflexivity|]. intros acc j Hacc.
    destruct (aget Nat.eqb (known c) j) as [child|]; [|cbn; rewrite Hacc; reflexivity].
    destruct (remove_inner_nil_co child cpt) as [Hco _]. cbn [remove_inner] in Hco.
    destruct (if is_never child then _ else _) as [child' co]. cbn [snd] in Hco.
    destruct (compact_a co _ j cpt). cbn. rewrite Hacc. destruct co; try reflexivity. congruence. }
  destruct (fold_left _ _ _) as [c' pk]. cbn [snd] in Hf. subst pk. cbn. destruct (Nat.leb _ _); discriminate.
Qed.
