(* C24 — proofs about Model/Csv.v: parse_csv (encode_csv fields) = fields. *)
From Coq Require Import List NArith Bool.
From VRL Require Import Model.Csv.
Import ListNotations.
Local Open Scope N_scope.

Lemma special_false d b :
  special d b = false -> (b =? d) = false /\ (b =? b_q) = false /\ is_term b = false.
Proof.
  unfold special, is_term. rewrite !orb_false_iff. intros [[[A B] C] D]. repeat split; auto.
Qed.

Lemma good_delim_spec d : good_delim d = true -> (d =? b_q) = false /\ is_term d = false.
Proof.
  unfold good_delim, is_term. rewrite !andb_true_iff, !negb_true_iff. intros [[A B] C].
  split; auto. rewrite B, C. reflexivity.
Qed.

Lemma rd_infield d f : forall cur acc rest,
  needs_quotes d f = false ->
  read_record d InField cur acc (f ++ rest) = read_record d InField (rev f ++ cur) acc rest.
Proof.
  induction f as [|b f IH]; intros cur acc rest H; [reflexivity|].
  unfold needs_quotes in H. cbn [existsb] in H. apply orb_false_iff in H as [Hb Hf].
  destruct (special_false _ _ Hb) as (A & _ & T).
  cbn [app read_record rev]. rewrite A, T, <- app_assoc. apply IH, Hf.
Qed.

Lemma rd_quoted d f : forall cur acc rest,
  read_record d InQuotedField cur acc (quote_body f ++ b_q :: rest)
  = read_record d InDoubleEscapedQuote (rev f ++ cur) acc rest.
Proof.
  induction f as [|b f IH]; intros cur acc rest; [reflexivity|].
  unfold quote_body in *. cbn [flat_map rev]. rewrite <- !app_assoc.
  destruct (b =? b_q) eqn:E; cbn [app read_record];
    [apply N.eqb_eq in E; subst b; cbn [N.eqb b_q Pos.eqb] | rewrite E]; apply IH.
Qed.

(* a written field is read from StartField up to its end, whatever follows, leaving the automaton in a state
   from which the end of the text and a delimiter both close the field *)
Lemma rd_written d f acc rest :
  exists st, st <> StartRecord /\ st <> InQuotedField /\
    read_record d StartField [] acc (write_field d f ++ rest) = read_record d st (rev f) acc rest.
Proof.
  unfold write_field. destruct (needs_quotes d f) eqn:Q.
  - exists InDoubleEscapedQuote. repeat split; try discriminate.
    cbn [app read_record]. cbn [N.eqb b_q Pos.eqb]. rewrite <- app_assoc. cbn [app].
    rewrite rd_quoted, app_nil_r. reflexivity.
  - destruct f as [|b f]; [exists StartField; repeat split; discriminate|].
    exists InField. repeat split; try discriminate.
    unfold needs_quotes in Q. cbn [existsb] in Q. apply orb_false_iff in Q as [Hb Hf].
    destruct (special_false _ _ Hb) as (A & B & T).
    cbn [app read_record]. rewrite A, B, T. apply (rd_infield d f [b] acc rest Hf).
Qed.

Lemma rd_after d st cur acc more :
  good_delim d = true -> st <> StartRecord -> st <> InQuotedField ->
  read_record d st cur acc [] = Some (rev (rev cur :: acc))
  /\ read_record d st cur acc (d :: more) = read_record d StartField [] (rev cur :: acc) more.
Proof.
  intros G H1 H2. destruct (good_delim_spec d G) as (Dq & _).
  destruct st; try congruence; cbn [read_record]; rewrite ?Dq, N.eqb_refl; split; reflexivity.
Qed.

Lemma rd_fields d fs : good_delim d = true -> fs <> [] ->
  forall acc, read_record d StartField [] acc (write_fields d fs) = Some (rev acc ++ fs).
Proof.
  intros G. induction fs as [|f r IH]; [congruence|]. intros _ acc.
  destruct r as [|g r].
  - cbn [write_fields]. rewrite <- (app_nil_r (write_field d f)).
    destruct (rd_written d f acc []) as (st & H1 & H2 & ->).
    rewrite (proj1 (rd_after d st _ acc [] G H1 H2)), rev_involutive. reflexivity.
  - change (write_fields d (f :: g :: r)) with (write_field d f ++ d :: write_fields d (g :: r)).
    destruct (rd_written d f acc (d :: write_fields d (g :: r))) as (st & H1 & H2 & ->).
    rewrite (proj2 (rd_after d st _ acc _ G H1 H2)), rev_involutive, IH by discriminate.
    cbn [rev]. rewrite <- app_assoc. reflexivity.
Qed.

(* the first byte of a record is not a record terminator, so StartRecord behaves as StartField *)
Lemma start_record d c r :
  is_term c = false ->
  read_record d StartRecord [] [] (c :: r) = read_record d StartField [] [] (c :: r).
Proof. intros T. cbn [read_record]. rewrite T. reflexivity. Qed.

(* a written field is empty only for the empty field, and does not begin with a record terminator *)
Lemma write_field_head d f :
  (write_field d f = [] /\ f = []) \/ exists c t, write_field d f = c :: t /\ is_term c = false.
Proof.
  unfold write_field. destruct (needs_quotes d f) eqn:Q; [right; eexists _, _; split; reflexivity|].
  destruct f as [|b f]; [left; split; reflexivity|]. right. exists b, f. split; [reflexivity|].
  unfold needs_quotes in Q. cbn [existsb] in Q. apply orb_false_iff in Q as [Hb _]. apply (special_false _ _ Hb).
Qed.

(* so is a written record: empty only for the single empty field *)
Lemma write_fields_head d fs :
  good_delim d = true -> fs <> [] ->
  (write_fields d fs = [] /\ fs = [[]]) \/ exists c t, write_fields d fs = c :: t /\ is_term c = false.
Proof.
  intros G. destruct fs as [|f [|g r]]; [congruence | |]; intros _.
  - cbn [write_fields]. destruct (write_field_head d f) as [[-> ->]|H]; [left; split; reflexivity | right; exact H].
  - change (write_fields d (f :: g :: r)) with (write_field d f ++ d :: write_fields d (g :: r)). right.
    destruct (write_field_head d f) as [[-> _]|(c & t & -> & T)]; eexists _, _; (split; [reflexivity|]);
      [apply (good_delim_spec d G) | exact T].
Qed.

Lemma strip_bom_id s : starts_with_bom s = false -> strip_bom s = s.
Proof. intros H. unfold strip_bom. rewrite H. reflexivity. Qed.

Theorem csv_roundtrip d fs :
  good_delim d = true -> known_bom d fs = false -> parse_csv d (encode_csv d fs) = fs.
Proof.
  intros G B. unfold known_bom in B. unfold parse_csv. rewrite strip_bom_id by exact B.
  destruct fs as [|f r]; [reflexivity|]. unfold encode_csv.
  destruct (write_fields_head d (f :: r) G) as [[-> ->]|(c & t & E & T)]; [discriminate | reflexivity |].
  rewrite E, start_record by exact T. rewrite <- E, rd_fields by (auto; discriminate). reflexivity.
Qed.

(* the class is not empty: the reader strips what the writer wrote *)
Lemma csv_bom_witness : parse_csv 44 (encode_csv 44 [[239; 187; 191; 97]; [98]]) = [[97]; [98]].
Proof. vm_compute. reflexivity. Qed.
