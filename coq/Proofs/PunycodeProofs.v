(* Proofs for Model/Punycode.v (validate: false paths and the RFC 3492 integer coding). *)
From Coq Require Import List NArith Bool Lia.
From VRL Require Import Base.Bytes Model.Base16 Model.CodecUtf8 Model.Punycode Proofs.CodecProofs Proofs.StrUtf8.
Import ListNotations.
Local Open Scope N_scope.

Lemma digit_of_to_digit v : v < 36 -> digit_of (to_digit v) = Some v.
Proof. apply (table_inverse to_digit digit_of 36). vm_compute. reflexivity. Qed.

Lemma thr_bounds k bias : 1 <= thr k bias <= 26.
Proof.
  unfold thr. destruct (N.leb_spec k bias); [lia|]. destruct (N.leb_spec (bias + 26) k); lia.
Qed.

(* The generalized variable-length integer (RFC 3492 section 3.3): decoding inverts encoding.
   The side condition i + 36*q*w <= u32::MAX is what the decoder's checked u32 arithmetic needs: idna's
   decoder multiplies the weight *before* it knows whether another digit follows, so a value can fit in
   u32 and still be rejected when it is within a factor 36 of the limit. *)
Lemma enc_vli_S fuel q k bias :
  enc_vli (S fuel) q k bias =
  if q <? thr k bias then [to_digit q]
  else to_digit (thr k bias + (q - thr k bias) mod (36 - thr k bias))
       :: enc_vli fuel ((q - thr k bias) / (36 - thr k bias)) (k + 36) bias.
Proof. reflexivity. Qed.

(* one decoder step on a digit that passes both overflow checks *)
Lemma dec_vli_digit d r i w k bias :
  d < 36 -> i + d * w <= u32_max ->
  dec_vli (to_digit d :: r) i w k bias =
  if d <? thr k bias then Some (i + d * w, r)
  else if u32_max <? w * (36 - thr k bias) then None
  else dec_vli r (i + d * w) (w * (36 - thr k bias)) (k + 36) bias.
Proof.
  intros Hd Hi. cbn [dec_vli]. rewrite (digit_of_to_digit d Hd).
  rewrite (ltb_false u32_max (d * w)), (ltb_false u32_max (i + d * w)) by lia. reflexivity.
Qed.

(* a value below the threshold is a single digit *)
Lemma vli_last fuel q k bias i w rest :
  q < thr k bias -> i + q * w <= u32_max ->
  dec_vli (enc_vli (S fuel) q k bias ++ rest) i w k bias = Some (i + q * w, rest).
Proof.
  intros Hq Hi. pose proof (thr_bounds k bias). rewrite enc_vli_S, (ltb_true q _ Hq). cbn [app].
  rewrite dec_vli_digit, (ltb_true q _ Hq) by lia. reflexivity.
Qed.

(* Otherwise q = t + T*q' + r with T = 36 - t >= 10 and r < T: the digit t + r is written, the weight becomes w*T
   and q' <= q/10 is left, so the fuel (one per decimal digit of q) suffices. *)
Lemma vli_roundtrip fuel : forall q k bias i w rest,
  q < 10 ^ N.of_nat fuel -> i + 36 * q * w <= u32_max ->
  dec_vli (enc_vli (S fuel) q k bias ++ rest) i w k bias = Some (i + q * w, rest).
Proof.
  induction fuel as [|f IH]; intros q k bias i w rest Hq Hov; pose proof (thr_bounds k bias) as Ht.
  { apply vli_last; cbn in Hq; nia. }
  destruct (N.lt_ge_cases q (thr k bias)) as [Hqt|Hqt]; [apply vli_last; [exact Hqt | nia]|].
  rewrite enc_vli_S, (ltb_false q _ Hqt). cbn [app].
  set (t := thr k bias) in *. set (T := 36 - t) in *. assert (HT : 10 <= T <= 35) by (unfold T; lia).
  pose proof (N.div_mod (q - t) T) as Eq. pose proof (N.mod_lt (q - t) T) as Hr.
  set (q' := (q - t) / T) in *. set (r := (q - t) mod T) in *.
  assert (Eq' : q = t + T * q' + r) by lia. clear Eq.
  rewrite dec_vli_digit by (rewrite Eq' in Hov; nia). fold t T.
  rewrite (ltb_false (t + r) t), (ltb_false u32_max (w * T)) by (rewrite ?Eq' in Hov; nia).
  rewrite IH.
  - do 2 f_equal. rewrite Eq'. ring.
  - rewrite Nat2N.inj_succ, N.pow_succ_r' in Hq. nia.
  - rewrite Eq' in Hov. nia.
Qed.

(* with the actual fuel of the model (12 steps cover every u32) *)
Theorem vli_roundtrip_u32 delta bias i rest :
  i + 36 * delta <= u32_max ->
  dec_vli (enc_vli 12 delta 36 bias ++ rest) i 1 36 bias = Some (i + delta, rest).
Proof.
  intros H. rewrite (vli_roundtrip 11).
  - rewrite N.mul_1_r. reflexivity.
  - change (delta < 100000000000). unfold u32_max in H. lia.
  - lia.
Qed.

Lemma ascii_valid_utf8 s : is_ascii_bytes s = true -> valid_utf8 s = true.
Proof.
  induction s as [|c r IH]; intros H; [reflexivity|].
  apply andb_true_iff in H as [Hc Hr]. cbn [valid_utf8]. rewrite Hc. exact (IH Hr).
Qed.

Lemma plain_is_ascii s : forallb plain_char s = true -> is_ascii_bytes s = true.
Proof.
  unfold is_ascii_bytes. rewrite !forallb_forall. intros H c Hc. specialize (H c Hc).
  unfold plain_char in H. rewrite !orb_true_iff, !andb_true_iff, !N.leb_le, N.eqb_eq in H.
  apply N.ltb_lt. lia.
Qed.

Lemma starts_with_iff p s : starts_with p s = true <-> exists t, s = p ++ t.
Proof.
  revert s. induction p as [|x p IH]; intros s; [split; [exists s|]; reflexivity|].
  destruct s as [|y s]; cbn [starts_with].
  - split; [discriminate | intros [t E]; discriminate].
  - rewrite andb_true_iff, N.eqb_eq, IH. split.
    + intros [-> [t ->]]. exists t. reflexivity.
    + intros [t E]. injection E as -> ->. split; [reflexivity | exists t; reflexivity].
Qed.

Lemma contains_iff p s : contains p s = true <-> exists a t, s = a ++ p ++ t.
Proof.
  induction s as [|c s IH]; cbn [contains]; rewrite orb_true_iff, starts_with_iff.
  - split.
    + intros [[t E]|H]; [exists [], t; exact E | discriminate].
    + intros (a & t & E). destruct a; [eauto | discriminate].
  - rewrite IH. split.
    + intros [[t E]|(a & t & E)]; [exists [], t; exact E | exists (c :: a), t; rewrite E; reflexivity].
    + intros (a & t & E). destruct a as [|x a]; [eauto|]. injection E as -> E. eauto.
Qed.

(* "xn--" contains a '-', which is not a plain character *)
Lemma plain_no_prefix s : forallb plain_char s = true -> contains xn_prefix s = false.
Proof.
  intros H. destruct (contains xn_prefix s) eqn:E; [|reflexivity].
  apply contains_iff in E as (a & t & ->). rewrite forallb_app in H. apply andb_true_iff in H as [_ H].
  discriminate H.
Qed.

(* a string of lower-case ASCII letters, digits and dots goes through both functions unchanged *)
Theorem punycode_ascii_passthrough s :
  forallb plain_char s = true ->
  encode_punycode_novalidate s = ROk s /\ decode_punycode_novalidate s = ROk s.
Proof.
  intros H. assert (Hv := ascii_valid_utf8 s (plain_is_ascii s H)).
  unfold encode_punycode_novalidate, decode_punycode_novalidate.
  rewrite (lossy_valid s Hv), H, (plain_no_prefix s H). split; reflexivity.
Qed.

(* the converse of enc1_of_cp: the bytes accepted as the char c are the ones utf8_of_cp writes for it.  c is put in
   Horner form in base 64, whose digits div_mul_add / mod_mul_add read off; the restricted second byte (ok3, ok4) is
   what puts c above the overlong forms, so that utf8_of_cp chooses the same width. *)
Lemma cp_of_enc1 w c : enc1 w c -> utf8_of_cp c = w.
Proof.
  unfold utf8_of_cp. change 4096 with (64 * 64). change 262144 with (64 * 64 * 64). rewrite <- !N.div_div by discriminate.
  intros [b L | b0 b1 ? W C -> | b0 b1 b2 ? W O C -> | b0 b1 b2 b3 ? W O C2 C3 ->].
  - rewrite (ltb_true b 128 L). reflexivity.
  - apply in_range_iff' in W, C.
    rewrite ltb_false, ltb_true, div_mul_add, mod_mul_add by lia. repeat f_equal; lia.
  - apply in_range_iff' in W, C. apply ok3_iff in O.
    replace ((b0 - 224) * 4096 + (b1 - 128) * 64 + (b2 - 128)) with (((b0 - 224) * 64 + (b1 - 128)) * 64 + (b2 - 128)) by lia.
    rewrite !ltb_false, ltb_true, !div_mul_add, !mod_mul_add by lia. repeat f_equal; lia.
  - apply in_range_iff' in W, C2, C3. apply ok4_iff in O.
    replace ((b0 - 240) * 262144 + (b1 - 128) * 4096 + (b2 - 128) * 64 + (b3 - 128))
      with ((((b0 - 240) * 64 + (b1 - 128)) * 64 + (b2 - 128)) * 64 + (b3 - 128)) by lia.
    rewrite !ltb_false, !div_mul_add, !mod_mul_add by lia. repeat f_equal; lia.
Qed.

Theorem utf8_reencode s : valid_utf8 s = true -> utf8_of_cps (utf8_chars s) = s.
Proof.
  revert s. apply valid_utf8_ind; [reflexivity|]. intros w c r E.
  rewrite (chars_enc1 w c r E), utf8_of_cps_cons, (cp_of_enc1 w c E). intros. f_equal. assumption.
Qed.

Definition no_dot (p : bytes) : bool := forallb (fun c => negb (c =? dot)) p.

Lemma split_no_dot p : no_dot p = true -> split_on dot p = [p].
Proof.
  induction p as [|c r IH]; intros H; [reflexivity|].
  apply andb_true_iff in H as [Hc Hr]. apply negb_true_iff in Hc.
  cbn [split_on]. rewrite Hc, (IH Hr). reflexivity.
Qed.

Lemma split_app_dot p rest : no_dot p = true -> split_on dot (p ++ dot :: rest) = p :: split_on dot rest.
Proof.
  induction p as [|c r IH]; intros H; [reflexivity|].
  apply andb_true_iff in H as [Hc Hr]. apply negb_true_iff in Hc.
  cbn [app split_on]. rewrite Hc, (IH Hr). reflexivity.
Qed.

Lemma split_join parts : parts <> [] -> Forall (fun p => no_dot p = true) parts ->
  split_on dot (join_with dot parts) = parts.
Proof.
  intros Hne Hall. induction Hall as [|p ps Hp _ IH]; [congruence|].
  destruct ps as [|q qs]; [exact (split_no_dot p Hp)|].
  change (join_with dot (p :: q :: qs)) with (p ++ dot :: join_with dot (q :: qs)).
  rewrite (split_app_dot p _ Hp), IH by discriminate. reflexivity.
Qed.

Lemma valid_utf8_join parts : Forall (fun p => valid_utf8 p = true) parts ->
  valid_utf8 (join_with dot parts) = true.
Proof.
  induction 1 as [|p ps Hp _ IH]; [reflexivity|]. destruct ps as [|q qs]; [exact Hp|].
  exact (eq_trans (valid_app_prefix p (dot :: _) Hp) IH).
Qed.

Lemma join_with_In sep parts q : In q parts -> exists a b, join_with sep parts = a ++ q ++ b.
Proof.
  induction parts as [|p ps IH]; intros Hin; [contradiction|]. destruct ps as [|p' ps].
  - destruct Hin as [->|[]]. exists [], []. symmetry. apply app_nil_r.
  - change (join_with sep (p :: p' :: ps)) with (p ++ sep :: join_with sep (p' :: ps)).
    destruct Hin as [->|Hin]; [eexists [], _; reflexivity|].
    destruct (IH Hin) as (a & b & ->). exists (p ++ sep :: a), b. rewrite <- app_assoc. reflexivity.
Qed.

Lemma contains_join p parts q : In q parts -> starts_with p q = true -> contains p (join_with dot parts) = true.
Proof.
  intros Hin Hs. apply starts_with_iff in Hs as [t ->].
  destruct (join_with_In dot parts _ Hin) as (a & b & ->).
  apply contains_iff. exists a, (t ++ b). rewrite <- app_assoc. reflexivity.
Qed.

Record good_part (p : bytes) : Prop := {
  gp_nodot : no_dot p = true;
  gp_valid : valid_utf8 p = true;
  gp_lower : to_lowercase p = p;                       (* already lower-case *)
  gp_noprefix : starts_with xn_prefix p = false        (* not already an A-label *)
}.

Lemma decode_part_prefixed e :
  decode_part (xn_prefix ++ e) = match puny_decode e with Some cps => utf8_of_cps cps | None => xn_prefix ++ e end.
Proof. reflexivity. Qed.

Lemma decode_part_plain p : starts_with xn_prefix p = false -> decode_part p = p.
Proof. intros H. unfold decode_part. rewrite H. reflexivity. Qed.

Definition encodable (p : bytes) : Prop :=
  is_ascii_bytes p = false -> puny_encode (utf8_chars p) <> None.     (* no u32 overflow *)

Section PunycodeGlue.
  Variable parts : list bytes.

  (* RFC 3492 decoding inverts encoding, and the encoder's output is made of ASCII letters, digits and '-'
     (stated for the model's puny_encode / puny_decode; unproved, compared with idna on every run).  It is
     needed for the characters of the parts at hand only; of arbitrary lists of code points it is false, as the
     decoder refuses values that are not scalar: puny_encode [55296] = Some "ib9b", puny_decode "ib9b" = None. *)
  Hypothesis bootstring_inverse : forall p e, In p parts ->
    puny_encode (utf8_chars p) = Some e ->
    puny_decode e = Some (utf8_chars p) /\ is_ascii_bytes e = true /\ no_dot e = true.

  Lemma encode_part_spec p : In p parts -> good_part p -> encodable p ->
    no_dot (encode_part p) = true /\ valid_utf8 (encode_part p) = true /\ decode_part (encode_part p) = p.
  Proof.
    intros Hin [Hnd Hv Hlow Hnp] He. unfold encode_part. rewrite Hnp, Hlow. cbn [orb].
    destruct (is_ascii_bytes p) eqn:Ha; [auto using decode_part_plain|].
    destruct (puny_encode (utf8_chars p)) as [e|] eqn:Ee; [|destruct (He Ha Ee)].
    destruct (bootstring_inverse p e Hin Ee) as (Hd & Hae & Hnde).
    split; [exact Hnde|]. split; [exact (ascii_valid_utf8 (xn_prefix ++ e) Hae)|].
    rewrite decode_part_prefixed, Hd. exact (utf8_reencode p Hv).
  Qed.

  Theorem punycode_novalidate_roundtrip :
    parts <> [] -> Forall good_part parts -> Forall encodable parts ->
    let s := join_with dot parts in
    exists e, encode_punycode_novalidate s = ROk e /\ decode_punycode_novalidate e = ROk s.
  Proof.
    intros Hne Hgood Henc s.
    assert (Hvs : valid_utf8 s = true) by apply valid_utf8_join, (Forall_impl _ gp_valid Hgood).
    unfold encode_punycode_novalidate. rewrite (lossy_valid s Hvs).
    destruct (forallb plain_char s) eqn:Hplain.
    { exists s. split; [reflexivity|]. apply punycode_ascii_passthrough, Hplain. }
    unfold s at 1. rewrite (split_join parts Hne (Forall_impl _ gp_nodot Hgood)).
    set (eparts := map encode_part parts). exists (join_with dot eparts). split; [reflexivity|].
    assert (Hspec : Forall (fun p => no_dot (encode_part p) = true /\ valid_utf8 (encode_part p) = true
                                     /\ decode_part (encode_part p) = p) parts).
    { rewrite Forall_forall in *. intros p Hin. apply encode_part_spec; auto. }
    apply Forall_and_inv in Hspec as [Hnd Hspec]. apply Forall_and_inv in Hspec as [Hve Hde].
    assert (Hdec : map decode_part eparts = parts).
    { unfold eparts. rewrite map_map, (map_ext_Forall _ _ Hde). apply map_id. }
    unfold decode_punycode_novalidate. rewrite lossy_valid by apply valid_utf8_join, Forall_map, Hve.
    destruct (contains xn_prefix (join_with dot eparts)) eqn:Hc; cbn [negb].
    - rewrite split_join, Hdec; [reflexivity | | apply Forall_map, Hnd].
      unfold eparts. destruct parts; [congruence | discriminate].
    - (* no "xn--" anywhere: decode_part leaves every encoded part as it is, so it was left as it was *)
      unfold s. rewrite <- Hdec. do 2 f_equal. rewrite <- (map_id eparts) at 1. apply map_ext_in. intros e He.
      symmetry. apply decode_part_plain. destruct (starts_with xn_prefix e) eqn:Es; [|reflexivity].
      rewrite (contains_join _ _ _ He Es) in Hc. discriminate.
  Qed.
End PunycodeGlue.
