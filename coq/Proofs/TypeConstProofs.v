(* C12: an expression the compiler resolves to a constant evaluates to that constant and changes
   nothing, in every run-time state whose variables hold the constants the type state records. *)
From Coq Require Import List Bool.
From VRL Require Import Base.Bytes Base.Value Model.Kind Model.Expr Model.Eval Model.TypeInfo Proofs.ExprInd
  Proofs.EvalProofs Proofs.TypeInfoEqs.
Import ListNotations.

(* every variable the type state holds a constant for holds that constant *)
Definition consts_ok (G : tstate) (s : state) : Prop :=
  forall x t c, lvar (locals G) x = Some (t, Some c) -> var_get (vars s) x = Some c.

Lemma lvar_remove_other l x y : bytes_eqb x y = false -> lvar (lremove l x) y = lvar l y.
Proof.
  intros H. induction l as [|[z w] l IH]; cbn; auto.
  destruct (bytes_eqb z x) eqn:Ezx.
  - apply bytes_eqb_eq in Ezx; subst z. rewrite IH. rewrite H. reflexivity.
  - cbn. destruct (bytes_eqb z y); auto.
Qed.

Lemma lvar_lset l x y d : lvar (lset l x d) y = if bytes_eqb x y then Some d else lvar l y.
Proof.
  unfold lset. cbn. destruct (bytes_eqb x y) eqn:E; auto. apply lvar_remove_other; auto.
Qed.

(* x := w keeps the invariant if w is the constant that the new details of x record, when they record one *)
Lemma consts_ok_set G s x d w : consts_ok G s -> (forall c, snd d = Some c -> w = c) ->
  consts_ok (mkTs (lset (locals G) x d) (tgt G) (mdk G)) (set_vars s (var_set (vars s) x w)).
Proof.
  intros Hk Hd y t c. cbn [locals set_vars vars]. rewrite lvar_lset, var_get_set.
  destruct (bytes_eqb x y); [|apply Hk].
  intros [= ->]. f_equal. apply Hd. reflexivity.
Qed.

(* Target::insert against insert_type_def: the recorded constant, if there is one, must be the assigned
   value; below a variable there must be none, because it would be recorded for the whole variable *)
Lemma insert_consts t G s v r c : consts_ok G s -> (forall cy, c = Some cy -> v = cy) ->
  match t with TVar _ (_ :: _) => c = None | _ => True end ->
  consts_ok (insert_type_def t G r c) (target_insert s t v).
Proof.
  intros Hk Hc Hp. destruct t as [|x [|sg p]|pfx p]; cbn [insert_type_def target_insert].
  - exact Hk.
  - apply consts_ok_set; auto.
  - subst c. destruct (var_get (vars s) x); apply consts_ok_set; auto; discriminate.
  - unfold t_insert. destruct (pop_fault s) as [bad fs]. destruct pfx; exact Hk.
Qed.

(* the operators resolve_constant folds *)
Definition arith (o : opcode) : bool := match o with OMul | ODiv | OAdd | OSub => true | _ => false end.

Lemma arith_plain o : arith o = true -> plain o = true.
Proof. destruct o; auto. Qed.

Lemma pair_of_fst {A B} (p : A * B) a : fst p = a -> p = (a, snd p).
Proof. intros <-. apply surjective_pairing. Qed.

Section ConstSound.
  Variable F : fname -> list value -> option value.
  Variable binop : opcode -> value -> value -> option value.
  Variable T : fname -> list tdef -> list tdef -> tdef.
  Notation ev := (eval F binop).
  Notation rc := (resolve_constant binop).
  Notation ti := (type_info binop T).

  (* the list loops of resolve_constant for arrays and objects *)
  Section Loops.
    Variable G : tstate.
    Fixpoint rc_arr (es : list expr) (acc : list value) : option value :=
      match es with
      | [] => Some (VArr (rev acc))
      | e1 :: es' => match rc e1 G with Some v => rc_arr es' (v :: acc) | None => None end
      end.
    Fixpoint rc_obj (kvs : list (bytes * expr)) (acc : obj) : option value :=
      match kvs with
      | [] => Some (VObj acc)
      | (k, e1) :: kvs' => match rc e1 G with Some v => rc_obj kvs' (obj_set acc k v) | None => None end
      end.
  End Loops.
  Lemma rc_arr_eq es G : rc (EArr es) G = rc_arr G es [].
  Proof. reflexivity. Qed.
  Lemma rc_obj_eq kvs G : rc (EObj kvs) G = rc_obj G kvs [].
  Proof. reflexivity. Qed.

  Lemma rc_op_inv o a b G c : rc (EOp o a b) G = Some c ->
    exists x y, rc a G = Some x /\ rc b G = Some y /\ arith o = true /\ binop o x y = Some c.
  Proof.
    cbn [resolve_constant]. destruct (rc a G) as [x|]; [|discriminate]. destruct (rc b G) as [y|]; [|discriminate].
    destruct (is_number x && is_number y); [|discriminate].
    intros H. exists x, y. destruct o; try discriminate; auto.
  Qed.

  Definition const_sound_at (e : expr) : Prop :=
    forall G s c, consts_ok G s -> rc e G = Some c -> ev e s = (inl c, s).

  Lemma arr_const es : Forall const_sound_at es -> forall acc G s c, consts_ok G s ->
    rc_arr G es acc = Some c -> arr_go F binop es acc s = (inl c, s).
  Proof.
    induction 1 as [|e1 es H1 _ IH]; intros acc G s c Hok Hrc; cbn in *.
    - inversion Hrc; reflexivity.
    - destruct (rc e1 G) as [v|] eqn:E; [|discriminate]. rewrite (H1 G s v Hok E). eapply IH; eauto.
  Qed.

  Lemma obj_const kvs : Forall (fun kv => const_sound_at (snd kv)) kvs -> forall acc G s c, consts_ok G s ->
    rc_obj G kvs acc = Some c -> obj_go F binop kvs acc s = (inl c, s).
  Proof.
    induction 1 as [|[k e1] kvs H1 _ IH]; intros acc G s c Hok Hrc; cbn in *.
    - inversion Hrc; reflexivity.
    - destruct (rc e1 G) as [v|] eqn:E; [|discriminate]. rewrite (H1 G s v Hok E). eapply IH; eauto.
  Qed.

  Theorem const_sound : forall e, const_sound_at e.
  Proof.
    induction e using expr_ind'; intros G s cv Hok Hrc; try (cbn in Hrc; discriminate).
    - (* literal *) cbn in *. inversion Hrc; reflexivity.
    - (* variable *)
      cbn in *. destruct (lvar (locals G) x) as [[t o]|] eqn:E; [|discriminate]. cbn in Hrc. subst o.
      rewrite (Hok x t cv E). reflexivity.
    - (* variable path *)
      cbn in *. destruct (lvar (locals G) x) as [[t [v|]]|] eqn:E; try discriminate.
      rewrite (Hok x t v E). cbn. rewrite Hrc. reflexivity.
    - (* array *) rewrite eval_arr. rewrite rc_arr_eq in Hrc. eapply arr_const; eauto.
    - (* object *) rewrite eval_obj. rewrite rc_obj_eq in Hrc. eapply obj_const; eauto.
    - (* group *) cbn in *. eapply IHe; eauto.
    - (* arithmetic on two numeric constants *)
      destruct (rc_op_inv _ _ _ _ _ Hrc) as (x & y & E1 & E2 & Ha & Hb).
      rewrite (eval_plain F binop o e1 e2 s (arith_plain o Ha)), (IHe1 G s x Hok E1), (IHe2 G s y Hok E2), Hb.
      reflexivity.
  Qed.

  (* an expression with a constant leaves the type state as it is; written as an equation on the pair, it
     rewrites the `let '(s', r) := type_info e1 s in ...` of every compound case *)
  Definition no_effect_at (e : expr) : Prop :=
    forall G cv, rc e G = Some cv -> forall G', ti e G' = (G', snd (ti e G')).

  Lemma arr_no_effect es : Forall no_effect_at es -> forall G accv cv, rc_arr G es accv = Some cv ->
    forall G' acc fal, ti_arr binop T es G' acc fal = (G', snd (ti_arr binop T es G' acc fal)).
  Proof.
    induction 1 as [|e1 es H1 _ IH]; intros G accv cv Hrc G' acc fal; cbn in *; auto.
    destruct (rc e1 G) as [v|] eqn:E; [|discriminate]. rewrite (H1 G v E G').
    destruct (is_never _); [reflexivity | eapply IH; eauto].
  Qed.

  Lemma obj_no_effect kvs : Forall (fun kv => no_effect_at (snd kv)) kvs -> forall G accv cv, rc_obj G kvs accv = Some cv ->
    forall G' acc fal ret, ti_obj binop T kvs G' acc fal ret = (G', snd (ti_obj binop T kvs G' acc fal ret)).
  Proof.
    induction 1 as [|[k e1] kvs H1 _ IH]; intros G accv cv Hrc G' acc fal ret; cbn in *; auto.
    destruct (rc e1 G) as [v|] eqn:E; [|discriminate]. rewrite (H1 G v E G').
    destruct (is_never _); [reflexivity | eapply IH; eauto].
  Qed.

  Lemma const_no_type_effect : forall e, no_effect_at e.
  Proof.
    induction e using expr_ind'; intros G cv Hrc G'; try (cbn in Hrc; discriminate); try reflexivity.
    - rewrite ti_arr_eq. eapply arr_no_effect; eauto.
    - rewrite ti_obj_eq. eapply obj_no_effect; eauto.
    - cbn in *. eapply IHe; eauto.
    - destruct (rc_op_inv _ _ _ _ _ Hrc) as (x & y & E1 & E2 & Ha & _).
      apply pair_of_fst. cbn [type_info]. rewrite (IHe1 G x E1 G'), (IHe2 G y E2 G').
      generalize (snd (ti e1 G')) (snd (ti e2 G')). intros l r.
      (* every branch of the arithmetic typing is a pair with the same state *)
      destruct o; try discriminate;
        repeat match goal with |- context [if ?b then _ else _] => destruct b end; reflexivity.
  Qed.

  Theorem assign_constant_sound x e G s c :
    consts_ok G s -> resolve_constant binop e G = Some c ->
    eval F binop (EAssign (TVar x []) e) s = (inl c, set_vars s (var_set (vars s) x c))
    /\ (exists t, lvar (locals (fst (type_info binop T (EAssign (TVar x []) e) G))) x = Some (t, Some c))
    /\ consts_ok (fst (type_info binop T (EAssign (TVar x []) e) G)) (set_vars s (var_set (vars s) x c)).
  Proof.
    intros Hok Hrc.
    cbn [eval type_info]. rewrite (const_sound e G s c Hok Hrc), (const_no_type_effect e G c Hrc G).
    cbn [target_insert fst insert_type_def]. rewrite Hrc. split; [reflexivity|split].
    - eexists. cbn [locals]. rewrite lvar_lset, bytes_eqb_refl. reflexivity.
    - apply consts_ok_set; [exact Hok|]. cbn. congruence.
  Qed.
End ConstSound.
