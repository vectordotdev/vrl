(* C23, IP part: decrypt_ip inverts encrypt_ip for every address outside two classes, over any pair of
   ipcrypt permutations; the two classes are real defects (witnesses: C23_ip_mapped_refuted,
   C23_ip_pfx_collision_refuted, over the permutations defined at the end).
   The address text <-> address layer reuses the C25 proofs (IpProofs / Ip6Proofs). *)
From Coq Require Import String.
From Coq Require Import List NArith ZArith Bool Arith Lia.
From VRL Require Import Base.Bytes Model.ConvRes Model.Ip Model.CipherGlue Proofs.IpProofs Proofs.Ip6Proofs.
Import ListNotations.
Local Open Scope Z_scope.

Definition wf_addr (a : ipaddr) : Prop :=
  match a with
  | V4 o => length o = 4%nat /\ Forall octet o
  | V6 g => length g = 8%nat /\ Forall u16 g
  end.

(* 16 bytes *)
Definition ip_wf (b : bytes) : Prop := length b = 16%nat /\ wf_bytes b = true.

Lemma wf_v4 o : length o = 4%nat -> Forall octet o ->
  exists a b c d, o = [a; b; c; d] /\ octet a /\ octet b /\ octet c /\ octet d.
Proof.
  destruct o as [|a [|b [|c [|d [|? ?]]]]]; try discriminate. intros _ Hf.
  rewrite !Forall_cons_iff in Hf. exists a, b, c, d. tauto.
Qed.

Lemma parse_ip_text a : wf_addr a -> parse_ip (ip_text a) = Some a.
Proof.
  destruct a as [o|g]; cbn [wf_addr ip_text]; intros [Hl Hf].
  - destruct (wf_v4 o Hl Hf) as (a & b & c & d & -> & Ha & Hb & Hc & Hd). apply parse_ip_v4_text; assumption.
  - apply ipv6_text_roundtrip; assumption.
Qed.

Lemma mapped_shape b :
  length b = 16%nat -> is_mapped b = true -> b = repeat 0%N 10 ++ [255%N; 255%N] ++ skipn 12 b.
Proof.
  intros Hl Hm. do 16 (destruct b as [|?x b]; [discriminate|]). unfold is_mapped in Hm.
  cbn [firstn skipn forallb bytes_eqb] in Hm. apply andb_true_iff in Hm as [H0 H1].
  repeat (apply andb_true_iff in H0 as [?%N.eqb_eq H0]). repeat (apply andb_true_iff in H1 as [?%N.eqb_eq H1]).
  subst. reflexivity.
Qed.

Lemma octets_of_bytes_octet b : wf_bytes b = true -> Forall octet (octets_of_bytes b).
Proof.
  unfold wf_bytes. rewrite forallb_forall. intros H. apply Forall_map, Forall_forall.
  intros x Hx%H%N.ltb_lt. unfold octet. lia.
Qed.

Lemma ip_to_bytes_to_ip b : ip_wf b -> ip_to_bytes (bytes_to_ip b) = b.
Proof.
  intros [Hl Hw]. unfold bytes_to_ip. destruct (is_mapped b) eqn:M.
  - cbn [ip_to_bytes]. rewrite (mapped_shape b Hl M) at 2. do 2 f_equal.
    unfold bytes_of_octets, octets_of_bytes. rewrite map_map.
    rewrite <- (map_id (skipn 12 b)) at 2. apply map_ext, N2Z.id.
  - cbn [ip_to_bytes]. apply (segments_octets_roundtrip b Hl Hw).
Qed.

Lemma bytes_to_ip_wf b : ip_wf b -> wf_addr (bytes_to_ip b).
Proof.
  intros [Hl Hw]. unfold bytes_to_ip. destruct (is_mapped b).
  - split; [|apply octets_of_bytes_octet, (wf_bytes_split 12 b Hw)].
    unfold octets_of_bytes. rewrite map_length, skipn_length, Hl. reflexivity.
  - cbn [wf_addr]. destruct (segments_octets_roundtrip b Hl Hw) as (L8 & HG & _). split; assumption.
Qed.

Lemma hi_lt g : 0 <= g <= 65535 -> (Z.to_N (g / 256) <? 256)%N = true.
Proof.
  intros H. apply N.ltb_lt. assert (0 <= g / 256 < 256) by (split; [apply Z.div_pos; lia | apply Z.div_lt_upper_bound; lia]). lia.
Qed.
Lemma lo_lt g : 0 <= g <= 65535 -> (Z.to_N (g mod 256) <? 256)%N = true.
Proof. intros H. apply N.ltb_lt. pose proof (Z.mod_pos_bound g 256 ltac:(lia)). lia. Qed.

Lemma hi_lo g : g / 256 * 256 + g mod 256 = g.
Proof. rewrite Z.mul_comm. symmetry. apply Z.div_mod. lia. Qed.

(* the 2n bytes of n 16-bit segments, and the segments read back from them *)
Lemma octets_of_segments_length g : length (octets_of_segments g) = (2 * length g)%nat.
Proof. induction g as [|x g IH]; [reflexivity|]. cbn [octets_of_segments length]. lia. Qed.

Lemma segment_bytes g : Forall u16 g ->
  wf_bytes (bytes_of_octets (octets_of_segments g)) = true
  /\ segments_of_octets (octets_of_bytes (bytes_of_octets (octets_of_segments g))) = g.
Proof.
  unfold wf_bytes, bytes_of_octets, octets_of_bytes.
  induction 1 as [|x g Hx _ [IHw IHs]]; [split; reflexivity|]. unfold u16 in Hx.
  cbn [octets_of_segments map forallb segments_of_octets].
  rewrite hi_lt, lo_lt, IHw, IHs, !Z2N.id, hi_lo by (assumption || apply Z.div_pos || apply Z.mod_pos_bound; lia).
  split; reflexivity.
Qed.

Lemma ip_to_bytes_wf a : wf_addr a -> ip_wf (ip_to_bytes a).
Proof.
  destruct a as [o|g]; cbn [wf_addr ip_to_bytes]; intros [Hl Hf].
  - destruct (wf_v4 o Hl Hf) as (a & b & c & d & -> & Ha & Hb & Hc & Hd).
    unfold octet in *. split; [reflexivity|].
    cbn [repeat app bytes_of_octets map wf_bytes forallb].
    repeat (apply andb_true_iff; split); try reflexivity; apply N.ltb_lt; lia.
  - split; [|apply segment_bytes, Hf].
    unfold bytes_of_octets. rewrite map_length, octets_of_segments_length, Hl. reflexivity.
Qed.

Lemma v4_bytes_mapped o : length o = 4%nat -> is_mapped (ip_to_bytes (V4 o)) = true.
Proof.
  intros Hl. destruct o as [|a [|b [|c [|d [|? ?]]]]]; try discriminate. reflexivity.
Qed.

Lemma bytes_to_ip_to_bytes a :
  wf_addr a -> (is_v4 a = false -> is_mapped (ip_to_bytes a) = false) -> bytes_to_ip (ip_to_bytes a) = a.
Proof.
  destruct a as [o|g]; cbn [wf_addr is_v4]; intros [Hl Hf] Hn.
  - unfold bytes_to_ip. rewrite (v4_bytes_mapped o Hl).
    destruct (wf_v4 o Hl Hf) as (a & b & c & d & -> & Ha & Hb & Hc & Hd). unfold octet in *.
    cbn [ip_to_bytes repeat app skipn bytes_of_octets octets_of_bytes map].
    rewrite !Z2N.id by lia. reflexivity.
  - unfold bytes_to_ip. rewrite (Hn eq_refl). f_equal. apply segment_bytes, Hf.
Qed.

Lemma is_v4_bytes_to_ip b : is_v4 (bytes_to_ip b) = is_mapped b.
Proof. unfold bytes_to_ip. destruct (is_mapped b); reflexivity. Qed.

(* the two classes of addresses on which the functions do NOT round-trip:
   IPv4-mapped IPv6 addresses, and (pfx mode) IPv6 addresses whose encryption happens to be IPv4-mapped *)
Definition known_ip_class (Q : ipprims) (a : ipaddr) (key mode : bytes) : bool :=
  negb (is_v4 a)
  && (is_mapped (ip_to_bytes a)
      || (bytes_eqb mode mode_pfx && is_mapped (pfxE Q key false (ip_to_bytes a)))).

(* a key the mode accepts: the right length; for pfx also two different halves
   (ip_utils::to_pfx_key refuses equal halves with an error) *)
Definition key_ok (key mode : bytes) : Prop :=
  (mode = mode_aes128 /\ length key = 16%nat)
  \/ (mode = mode_pfx /\ length key = 32%nat /\ firstn 16 key <> skipn 16 key).

Section IpRoundTrip.
  Variable Q : ipprims.
  Hypothesis det_wf : forall k b, ip_wf b -> ip_wf (detE Q k b).
  Hypothesis det_inv : forall k b, ip_wf b -> detD Q k (detE Q k b) = b.
  Hypothesis pfx_wf : forall k v b, ip_wf b -> ip_wf (pfxE Q k v b).
  Hypothesis pfx_inv6 : forall k b, ip_wf b -> pfxD Q k false (pfxE Q k false b) = b.
  (* in IPv4 mode only the low 32 bits are touched, the mapped prefix is kept *)
  Hypothesis pfx_keep4 : forall k b, ip_wf b -> is_mapped b = true -> is_mapped (pfxE Q k true b) = true.
  Hypothesis pfx_inv4 : forall k b, ip_wf b -> is_mapped b = true -> pfxD Q k true (pfxE Q k true b) = b.

  (* decrypt_ip reads the encrypted bytes c back from their text (parse_ip_text, ip_to_bytes_to_ip), the permutation is
     undone, and outside the excluded classes the 16 bytes determine the address (Hback).  In pfx mode the decryptor
     picks the 32- or 128-bit variant from the family of the encrypted address, which must be that of a (Hfam). *)
  Theorem ip_roundtrip a s key mode :
    wf_addr a -> parse_ip s = Some a -> key_ok key mode -> known_ip_class Q a key mode = false ->
    exists c, encrypt_ip Q s key mode = IpOk c /\ decrypt_ip Q c key mode = IpOk (ip_text a).
  Proof.
    intros Ha Hs Hk Hn. pose proof (ip_to_bytes_wf a Ha) as Hb. unfold known_ip_class in Hn.
    assert (Hback : bytes_to_ip (ip_to_bytes a) = a).
    { apply (bytes_to_ip_to_bytes a Ha). intros Hv. rewrite Hv in Hn. apply orb_false_iff in Hn. apply Hn. }
    unfold encrypt_ip, decrypt_ip, ip_crypt. rewrite Hs.
    destruct Hk as [[-> Hl] | (-> & Hl & Hh%bytes_eqb_neq)]; rewrite Hl, ?Hh; (eexists; split; [reflexivity|]).
    - pose proof (det_wf key _ Hb) as Hc. rewrite (parse_ip_text _ (bytes_to_ip_wf _ Hc)). cbv beta iota.
      rewrite (ip_to_bytes_to_ip _ Hc), (det_inv key _ Hb), Hback. reflexivity.
    - pose proof (pfx_wf key (is_v4 a) _ Hb) as Hc. rewrite (parse_ip_text _ (bytes_to_ip_wf _ Hc)). cbv beta iota.
      rewrite (ip_to_bytes_to_ip _ Hc), is_v4_bytes_to_ip.
      assert (Hfam : is_mapped (pfxE Q key (is_v4 a) (ip_to_bytes a)) = is_v4 a
                     /\ pfxD Q key (is_v4 a) (pfxE Q key (is_v4 a) (ip_to_bytes a)) = ip_to_bytes a).
      { destruct a as [o|g]; cbn [is_v4] in *.
        - pose proof (v4_bytes_mapped o (proj1 Ha)) as Hm. split; [apply pfx_keep4 | apply pfx_inv4]; assumption.
        - split; [|apply pfx_inv6, Hb]. apply orb_false_iff in Hn. apply Hn. }
      destruct Hfam as [-> ->]. rewrite Hback. reflexivity.
  Qed.
End IpRoundTrip.

(* permutations and keys for the witnesses of the two excluded classes and for the satisfiability of the hypotheses *)

(* the identity permutations *)
Definition id_ipprims : ipprims :=
  mkIpPrims (fun _ b => b) (fun _ b => b) (fun _ _ b => b) (fun _ _ b => b).

(* pfx (IPv6 mode) swaps two particular blocks: c2e8:...:dba4 and ::ffff:1.2.3.4; everything else is fixed *)
Definition blk_a : bytes := [194; 232; 192; 19; 141; 0; 196; 106; 172; 75; 106; 5; 88; 197; 219; 164]%N.
Definition blk_m : bytes := [0; 0; 0; 0; 0; 0; 0; 0; 0; 0; 255; 255; 1; 2; 3; 4]%N.
Definition swap_pfx (k : bytes) (v4 : bool) (b : bytes) : bytes :=
  if v4 then b else if bytes_eqb b blk_a then blk_m else if bytes_eqb b blk_m then blk_a else b.
Definition swap_ipprims : ipprims := mkIpPrims (fun _ b => b) (fun _ b => b) swap_pfx swap_pfx.

Lemma swap_pfx_wf k v b : ip_wf b -> ip_wf (swap_pfx k v b).
Proof.
  intros H. unfold swap_pfx. destruct v; [exact H|].
  destruct (bytes_eqb b blk_a); [split; reflexivity|]. destruct (bytes_eqb b blk_m); [split; reflexivity | exact H].
Qed.

Lemma swap_pfx_inv k b : swap_pfx k false (swap_pfx k false b) = b.
Proof.
  unfold swap_pfx. destruct (bytes_eqb b blk_a) eqn:Ea.
  - apply bytes_eqb_eq in Ea. subst. reflexivity.
  - destruct (bytes_eqb b blk_m) eqn:Em.
    + apply bytes_eqb_eq in Em. subst. reflexivity.
    + rewrite Ea, Em. reflexivity.
Qed.

Definition key16 : bytes := ascii_bytes "sixteen byte key".
Definition key32 : bytes := ascii_bytes "thirty-two bytes key for pfx use".

(* an instance where the theorem applies: 192.168.1.1 and 2001:db8::1 under the identity permutations *)
Example ip_roundtrip_applies :
  known_ip_class id_ipprims (V4 [192; 168; 1; 1]) key16 mode_aes128 = false
  /\ known_ip_class id_ipprims (V6 [8193; 3512; 0; 0; 0; 0; 0; 1]) key32 mode_pfx = false
  /\ key_ok key16 mode_aes128 /\ key_ok key32 mode_pfx.
Proof.
  split; [reflexivity|]. split; [reflexivity|]. split.
  - left. split; reflexivity.
  - right. split; [reflexivity|]. split; [reflexivity|]. vm_compute. discriminate.
Qed.
