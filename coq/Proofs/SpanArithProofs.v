(* C33: proofs about Model/SpanArith.v (the span arithmetic of verify_overwritable). *)
From Coq Require Import List NArith Bool Lia.
From VRL Require Import Model.SpanArith.
Import ListNotations.
Local Open Scope N_scope.

Lemma walk_in_all : forall rsegs valid parent x,
  walk rsegs valid parent = Some x -> In x (all_spans rsegs parent).
Proof.
  induction rsegs as [|sg r IH]; intros valid parent x H; cbn [walk all_spans] in *; [discriminate|].
  destruct (step parent sg) as [ss p']. destruct valid as [|[|] vs]; [left|right; eapply IH; exact H|left]; congruence.
Qed.

(* one turn of the loop: the segment span ends where the parent ended, and the new parent ends at or before the
   start of the segment, seg_width back from the old end (N subtraction stops at 0, like saturating_sub) *)
Lemma step_spec parent sg ss p' : step parent sg = (ss, p') ->
  s_start p' = s_start parent /\ s_end p' = s_end parent - seg_width sg
  /\ s_end p' <= s_start ss /\ s_start ss <= s_end ss /\ s_end ss = s_end parent.
Proof. destruct sg; intros [= <- <-]; cbn; lia. Qed.

Lemma all_spans_spec : forall rsegs parent ss ps, In (ss, ps) (all_spans rsegs parent) ->
  s_start ps = s_start parent /\ s_end parent - total_width rsegs <= s_end ps
  /\ s_end ps <= s_start ss /\ s_start ss <= s_end ss /\ s_end ss <= s_end parent.
Proof.
  induction rsegs as [|sg r IH]; intros parent ss ps Hin; cbn [all_spans total_width] in *; [destruct Hin|].
  destruct (step parent sg) as [ss0 p0] eqn:E. apply step_spec in E. destruct Hin as [[= <- <-]|Hin]; [lia|].
  apply IH in Hin. lia.
Qed.

Lemma total_width_app a b : total_width (a ++ b) = total_width a + total_width b.
Proof. induction a as [|x a IH]; cbn [app total_width]; [reflexivity | rewrite IH; lia]. Qed.

Lemma total_width_rev segs : total_width (rev segs) = total_width segs.
Proof.
  induction segs as [|sg r IH]; [reflexivity|]. cbn [rev]. rewrite total_width_app, IH. cbn [total_width]. lia.
Qed.

(* where the two reported spans lie, whatever the path: the bounds stated in Properties/C33.v are linear arithmetic
   over this *)
Theorem assign_spans segs valid target ss ps :
  verify_overwritable_spans segs valid target = Some (ss, ps) ->
  s_start ps = s_start target /\ s_end target - total_width segs <= s_end ps
  /\ s_end ps <= s_start ss /\ s_start ss <= s_end ss /\ s_end ss <= s_end target.
Proof. intros H. apply walk_in_all, all_spans_spec in H. rewrite total_width_rev in H. exact H. Qed.

Lemma in_bounds_iff len s : in_bounds len s = true <-> s_start s <= s_end s /\ s_end s <= len.
Proof. unfold in_bounds. rewrite andb_true_iff, !N.leb_le. reflexivity. Qed.

(* inside an ASCII stretch every position is a boundary; so is its end, if it is one of the text *)
Lemma boundary_ascii src a b p :
  ascii_between src a b -> is_boundary src b = true -> b <= N.of_nat (length src) ->
  a <= p -> p <= b -> is_boundary src p = true.
Proof.
  intros Ha Hb Hl H1 H2. destruct (N.eq_dec p b) as [->|Hne]; [exact Hb|].
  specialize (Ha p H1 ltac:(lia)). apply N.leb_gt in Ha. unfold is_boundary, is_cont. rewrite Ha.
  destruct (p =? 0); [reflexivity|]. destruct (N.ltb_spec (N.of_nat (length src)) p); [lia|].
  destruct (p =? _); reflexivity.
Qed.

Theorem assign_boundary_ascii src segs valid target ss ps :
  s_start target <= s_end target -> s_end target <= N.of_nat (length src) ->
  total_width segs <= s_end target - s_start target ->
  ascii_between src (s_start target) (s_end target) -> is_boundary src (s_end target) = true ->
  verify_overwritable_spans segs valid target = Some (ss, ps) ->
  span_ok src ss = true /\ span_ok src ps = true.
Proof.
  intros Ho Hl Hw Ha Hb H. apply assign_spans in H.
  pose proof (fun p => boundary_ascii src _ _ p Ha Hb Hl) as Bd.
  unfold span_ok. rewrite !andb_true_iff, !N.leb_le. repeat split; try lia; apply Bd; lia.
Qed.
