(* unpad (pad m) = m for the four block paddings, every message length (Model/Padding.v). *)
From Coq Require Import List NArith Bool Arith Lia.
From VRL Require Import Base.Bytes Model.Padding Proofs.ListFacts.
Import ListNotations.

Lemma rev_repeat {A} (x : A) n : rev (repeat x n) = repeat x n.
Proof. induction n as [|n IH]; [reflexivity|]. cbn [repeat rev]. rewrite IH. symmetry. apply repeat_cons. Qed.

Lemma firstn_repeat_app {A} (x : A) n l : firstn n (repeat x n ++ l) = repeat x n.
Proof. induction n; cbn; [reflexivity|]. f_equal. assumption. Qed.

Lemma forallb_repeat {A} (f : A -> bool) x n : f x = true -> forallb f (repeat x n) = true.
Proof. intros H. induction n; cbn; [reflexivity|]. rewrite H. assumption. Qed.

Lemma filler_len filler n : length (firstn n (filler ++ repeat 0%N n)) = n.
Proof. rewrite firstn_length, app_length, repeat_length. lia. Qed.

Lemma pad_tail_length s filler tail :
  (length tail < bsz)%nat -> length (pad_tail s filler tail) = bsz.
Proof.
  unfold bsz. intros H. destruct s; unfold pad_tail, bsz;
    repeat (rewrite ?app_length, ?repeat_length, ?filler_len; cbn [length]); lia.
Qed.

Lemma pad_tail_firstn s filler tail : firstn (length tail) (pad_tail s filler tail) = tail.
Proof. destruct s; unfold pad_tail; apply firstn_app_exact. Qed.

(* the count byte and the n-1 bytes before it, seen from the end of the block *)
Lemma count_byte_facts n :
  (1 <= n <= 16)%nat ->
  N.eqb (N.of_nat n) 0 = false /\ N.ltb (N.of_nat 16) (N.of_nat n) = false /\ N.to_nat (N.of_nat n) = n.
Proof.
  intros H. repeat split.
  - apply N.eqb_neq. lia.
  - apply N.ltb_ge. lia.
  - apply Nat2N.id.
Qed.

Lemma raw_unpad_pad_tail s filler tail :
  (length tail < bsz)%nat -> raw_unpad s (pad_tail s filler tail) = Some (length tail).
Proof.
  unfold bsz. intros H.
  pose proof (pad_tail_length s filler tail H) as HL. unfold bsz in HL.
  set (n := (16 - length tail)%nat).
  assert (Hn : (1 <= n <= 16)%nat) by (unfold n; lia).
  destruct (count_byte_facts n Hn) as (Z0 & Z16 & Zid).
  assert (Hn1 : n = S (n - 1)) by lia.
  destruct s.
  - (* PKCS#7 *)
    unfold raw_unpad. rewrite HL. unfold pad_tail, bsz. fold n.
    rewrite rev_app_distr, rev_repeat. rewrite Hn1 at 2. cbn [repeat app].
    rewrite Z0, Z16. cbn [orb]. rewrite Zid, firstn_repeat_app.
    rewrite forallb_repeat by apply N.eqb_refl. f_equal. unfold n. lia.
  - (* ANSI X9.23 *)
    unfold raw_unpad. rewrite HL. unfold pad_tail, bsz. fold n.
    rewrite !rev_app_distr, rev_repeat. cbn [rev app].
    rewrite Z0, Z16. cbn [orb]. rewrite Zid, firstn_repeat_app.
    rewrite forallb_repeat by reflexivity. f_equal. unfold n. lia.
  - (* ISO 7816-4 *)
    unfold raw_unpad, pad_tail, bsz. fold n.
    rewrite rev_app_distr. cbn [rev]. rewrite rev_repeat, <- app_assoc. cbn [app].
    generalize (n - 1)%nat as z. induction z as [|z IH].
    + cbn. rewrite rev_length. reflexivity.
    + cbn [repeat app scan7816]. cbn [N.eqb]. exact IH.
  - (* ISO 10126 *)
    unfold raw_unpad. rewrite HL. unfold pad_tail, bsz. fold n.
    rewrite !rev_app_distr. cbn [rev app].
    rewrite Z0, Z16. cbn [orb]. rewrite Zid. f_equal. unfold n. lia.
Qed.

Lemma full_blocks_facts (m : bytes) :
  let full := (length m - length m mod bsz)%nat in
  length (firstn full m) = full /\ (length (skipn full m) = length m mod bsz)%nat
  /\ (length m mod bsz < bsz)%nat /\ (full mod bsz = 0)%nat.
Proof.
  unfold bsz. cbv zeta.
  pose proof (Nat.mod_upper_bound (length m) 16 ltac:(lia)) as Hlt.
  pose proof (Nat.mod_le (length m) 16 ltac:(lia)) as Hle.
  repeat split.
  - rewrite firstn_length. lia.
  - rewrite skipn_length. lia.
  - exact Hlt.
  - pose proof (Nat.div_mod (length m) 16 ltac:(lia)) as Hdm.
    replace (length m - length m mod 16)%nat with ((length m / 16) * 16)%nat by lia.
    apply Nat.mod_mul. lia.
Qed.

Lemma pad_length s filler m : length (pad s filler m) = padded_len (length m).
Proof.
  unfold pad, padded_len. destruct (full_blocks_facts m) as (Hf & Hs & Hlt & Hz).
  rewrite app_length, Hf, pad_tail_length by (rewrite Hs; exact Hlt).
  unfold bsz in *.
  pose proof (Nat.div_mod (length m) 16 ltac:(lia)). lia.
Qed.

Lemma padded_len_mod n : (padded_len n mod 16 = 0)%nat.
Proof. unfold padded_len, bsz. rewrite Nat.mul_comm. apply Nat.mod_mul. lia. Qed.

Theorem unpad_pad s filler m : unpad s (pad s filler m) = Some m.
Proof.
  destruct (full_blocks_facts m) as (Hf & Hs & Hlt & Hz).
  unfold unpad, pad.
  set (full := (length m - length m mod bsz)%nat) in *.
  set (head := firstn full m) in *. set (tail := skipn full m) in *.
  assert (HT : length (pad_tail s filler tail) = bsz) by (apply pad_tail_length; rewrite Hs; exact Hlt).
  rewrite app_length, HT, Hf.
  replace ((full + bsz) mod bsz)%nat with 0%nat.
  2:{ unfold bsz in *. rewrite <- Nat.add_mod_idemp_l by lia. rewrite Hz. reflexivity. }
  replace (Nat.eqb (full + bsz) 0) with false by (symmetry; apply Nat.eqb_neq; unfold bsz; lia).
  cbn [Nat.eqb negb orb].
  replace (full + bsz - bsz)%nat with (length head) by lia.
  rewrite skipn_app_exact, raw_unpad_pad_tail by (rewrite Hs; exact Hlt).
  rewrite firstn_app. replace (length head + length tail - length head)%nat with (length tail) by lia.
  rewrite pad_tail_firstn.
  rewrite firstn_all2 by lia.
  unfold head, tail. f_equal. apply firstn_skipn.
Qed.

(* unpad never invents data: whatever it accepts is a prefix of what it was given *)
Lemma unpad_prefix s data m : unpad s data = Some m -> exists k, m = firstn k data.
Proof.
  unfold unpad. destruct (_ || _); [discriminate|].
  destruct (raw_unpad s _); [|discriminate]. intros H. inversion H. eexists. reflexivity.
Qed.
