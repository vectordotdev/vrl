(* Proofs about Model/Ip.v: number tokens, dotted-quad text, ip_aton/ip_ntoa, ip_ntop/ip_pton on
   4 bytes, and the IPv4-mapped pair ip_to_ipv6 / ipv6_to_ipv4. *)
From Coq Require Import List NArith ZArith Bool Lia.
From VRL Require Import Base.Bytes Base.Value Model.ConvRes Model.IntText Model.Ip Proofs.IntTextProofs.
Import ListNotations.
Local Open Scope Z_scope.

Definition not_digit_start (radix : Z) (rest : bytes) : Prop :=
  match rest with [] => True | c :: _ => to_digit radix c = None end.

Lemma leading_zero_eqb (c : N) (l : bytes) :
  match c :: l with 48%N :: _ => true | _ => false end = (c =? 48)%N.
Proof. cbv iota. rewrite match_48. destruct (c =? 48)%N; reflexivity. Qed.

Lemma read_digits_app radix maxd : forall s rest acc count v,
  uval radix s acc = Some v -> (count + length s <= maxd)%nat -> not_digit_start radix rest ->
  read_digits radix maxd (s ++ rest) acc count = Some (v, (count + length s)%nat, rest).
Proof.
  induction s as [|c s IH]; intros rest acc count v Hu Hl Hr.
  - cbn [app length] in *. rewrite Nat.add_0_r. inversion Hu; subst.
    destruct rest as [|c r]; cbn [read_digits]; [reflexivity|]. cbn in Hr. rewrite Hr. reflexivity.
  - cbn [app length uval read_digits] in *. destruct (to_digit radix c) as [d|]; [|discriminate].
    replace (Nat.ltb maxd (S count)) with false by (symmetry; apply Nat.ltb_ge; lia).
    rewrite (IH rest _ (S count) v Hu); [f_equal; f_equal; f_equal; lia | lia | exact Hr].
Qed.

(* read_number reads what digits_loop prints (dec_u8 and hex_u16 are instances) *)
Lemma read_number_digits radix maxd allow tmax x rest :
  2 <= radix <= 36 -> (0 < maxd)%nat -> 0 <= x < radix ^ Z.of_nat maxd -> x <= tmax -> not_digit_start radix rest ->
  read_number radix maxd allow tmax (match digits_loop maxd radix x [] with Some s => s | None => [] end ++ rest) = Some (x, rest).
Proof.
  intros Hr Hm Hx Ht Hrest.
  destruct (digits_spec radix Hr maxd x [] Hm Hx) as (s & P & Hs & Hne & Hv).
  rewrite app_nil_r in Hs. specialize (Hv 0). cbn in Hv. rewrite Hs.
  pose proof (digits_loop_length radix maxd x [] s Hs) as Hlen. cbn [length] in Hlen. rewrite Nat.add_0_r in Hlen.
  unfold read_number. rewrite (read_digits_app radix maxd s rest 0 O x Hv Hlen Hrest). cbn [Nat.add].
  destruct s as [|c tl]; [congruence|]. cbn [length Nat.eqb app].
  rewrite (proj2 (Z.leb_le x tmax) Ht), (leading_zero_eqb c (tl ++ rest)).
  (* no zero prefix: the text of 0 is the single digit, every other text starts with a non-zero digit *)
  destruct (Z.eq_dec x 0) as [->|Hnz].
  - destruct maxd as [|f]; [lia|]. rewrite digits_zero in Hs by lia. injection Hs as <- <-.
    rewrite !andb_false_r. reflexivity.
  - destruct (digits_first_nonzero radix Hr maxd x [] (c :: tl) ltac:(lia) Hs) as (c' & tl' & [= <- <-] & Hc%N.eqb_neq).
    rewrite Hc, andb_false_r. reflexivity.
Qed.

Lemma read_dec_u8 n rest :
  0 <= n <= 255 -> not_digit_start 10 rest -> read_number 10 3 false 255 (dec_u8 n ++ rest) = Some (n, rest).
Proof. intros Hn Hr. apply (read_number_digits 10 3 false 255 n rest); try lia; exact Hr. Qed.

Lemma read_hex_u16 g rest :
  0 <= g <= 65535 -> not_digit_start 16 rest -> read_number 16 4 true 65535 (hex_u16 g ++ rest) = Some (g, rest).
Proof. intros Hn Hr. apply (read_number_digits 16 4 true 65535 g rest); try lia; exact Hr. Qed.

Lemma dec_u8_length n : (length (dec_u8 n) <= 3)%nat.
Proof.
  unfold dec_u8. destruct (digits_loop 3 10 n []) eqn:E; [|cbn; lia].
  apply digits_loop_length in E. exact E.
Qed.

Lemma hex_u16_digits g : 0 <= g <= 65535 -> Forall (fun c => to_digit 16 c <> None) (hex_u16 g).
Proof.
  intros Hg. destruct (digits_spec 16 ltac:(lia) 4%nat g []) as (s & P & Hs & _ & Hv); [lia| change (16 ^ Z.of_nat 4) with 65536; lia|].
  rewrite app_nil_r in Hs. unfold hex_u16. rewrite Hs. eapply uval_all_digits. apply (Hv 0).
Qed.

Definition octet (x : Z) : Prop := 0 <= x <= 255.

Lemma ipv4_text_app a b c d rest :
  ipv4_to_string [a; b; c; d] ++ rest =
  dec_u8 a ++ 46%N :: dec_u8 b ++ 46%N :: dec_u8 c ++ 46%N :: dec_u8 d ++ rest.
Proof.
  unfold ipv4_to_string, ch_dot.
  repeat (rewrite <- app_assoc || rewrite <- app_comm_cons). reflexivity.
Qed.

Lemma read_ipv4_text a b c d rest :
  octet a -> octet b -> octet c -> octet d -> not_digit_start 10 rest ->
  read_ipv4_addr (ipv4_to_string [a; b; c; d] ++ rest) = Some ([a; b; c; d], rest).
Proof.
  intros Ha Hb Hc Hd Hr. rewrite ipv4_text_app.
  unfold read_ipv4_addr, read_octet, read_separator.
  rewrite (read_dec_u8 a) by (auto; reflexivity).
  change ((46 =? ch_dot)%N) with true. cbv iota.
  rewrite (read_dec_u8 b) by (auto; reflexivity).
  change ((46 =? ch_dot)%N) with true. cbv iota.
  rewrite (read_dec_u8 c) by (auto; reflexivity).
  change ((46 =? ch_dot)%N) with true. cbv iota.
  rewrite (read_dec_u8 d) by auto. reflexivity.
Qed.

Lemma ipv4_text_length a b c d : (length (ipv4_to_string [a; b; c; d]) <= 15)%nat.
Proof.
  unfold ipv4_to_string. repeat (rewrite app_length || cbn [length]).
  pose proof (dec_u8_length a). pose proof (dec_u8_length b). pose proof (dec_u8_length c). pose proof (dec_u8_length d). lia.
Qed.

Lemma parse_ipv4_text a b c d :
  octet a -> octet b -> octet c -> octet d -> parse_ipv4 (ipv4_to_string [a; b; c; d]) = Some [a; b; c; d].
Proof.
  intros Ha Hb Hc Hd. unfold parse_ipv4.
  rewrite (proj2 (Nat.ltb_ge 15 _) (ipv4_text_length a b c d)).
  rewrite <- (app_nil_r (ipv4_to_string [a; b; c; d])). rewrite read_ipv4_text; auto. exact I.
Qed.

Lemma parse_ip_v4_text a b c d :
  octet a -> octet b -> octet c -> octet d -> parse_ip (ipv4_to_string [a; b; c; d]) = Some (V4 [a; b; c; d]).
Proof.
  intros Ha Hb Hc Hd. unfold parse_ip.
  rewrite <- (app_nil_r (ipv4_to_string [a; b; c; d])). rewrite read_ipv4_text; auto. exact I.
Qed.

(* lia reads div and mod, up to the end of this section only *)
Section DivMod.
Ltac Zify.zify_post_hook ::= Z.div_mod_to_equations.

Lemma octets_of_u32_octets n : 0 <= n < 4294967296 ->
  Forall octet (octets_of_u32 n) /\ u32_of_octets (octets_of_u32 n) = n.
Proof.
  intros Hn. unfold octets_of_u32, u32_of_octets, octet. split; [repeat constructor; lia | lia].
Qed.

Lemma octets_of_u32_of_octets a b c d : octet a -> octet b -> octet c -> octet d ->
  0 <= u32_of_octets [a; b; c; d] < 4294967296 /\ octets_of_u32 (u32_of_octets [a; b; c; d]) = [a; b; c; d].
Proof.
  unfold octet, u32_of_octets, octets_of_u32. intros. split; [lia|].
  repeat f_equal; lia.
Qed.

Lemma ip_ntoa_u32 n : 0 <= n < 4294967296 -> ip_ntoa (VInt n) = ROk (VBytes (ipv4_to_string (octets_of_u32 n))).
Proof. intros Hn. unfold ip_ntoa. rewrite (proj2 (Z.leb_le 0 n)), (proj2 (Z.ltb_lt n _)) by lia. reflexivity. Qed.

Lemma ip_ntoa_octets a b c d : octet a -> octet b -> octet c -> octet d ->
  ip_ntoa (VInt (u32_of_octets [a; b; c; d])) = ROk (VBytes (ipv4_to_string [a; b; c; d])).
Proof.
  intros Ha Hb Hc Hd. destruct (octets_of_u32_of_octets a b c d Ha Hb Hc Hd) as [Hr Ho].
  rewrite ip_ntoa_u32, Ho by exact Hr. reflexivity.
Qed.

Lemma ip_aton_text a b c d : octet a -> octet b -> octet c -> octet d ->
  ip_aton (VBytes (ipv4_to_string [a; b; c; d])) = ROk (VInt (u32_of_octets [a; b; c; d])).
Proof. intros Ha Hb Hc Hd. unfold ip_aton. rewrite parse_ipv4_text by assumption. reflexivity. Qed.

Theorem ntoa_aton_roundtrip n :
  0 <= n < 4294967296 ->
  exists s, ip_ntoa (VInt n) = ROk (VBytes s) /\ ip_aton (VBytes s) = ROk (VInt n).
Proof.
  intros Hn. rewrite ip_ntoa_u32 by exact Hn. eexists. split; [reflexivity|].
  destruct (octets_of_u32_octets n Hn) as [Ho Hu]. rewrite <- Hu at 2. unfold octets_of_u32 in *.
  repeat (apply Forall_cons_iff in Ho as [? Ho]). apply ip_aton_text; assumption.
Qed.

Lemma wf_byte_octet x : (x <? 256)%N = true -> octet (Z.of_N x).
Proof. intros H. apply N.ltb_lt in H. unfold octet. lia. Qed.

Theorem ntop_pton_roundtrip_v4 b :
  length b = 4%nat -> wf_bytes b = true ->
  exists s, ip_ntop (VBytes b) = ROk (VBytes s) /\ ip_pton (VBytes s) = ROk (VBytes b).
Proof.
  intros Hl Hw. destruct b as [|b0 [|b1 [|b2 [|b3 [|? ?]]]]]; try discriminate.
  cbn [wf_bytes forallb] in Hw. repeat (apply andb_true_iff in Hw; destruct Hw as [? Hw]).
  unfold ip_ntop. cbn [length Nat.eqb octets_of_bytes map].
  eexists. split; [reflexivity|].
  unfold ip_pton. rewrite parse_ip_v4_text by (apply wf_byte_octet; assumption).
  unfold bytes_of_octets. cbn [map]. rewrite !N2Z.id. reflexivity.
Qed.

Definition mapped_text (s4 : bytes) : bytes := [58; 58; 102; 102; 102; 102; 58]%N ++ s4.   (* "::ffff:" ++ s4 *)

Lemma read_ipv4_colon s : read_ipv4_addr (58%N :: s) = None.
Proof. reflexivity. Qed.

Lemma read_ipv4_f s : read_ipv4_addr (102%N :: s) = None.
Proof. reflexivity. Qed.

Lemma read_groups_S n' i s :
  read_groups (S n') i s =
  let v4 := if Nat.leb 1 n' then read_separator ch_colon i read_ipv4_addr s else None in
  match v4 with
  | Some ([a; b; c; d], s') => ([a * 256 + b; c * 256 + d], true, s')
  | _ =>
      match read_separator ch_colon i (read_number 16 4 true 65535) s with
      | Some (g, s') => let '(gs, v4', s'') := read_groups n' (S i) s' in (g :: gs, v4', s'')
      | None => ([], false, s)
      end
  end.
Proof. reflexivity. Qed.

Lemma octets_of_segment a b : octet a -> octet b -> (a * 256 + b) / 256 = a /\ (a * 256 + b) mod 256 = b.
Proof. unfold octet. lia. Qed.

Lemma mapped_segments_text a b c d :
  octet a -> octet b -> octet c -> octet d ->
  ipv6_to_string [0; 0; 0; 0; 0; 65535; a * 256 + b; c * 256 + d] = mapped_text (ipv4_to_string [a; b; c; d]).
Proof.
  intros Ha Hb Hc Hd. unfold ipv6_to_string, to_ipv4_mapped. cbn [Z.eqb andb].
  destruct (octets_of_segment a b Ha Hb) as [-> ->], (octets_of_segment c d Hc Hd) as [-> ->]. reflexivity.
Qed.

Lemma parse_ip_mapped_text a b c d :
  octet a -> octet b -> octet c -> octet d ->
  parse_ip (mapped_text (ipv4_to_string [a; b; c; d])) = Some (V6 [0; 0; 0; 0; 0; 65535; a * 256 + b; c * 256 + d]).
Proof.
  intros Ha Hb Hc Hd.
  pose proof (read_ipv4_text a b c d [] Ha Hb Hc Hd I) as H4. rewrite app_nil_r in H4.
  remember (ipv4_to_string [a; b; c; d]) as s4 eqn:E4.
  unfold mapped_text, parse_ip. cbn [app]. rewrite read_ipv4_colon.
  unfold read_ipv6_addr.
  (* head: nothing before the "::" *)
  rewrite read_groups_S. cbn [Nat.leb read_separator]. rewrite read_ipv4_colon. cbv zeta.
  change (read_number 16 4 true 65535 (58%N :: 58%N :: 102%N :: 102%N :: 102%N :: 102%N :: 58%N :: s4)) with (@None (Z * bytes)).
  cbv iota beta. cbn [length Nat.eqb Nat.add Nat.sub].
  (* tail: ffff, then the embedded dotted quad *)
  rewrite read_groups_S. cbn [Nat.leb read_separator]. rewrite read_ipv4_f. cbv zeta.
  change (read_number 16 4 true 65535 (102%N :: 102%N :: 102%N :: 102%N :: 58%N :: s4)) with (Some (65535, 58%N :: s4)).
  cbv iota beta.
  rewrite read_groups_S. cbn [Nat.leb read_separator]. change ((58 =? ch_colon)%N) with true. cbv iota.
  rewrite H4. cbv zeta iota beta. cbn [length Nat.sub repeat app]. reflexivity.
Qed.

Lemma to_ipv4_mapped_segments a b c d :
  octet a -> octet b -> octet c -> octet d ->
  to_ipv4 [0; 0; 0; 0; 0; 65535; a * 256 + b; c * 256 + d] = Some [a; b; c; d].
Proof.
  intros Ha Hb Hc Hd. unfold to_ipv4. cbn [Z.eqb orb andb].
  destruct (octets_of_segment a b Ha Hb) as [-> ->], (octets_of_segment c d Hc Hd) as [-> ->]. reflexivity.
Qed.

(* both compositions at once: a.b.c.d -> ::ffff:a.b.c.d -> a.b.c.d -> ::ffff:a.b.c.d *)
Theorem mapped_roundtrip a b c d :
  octet a -> octet b -> octet c -> octet d ->
  let s4 := ipv4_to_string [a; b; c; d] in
  ip_to_ipv6 (VBytes s4) = ROk (VBytes (mapped_text s4)) /\ ipv6_to_ipv4 (VBytes (mapped_text s4)) = ROk (VBytes s4).
Proof.
  intros Ha Hb Hc Hd s4. subst s4. split.
  - unfold ip_to_ipv6. rewrite parse_ip_v4_text by assumption. cbn [to_ipv6_mapped].
    rewrite mapped_segments_text by assumption. reflexivity.
  - unfold ipv6_to_ipv4. rewrite parse_ip_mapped_text by assumption.
    rewrite to_ipv4_mapped_segments by assumption. reflexivity.
Qed.
End DivMod.
