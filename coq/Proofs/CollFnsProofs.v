(* Proofs about Model/CollFns.v (C28): unique, compact, keys/values/length, merge, push, flatten. *)
From Coq Require Import List NArith ZArith Bool Lia Wf_nat.
From Coq Require Import Floats.SpecFloat.
From VRL Require Import Base.Bytes Base.Value Model.StrFns Model.CollFns Proofs.ListFacts.
Import ListNotations.

Lemma float_eq_refl f : float_eq f f = true.
Proof. destruct f; cbn; auto; try apply Bool.eqb_reflx. rewrite Bool.eqb_reflx, Pos.eqb_refl, Z.eqb_refl. reflexivity. Qed.

Lemma float_eq_sym a b : float_eq a b = float_eq b a.
Proof.
  destruct a, b; cbn; auto.
  - destruct s, s0; reflexivity.
  - rewrite (Pos.eqb_sym m m0), (Z.eqb_sym e e0). destruct s, s0; reflexivity.
Qed.

Lemma veq_refl a : veq a a = true.
Proof.
  induction a using value_ind'; cbn [veq]; auto using bytes_eqb_refl, Z.eqb_refl, float_eq_refl.
  - destruct b; reflexivity.
  - induction H as [|[k v] r Hv _ IH]; [reflexivity|]. cbn [snd] in Hv. rewrite bytes_eqb_refl, Hv. exact IH.
  - induction H as [|v r Hv _ IH]; [reflexivity|]. rewrite Hv. exact IH.
Qed.

Lemma veq_sym a : forall b, veq a b = veq b a.
Proof.
  induction a using value_ind'; intros [ ]; cbn [veq]; auto using bytes_eqb_sym, Z.eqb_sym, float_eq_sym.
  - destruct b, b0; reflexivity.
  - rename kvs0 into l2. revert l2.
    induction H as [|[k1 v1] r1 Hv _ IH]; intros [|[k2 v2] r2]; try reflexivity.
    cbn [snd] in Hv. rewrite (bytes_eqb_sym k1 k2), (Hv v2), (IH r2). reflexivity.
  - rename vs0 into l2. revert l2.
    induction H as [|v1 r1 Hv _ IH]; intros [|v2 r2]; try reflexivity.
    rewrite (Hv v2), (IH r2). reflexivity.
Qed.

Definition memv (x : value) (l : list value) : bool := existsb (veq x) l.

(* no element is veq to an earlier one *)
Fixpoint nodupv (l : list value) : Prop :=
  match l with
  | [] => True
  | x :: r => (forall y, In y r -> veq y x = false) /\ nodupv r
  end.

(* first occurrences, in order: the head is kept and everything equal to it is dropped from the rest *)
Lemma fold_uniq_cons l : forall acc x,
  fold_left uniq_step l (x :: acc) = x :: fold_left uniq_step (filter (fun y => negb (veq y x)) l) acc.
Proof.
  induction l as [|y l IH]; intros acc x; [reflexivity|].
  cbn [fold_left filter]. unfold uniq_step at 2. cbn [existsb].
  destruct (veq y x) eqn:E; cbn [negb orb].
  - apply IH.
  - cbn [fold_left]. unfold uniq_step at 3. destruct (existsb (veq y) acc); [apply IH|].
    rewrite <- IH. reflexivity.
Qed.

Theorem unique_first_occurrence x l :
  unique_list (x :: l) = x :: unique_list (filter (fun y => negb (veq y x)) l).
Proof. unfold unique_list. cbn [fold_left]. unfold uniq_step at 2. cbn [existsb app]. apply fold_uniq_cons. Qed.

(* that equation determines unique_list; what follows is by induction along it *)
Lemma unique_ind (P : list value -> Prop) :
  P [] -> (forall x l, P (filter (fun y => negb (veq y x)) l) -> P (x :: l)) -> forall l, P l.
Proof.
  intros H0 Hstep l. induction l as [l IH] using (induction_ltof1 _ (@length value)).
  destruct l as [|x l]; [exact H0|]. apply Hstep, IH. unfold ltof. cbn [length].
  pose proof (filter_length_le (fun y => negb (veq y x)) l). lia.
Qed.

Theorem unique_sound l : forall y, In y (unique_list l) -> In y l.
Proof.
  induction l as [|x l IH] using unique_ind; intros y; [intros []|]. rewrite unique_first_occurrence.
  intros [<-|H]; [left; reflexivity|]. right. apply IH, filter_In in H. apply H.
Qed.

Theorem unique_nodup l : nodupv (unique_list l).
Proof.
  induction l as [|x l IH] using unique_ind; [exact I|]. rewrite unique_first_occurrence. split; [|exact IH].
  intros y Hy. apply unique_sound, filter_In in Hy. apply negb_true_iff, Hy.
Qed.

Theorem unique_complete l : forall x, In x l -> memv x (unique_list l) = true.
Proof.
  induction l as [|a l IH] using unique_ind; intros x Hx; [destruct Hx|].
  rewrite unique_first_occurrence. cbn [memv existsb]. destruct (veq x a) eqn:E; [reflexivity|].
  apply IH, filter_In. rewrite E. split; [|reflexivity].
  destruct Hx as [->|Hx]; [rewrite veq_refl in E; discriminate | exact Hx].
Qed.

Lemma filter_veq_id x u : (forall y, In y u -> veq y x = false) -> filter (fun y => negb (veq y x)) u = u.
Proof.
  induction u as [|y u IH]; intros H; [reflexivity|].
  cbn [filter]. rewrite (H y) by (left; reflexivity). cbn [negb]. f_equal. apply IH. intros z Hz. apply H. right; exact Hz.
Qed.

Lemma unique_fixed u : nodupv u -> unique_list u = u.
Proof.
  induction u as [|x u IH]; [reflexivity|]. intros [Hx Hu].
  rewrite unique_first_occurrence, filter_veq_id by exact Hx. f_equal. apply IH, Hu.
Qed.

Definition recur (o : compact_opts) (x : value) : value := if co_recursive o then compact_val o x else x.
Definition keep (o : compact_opts) (y : value) : bool := negb (is_empty_for o y).

Theorem compact_arr_spec o a :
  compact_val o (VArr a) = VArr (filter (keep o) (map (recur o) a)).
Proof.
  cbn [compact_val]. f_equal. induction a as [|x a IH]; [reflexivity|].
  cbn [map filter]. unfold keep at 1, recur at 1. rewrite IH. destruct (is_empty_for o _); reflexivity.
Qed.

Theorem compact_obj_spec o m :
  compact_val o (VObj m) =
  VObj (filter (fun kv => keep o (snd kv)) (map (fun kv => (fst kv, recur o (snd kv))) m)).
Proof.
  cbn [compact_val]. f_equal. induction m as [|[k x] m IH]; [reflexivity|].
  cbn [map filter fst snd]. unfold keep at 1, recur at 1. rewrite IH. destruct (is_empty_for o _); reflexivity.
Qed.

Lemma compact_scalar o v : (forall a, v <> VArr a) -> (forall m, v <> VObj m) -> compact_val o v = v.
Proof. destruct v; intros Ha Hm; try reflexivity; [exfalso; eapply Hm | exfalso; eapply Ha]; reflexivity. Qed.

(* "clean": nothing configured-empty inside (at every depth when recursive) *)
Fixpoint clean (o : compact_opts) (v : value) {struct v} : Prop :=
  match v with
  | VArr a => (fix go (l : list value) : Prop :=
                 match l with
                 | [] => True
                 | x :: r => is_empty_for o x = false /\ (co_recursive o = true -> clean o x) /\ go r
                 end) a
  | VObj m => (fix go (l : list (bytes * value)) : Prop :=
                 match l with
                 | [] => True
                 | (_, x) :: r => is_empty_for o x = false /\ (co_recursive o = true -> clean o x) /\ go r
                 end) m
  | _ => True
  end.

(* what clean asks of one item of an array or object *)
Definition item_clean (o : compact_opts) (x : value) : Prop :=
  is_empty_for o x = false /\ (co_recursive o = true -> clean o x).

Lemma clean_arr o a : clean o (VArr a) <-> Forall (item_clean o) a.
Proof.
  cbn [clean]. induction a as [|x a IH]; [split; constructor|].
  rewrite Forall_cons_iff, <- IH. unfold item_clean. tauto.
Qed.

Lemma clean_obj o m : clean o (VObj m) <-> Forall (fun kv => item_clean o (snd kv)) m.
Proof.
  cbn [clean]. induction m as [|[k x] m IH]; [split; constructor|].
  rewrite Forall_cons_iff, <- IH. unfold item_clean. cbn [snd]. tauto.
Qed.

Lemma recur_clean o x : clean o (compact_val o x) -> keep o (recur o x) = true -> item_clean o (recur o x).
Proof. intros Hx K%negb_true_iff. split; [exact K|]. intros Hr. unfold recur. rewrite Hr. exact Hx. Qed.

Lemma recur_id o x : (clean o x -> compact_val o x = x) -> item_clean o x -> recur o x = x /\ keep o x = true.
Proof.
  intros Hx [E C]. unfold recur, keep. rewrite E. split; [|reflexivity].
  destruct (co_recursive o); [apply Hx, C; reflexivity | reflexivity].
Qed.

Theorem compact_clean o v : clean o (compact_val o v).
Proof.
  induction v using value_ind'; try exact I.
  - rewrite compact_obj_spec. apply clean_obj, Forall_filter_map.
    eapply Forall_impl; [|exact H]. intros [k x]. apply recur_clean.
  - rewrite compact_arr_spec. apply clean_arr, Forall_filter_map.
    eapply Forall_impl; [|exact H]. intros x. apply recur_clean.
Qed.

Theorem compact_clean_id o v : clean o v -> compact_val o v = v.
Proof.
  induction v using value_ind'; try reflexivity; rewrite Forall_forall in H.
  - intros Hc%clean_obj. rewrite Forall_forall in Hc. rewrite compact_obj_spec. f_equal.
    apply filter_map_id, Forall_forall. intros [k x] Hin.
    destruct (recur_id o x (H _ Hin) (Hc _ Hin)) as [E K]. cbn [fst snd]. rewrite E. split; [reflexivity | exact K].
  - intros Hc%clean_arr. rewrite Forall_forall in Hc. rewrite compact_arr_spec. f_equal.
    apply filter_map_id, Forall_forall. intros x Hin. exact (recur_id o x (H _ Hin) (Hc _ Hin)).
Qed.

Theorem keys_values_length m :
  exists ks vs, fn_keys (VObj m) = ROk (VArr ks) /\ fn_values (VObj m) = ROk (VArr vs)
    /\ fn_length (VObj m) = ROk (VInt (Z.of_nat (length m)))
    /\ length ks = length m /\ length vs = length m
    /\ ks = map (fun kv => VBytes (fst kv)) m /\ vs = map snd m
    /\ (forall i k v, nth_error m i = Some (k, v) -> nth_error ks i = Some (VBytes k) /\ nth_error vs i = Some v).
Proof.
  eexists; eexists. repeat split; try reflexivity; try apply map_length.
  - rewrite nth_error_map, H. reflexivity.
  - rewrite nth_error_map, H. reflexivity.
Qed.

Definition merge_go (deep : bool) :=
  fix go (m1 : obj) (l : list (bytes * value)) {struct l} : obj :=
    match l with
    | [] => m1
    | (k, x) :: r =>
        go (match deep, obj_get m1 k, x with
            | true, Some (VObj c1), VObj _ => obj_set m1 k (VObj (merge_into deep c1 x))
            | _, _, _ => obj_set m1 k x
            end) r
    end.

Lemma merge_into_obj deep m1 m2 : merge_into deep m1 (VObj m2) = merge_go deep m1 m2.
Proof. reflexivity. Qed.

(* what a single entry (k, x) of `from` does to the field k of `to` *)
Definition merged_field (deep : bool) (old : option value) (x : value) : value :=
  match deep, old, x with
  | true, Some (VObj c1), VObj _ => VObj (merge_into deep c1 x)
  | _, _, _ => x
  end.

Lemma merge_go_cons deep m1 k x r :
  merge_go deep m1 ((k, x) :: r) = merge_go deep (obj_set m1 k (merged_field deep (obj_get m1 k) x)) r.
Proof.
  cbn [merge_go]. fold (merge_go deep). f_equal. unfold merged_field. destruct deep; [|reflexivity].
  destruct (obj_get m1 k) as [[ ]|]; try reflexivity. destruct x; reflexivity.
Qed.

(* merge(a, b): b's value on b's keys (merged recursively when deep and both sides are objects), a's elsewhere;
   the keys of `from` are unique (it is a BTreeMap) *)
Theorem merge_right_bias deep m1 m2 k : NoDup (map fst m2) ->
  obj_get (merge_into deep m1 (VObj m2)) k =
  match obj_get m2 k with
  | Some x => Some (merged_field deep (obj_get m1 k) x)
  | None => obj_get m1 k
  end.
Proof.
  rewrite merge_into_obj. revert m1. induction m2 as [|[k2 x] m2 IH]; intros m1 Hnd; [reflexivity|].
  rewrite merge_go_cons. inversion_clear Hnd as [|? ? Hnotin Hnd']. rewrite IH by exact Hnd'.
  cbn [obj_get]. destruct (bytes_eqb k2 k) eqn:E.
  - apply bytes_eqb_eq in E as ->. rewrite (obj_get_notin m2 k Hnotin). apply obj_get_set_same.
  - rewrite obj_get_set_other; [reflexivity|]. intros ->. rewrite bytes_eqb_refl in E. discriminate.
Qed.

Theorem push_spec l x : exists r, fn_push (VArr l) x = ROk (VArr r) /\ length r = S (length l)
  /\ nth_error r (length l) = Some x /\ forall i, (i < length l)%nat -> nth_error r i = nth_error l i.
Proof.
  exists (l ++ [x]). repeat split.
  - rewrite app_length. cbn. lia.
  - rewrite nth_error_app2 by lia. rewrite Nat.sub_diag. reflexivity.
  - intros i Hi. apply nth_error_app1; exact Hi.
Qed.

Definition not_array (v : value) : Prop := match v with VArr _ => False | _ => True end.

Lemma flat_items_arr l : flat_items (VArr l) = flat_map flat_items l.
Proof. cbn [flat_items]. induction l as [|x l IH]; [reflexivity|]. cbn [flat_map]. rewrite IH. reflexivity. Qed.

Theorem flatten_no_arrays v : Forall not_array (flat_items v).
Proof.
  induction v using value_ind'; try (repeat constructor).
  rewrite flat_items_arr. induction H as [|x l Hx _ IH]; [constructor|].
  cbn [flat_map]. apply Forall_app; split; assumption.
Qed.

Lemma flat_items_flat l : Forall not_array l -> flat_map flat_items l = l.
Proof.
  induction 1 as [|x l Hx _ IH]; [reflexivity|]. cbn [flat_map]. rewrite IH.
  destruct x; try reflexivity. contradiction.
Qed.

Theorem flatten_idem l : flat_items (VArr (flat_items (VArr l))) = flat_items (VArr l).
Proof. rewrite (flat_items_arr (flat_items (VArr l))). apply flat_items_flat, flatten_no_arrays. Qed.
