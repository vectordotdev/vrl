(* Induction principle for the nested inductive `expr`. *)
From Coq Require Import List.
From VRL Require Import Base.Bytes Model.Expr.
Import ListNotations.

Definition opt_holds {A} (Q : A -> Prop) (o : option A) : Prop :=
  match o with Some a => Q a | None => True end.

Section expr_ind_nested.
  Variable P : expr -> Prop.
  Hypothesis HLit : forall v, P (ELit v).
  Hypothesis HVar : forall x, P (EVar x).
  Hypothesis HQExt : forall pfx p, P (EQExt pfx p).
  Hypothesis HQVar : forall x p, P (EQVar x p).
  Hypothesis HQExpr : forall e p, P e -> P (EQExpr e p).
  Hypothesis HArr : forall es, Forall P es -> P (EArr es).
  Hypothesis HObj : forall kvs, Forall (fun kv => P (snd kv)) kvs -> P (EObj kvs).
  Hypothesis HBlock : forall es, Forall P es -> P (EBlock es).
  Hypothesis HGroup : forall e, P e -> P (EGroup e).
  Hypothesis HIf : forall c t f, Forall P c -> Forall P t -> opt_holds (Forall P) f -> P (EIf c t f).
  Hypothesis HOp : forall o a b, P a -> P b -> P (EOp o a b).
  Hypothesis HNot : forall e, P e -> P (ENot e).
  Hypothesis HAssign : forall t e, P e -> P (EAssign t e).
  Hypothesis HAssignInf : forall ok er e d, P e -> P (EAssignInf ok er e d).
  Hypothesis HAbort : forall m, opt_holds P m -> P (EAbort m).
  Hypothesis HReturn : forall e, P e -> P (EReturn e).
  Hypothesis HCall : forall f args, Forall P args -> P (ECall f args).
  Hypothesis HDelExt : forall pfx p c, P (EDelExt pfx p c).
  Hypothesis HDelVar : forall x p c, P (EDelVar x p c).
  Hypothesis HExistsExt : forall pfx p, P (EExistsExt pfx p).
  Hypothesis HExistsVar : forall x p, P (EExistsVar x p).
  Hypothesis HClosure : forall cf arg ps body, P arg -> Forall P body -> P (EClosure cf arg ps body).

  Fixpoint expr_ind' (e : expr) : P e :=
    let fl := fix fl (l : list expr) : Forall P l :=
                match l with
                | [] => Forall_nil _
                | x :: r => Forall_cons x (expr_ind' x) (fl r)
                end in
    match e with
    | ELit v => HLit v
    | EVar x => HVar x
    | EQExt pfx p => HQExt pfx p
    | EQVar x p => HQVar x p
    | EQExpr e1 p => HQExpr e1 p (expr_ind' e1)
    | EArr es => HArr es (fl es)
    | EObj kvs =>
        HObj kvs ((fix go (l : list (bytes * expr)) : Forall (fun kv => P (snd kv)) l :=
                     match l with
                     | [] => Forall_nil _
                     | kv :: r => Forall_cons kv (expr_ind' (snd kv)) (go r)
                     end) kvs)
    | EBlock es => HBlock es (fl es)
    | EGroup e1 => HGroup e1 (expr_ind' e1)
    | EIf c t f =>
        HIf c t f (fl c) (fl t)
            (match f as f0 return opt_holds (Forall P) f0 with
             | Some fb => fl fb
             | None => I
             end)
    | EOp o a b => HOp o a b (expr_ind' a) (expr_ind' b)
    | ENot e1 => HNot e1 (expr_ind' e1)
    | EAssign t e1 => HAssign t e1 (expr_ind' e1)
    | EAssignInf ok er e1 d => HAssignInf ok er e1 d (expr_ind' e1)
    | EAbort m =>
        HAbort m (match m as m0 return opt_holds P m0 with
                  | Some e1 => expr_ind' e1
                  | None => I
                  end)
    | EReturn e1 => HReturn e1 (expr_ind' e1)
    | ECall f args => HCall f args (fl args)
    | EDelExt pfx p c => HDelExt pfx p c
    | EDelVar x p c => HDelVar x p c
    | EExistsExt pfx p => HExistsExt pfx p
    | EExistsVar x p => HExistsVar x p
    | EClosure cf arg ps body => HClosure cf arg ps body (expr_ind' arg) (fl body)
    end.
End expr_ind_nested.
