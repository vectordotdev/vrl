(* C24 — proofs about Model/KeyValue.v: the encode_key_value / parse_key_value round trip. *)
From Coq Require Import List NArith Bool Lia Arith.
From VRL Require Import Base.Bytes Model.KeyValue Proofs.ListFacts.
Import ListNotations.
Local Open Scope N_scope.

Lemma has_false_iff c s : has c s = false <-> forall x, In x s -> x <> c.
Proof. unfold has. rewrite existsb_false_iff. split; intros H x Hx; apply N.eqb_neq, H, Hx. Qed.

Lemma has_cons c y s : has c (y :: s) = (y =? c) || has c s.
Proof. reflexivity. Qed.

Lemma has_app c a b : has c (a ++ b) = has c a || has c b.
Proof. unfold has. apply existsb_app. Qed.

Lemma strip_prefix_app p s : strip_prefix p (p ++ s) = Some s.
Proof. induction p as [|x p IH]; cbn; auto. rewrite N.eqb_refl. exact IH. Qed.

Lemma strip_prefix_head_ne c p x s : x <> c -> strip_prefix (c :: p) (x :: s) = None.
Proof. intros H. cbn. destruct (c =? x) eqn:E; auto. apply N.eqb_eq in E. congruence. Qed.

Lemma take_until_found pat s r : strip_prefix pat s = Some r -> take_until pat s = Some ([], s).
Proof. intros H. destruct s; cbn [take_until]; rewrite H; reflexivity. Qed.

Lemma take_until_step pat x s :
  strip_prefix pat (x :: s) = None ->
  take_until pat (x :: s) = match take_until pat s with Some (a, b) => Some (x :: a, b) | None => None end.
Proof. intros H. cbn [take_until]. rewrite H. reflexivity. Qed.

(* characters other than the first one of the pattern are stepped over *)
Lemma take_until_skip c p k t : has c k = false ->
  take_until (c :: p) (k ++ t) = match take_until (c :: p) t with Some (a, b) => Some (k ++ a, b) | None => None end.
Proof.
  induction k as [|x k IH]; intros H; cbn [app].
  - destruct (take_until (c :: p) t) as [[a b]|]; reflexivity.
  - rewrite has_cons in H. apply orb_false_iff in H as [Hx Hk]. apply N.eqb_neq in Hx.
    rewrite take_until_step, (IH Hk) by (apply strip_prefix_head_ne; exact Hx).
    destruct (take_until (c :: p) t) as [[a b]|]; reflexivity.
Qed.

Lemma contains_nohead c p k : has c k = false -> contains (c :: p) k = false.
Proof. intros H. unfold contains. rewrite <- (app_nil_r k), take_until_skip by exact H. reflexivity. Qed.

Lemma is_sptab_ws c : is_sptab c = true -> is_ws c = true.
Proof.
  unfold is_sptab, is_ws, c_sp, c_tab. rewrite orb_true_iff, !N.eqb_eq. intros [->| ->]; reflexivity.
Qed.

Definition no_ws (s : str) : Prop := forall x, In x s -> is_ws x = false.

Lemma trim_start_head x s : is_ws x = false -> trim_start (x :: s) = x :: s.
Proof. intros H. cbn. rewrite H. reflexivity. Qed.

Lemma trim_no_ws s : no_ws s -> trim s = s.
Proof.
  intros H. unfold trim, trim_end.
  assert (E1 : trim_start s = s).
  { destruct s as [|x s]; auto. apply trim_start_head, H; left; auto. }
  rewrite E1.
  assert (E2 : trim_start (rev s) = rev s).
  { destruct (rev s) as [|x r] eqn:E; auto. apply trim_start_head, H.
    apply in_rev. rewrite E. left; auto. }
  rewrite E2. apply rev_involutive.
Qed.

Lemma space0_head x s : is_sptab x = false -> space0 (x :: s) = x :: s.
Proof. intros H. cbn. rewrite H. reflexivity. Qed.

Lemma many_sp_head x s : x <> c_sp -> many_sp (x :: s) = x :: s.
Proof. intros H. cbn. apply N.eqb_neq in H. rewrite H. reflexivity. Qed.

Lemma unq_spec s :
  unq s = true <-> forall x, In x s -> is_ws x = false /\ x <> c_dq /\ x <> c_eq.
Proof.
  unfold unq, needs_quoting. rewrite negb_true_iff, existsb_false_iff.
  split; intros H x Hx; specialize (H x Hx); rewrite !orb_false_iff, !N.eqb_neq in *; tauto.
Qed.

Lemma unq_no_ws s : unq s = true -> no_ws s.
Proof. intros H x Hx. apply (proj1 (unq_spec s) H x Hx). Qed.

Lemma escape_body_id s :
  (forall x, In x s -> x <> c_bs /\ x <> c_dq /\ x <> c_nl) -> escape_body s = s.
Proof.
  induction s as [|y s IH]; intros H; auto.
  unfold escape_body in *. cbn [flat_map]. rewrite IH by (intros x Hx; apply H; right; auto).
  destruct (H y (or_introl eq_refl)) as (A & B & C).
  unfold esc_char. apply N.eqb_neq in A, B, C. rewrite A, B, C. reflexivity.
Qed.

Lemma encode_string_unq s : unq s = true -> has c_bs s = false -> encode_string s = s.
Proof.
  intros U B. unfold encode_string. pose proof U as Q. unfold unq in Q. apply negb_true_iff in Q. rewrite Q.
  apply escape_body_id. intros x Hx. destruct (proj1 (unq_spec s) U x Hx) as (W & D & _).
  repeat split; [apply (proj1 (has_false_iff c_bs s) B x Hx) | exact D | intros ->; discriminate W].
Qed.

(* the scanner steps over the encoding of one character *)
Lemma esc_go_char y r :
  esc_go c_dq (esc_char y ++ r)
  = match esc_go c_dq r with Some (a, b) => Some (esc_char y ++ a, b) | None => None end.
Proof.
  unfold esc_char. destruct (y =? c_bs) eqn:E1; [|destruct (y =? c_dq) eqn:E2; [|destruct (y =? c_nl)]];
    cbn [app esc_go]; rewrite ?E1, ?E2; cbn; destruct (esc_go c_dq r) as [[a b]|]; reflexivity.
Qed.

Lemma esc_go_body s rest :
  esc_go c_dq (escape_body s ++ c_dq :: rest) = Some (escape_body s, c_dq :: rest).
Proof.
  induction s as [|y s IH]; [reflexivity|].
  unfold escape_body in *. cbn [flat_map]. rewrite <- app_assoc, esc_go_char, IH. reflexivity.
Qed.

Lemma escape_body_nonempty s : s <> [] -> escape_body s <> [].
Proof.
  destruct s as [|y s]; [congruence|]. intros _. unfold escape_body. cbn [flat_map]. unfold esc_char.
  destruct (y =? c_bs); [discriminate|]. destruct (y =? c_dq); [discriminate|].
  destruct (y =? c_nl); discriminate.
Qed.

Lemma escaped_body s rest :
  s <> [] -> escaped c_dq (escape_body s ++ c_dq :: rest) = Some (escape_body s, c_dq :: rest).
Proof.
  intros H. unfold escaped. rewrite esc_go_body.
  destruct (escape_body s) eqn:E; [apply escape_body_nonempty in H; congruence | reflexivity].
Qed.

Lemma unescape_no_bs t : has c_bs t = false -> unescape t = t.
Proof.
  induction t as [|y t IH]; intros H; auto.
  rewrite has_cons in H. apply orb_false_iff in H as [A B].
  cbn [unescape]. rewrite A. rewrite IH; auto.
Qed.

Lemma unescape_char y r : y <> c_nl -> unescape (esc_char y ++ r) = y :: unescape r.
Proof.
  intros Hy. unfold esc_char.
  destruct (N.eqb_spec y c_bs) as [->|Hb]; [reflexivity|]. destruct (N.eqb_spec y c_dq) as [->|_]; [reflexivity|].
  rewrite (proj2 (N.eqb_neq y c_nl) Hy). cbn [app unescape]. rewrite (proj2 (N.eqb_neq y c_bs) Hb). reflexivity.
Qed.

Lemma unescape_body s : has c_nl s = false -> unescape (escape_body s) = s.
Proof.
  induction s as [|y s IH]; [reflexivity|]. rewrite has_cons, orb_false_iff, N.eqb_neq. intros [A B].
  unfold escape_body in *. cbn [flat_map]. rewrite unescape_char, IH by assumption. reflexivity.
Qed.

Lemma escape_str_body s : has c_nl s = false -> escape_str (escape_body s) = s.
Proof.
  intros H. unfold escape_str.
  destruct (existsb (fun c => c =? c_bs) (escape_body s)) eqn:E; [|rewrite <- (unescape_no_bs _ E)];
    apply unescape_body, H.
Qed.

(* what may follow a quoted string: the terminator, or only spaces/tabs up to the end *)
Definition term_ok (term rest : str) : Prop :=
  parse_field_delimiter term rest <> None \/ space0 rest = [].

Lemma parse_delimited_quoted term s rest :
  s <> [] -> has c_nl s = false -> term_ok term rest ->
  parse_delimited c_dq term (c_dq :: escape_body s ++ c_dq :: rest) = Some (s, rest).
Proof.
  intros Hs Hn Ht. unfold parse_delimited. rewrite N.eqb_refl.
  rewrite escaped_body by auto. rewrite escape_str_body by auto. rewrite N.eqb_refl.
  destruct (parse_field_delimiter term rest) eqn:E; auto.
  destruct Ht as [Ht|Ht]; [congruence|]. rewrite Ht. reflexivity.
Qed.

Lemma parse_delimited_head_ne delim term x s : x <> delim -> parse_delimited delim term (x :: s) = None.
Proof. intros H. unfold parse_delimited. apply N.eqb_neq in H. rewrite H. reflexivity. Qed.

(* a field delimiter the parser finds again: a single space, or one that does not begin with a space *)
Definition fd_ok (f : N) (fd' : str) : Prop :=
  f :: fd' = [c_sp] \/ (str_eqb (f :: fd') [c_sp] = false /\ f <> c_sp).

Lemma sptab_fd_ok k kvd' : is_sptab k = false -> fd_ok k kvd'.
Proof.
  intros H. assert (Hk : k <> c_sp) by (intros ->; discriminate H). right. split; [|exact Hk].
  cbn. apply N.eqb_neq in Hk. rewrite Hk. reflexivity.
Qed.

Lemma good_delims_spec kvd fd :
  good_delims kvd fd = true ->
  exists k kvd' f fd', kvd = k :: kvd' /\ fd = f :: fd' /\ is_sptab k = false /\ fd_ok f fd'.
Proof.
  unfold good_delims. destruct kvd as [|k kvd']; [discriminate|]. destruct fd as [|f fd']; [discriminate|].
  rewrite andb_true_iff, negb_true_iff, orb_true_iff. intros [A B].
  exists k, kvd', f, fd'. repeat split; auto.
  destruct (str_eqb (f :: fd') [c_sp]) eqn:E.
  - left. apply bytes_eqb_eq; auto.
  - right. split; auto. destruct B as [B|B]; [discriminate|]. apply negb_true_iff, N.eqb_neq in B. auto.
Qed.

Lemma pfd_app f fd' more :
  fd_ok f fd' ->
  parse_field_delimiter (f :: fd') ((f :: fd') ++ more)
  = Some (if str_eqb (f :: fd') [c_sp] then many_sp more else more).
Proof.
  unfold parse_field_delimiter. intros [[= -> ->]|[E Hf]]; [reflexivity|].
  rewrite E. cbn [app]. rewrite many_sp_head by exact Hf. apply (strip_prefix_app (f :: fd')).
Qed.

Lemma pfd_self f fd' s :
  fd_ok f fd' -> many_sp s = s -> parse_field_delimiter (f :: fd') ((f :: fd') ++ s) = Some s.
Proof. intros H Hs. rewrite pfd_app, Hs by exact H. destruct (str_eqb _ _); reflexivity. Qed.

Lemma pfd_nil fd : fd <> [] -> parse_field_delimiter fd [] = None.
Proof.
  intros H. unfold parse_field_delimiter. destruct (str_eqb fd [c_sp]); auto.
  destruct fd; [congruence | reflexivity].
Qed.

(* what follows an encoded value: the end of the text, or the field delimiter *)
Definition ends_field (fd tail : str) : Prop := tail = [] \/ exists more, tail = fd ++ more.

(* what kv_safe + nonempty_strings say about one string; `heads` = the first characters of the delimiters
   that must not occur in it when it is left unquoted *)
Definition str_ok (heads : list N) (s : str) : Prop :=
  s <> [] /\ has c_nl s = false /\
  (unq s = true -> has c_bs s = false /\ head_is c_sq s = false /\ forall h, In h heads -> has h s = false).

(* a string that stays unquoted and avoids the backslash, a leading single quote and the delimiter head *)
Lemma unq_str_ok h v :
  v <> [] -> unq v = true -> has c_bs v = false -> head_is c_sq v = false -> has h v = false -> str_ok [h] v.
Proof.
  intros Hne Hu Hb Hs Hf. split; [exact Hne|]. split.
  - apply has_false_iff. intros x Hx ->. discriminate (unq_no_ws v Hu _ Hx).
  - intros _. repeat split; auto. intros h' [<-|[]]; exact Hf.
Qed.

Lemma no_ws_not_sptab x : is_ws x = false -> is_sptab x = false /\ x <> c_sp.
Proof.
  intros H. split.
  - destruct (is_sptab x) eqn:E; auto. apply is_sptab_ws in E. congruence.
  - intros ->. discriminate H.
Qed.

(* the two forms of an encoded string: quoted, or left as it is; in the second case it has no whitespace, none
   of the delimiter heads, and begins with neither kind of quote *)
Lemma enc_cases heads s : str_ok heads s ->
  encode_string s = c_dq :: escape_body s ++ [c_dq] \/
  (encode_string s = s /\ no_ws s /\ (forall h, In h heads -> has h s = false)
   /\ exists x t, s = x :: t /\ x <> c_sq /\ x <> c_dq).
Proof.
  intros (Hne & _ & Hu). destruct (needs_quoting s) eqn:Q; [left; unfold encode_string; rewrite Q; reflexivity|].
  assert (U : unq s = true) by (unfold unq; rewrite Q; reflexivity).
  destruct (Hu U) as (B & S & Hh). right. repeat split; auto using encode_string_unq, unq_no_ws.
  destruct s as [|x t]; [congruence|]. exists x, t. repeat split.
  - apply N.eqb_neq, S.
  - apply (proj1 (unq_spec _) U x), in_eq.
Qed.

(* an encoded string does not begin with a space or a tab *)
Lemma enc_no_space heads s r : str_ok heads s ->
  space0 (encode_string s ++ r) = encode_string s ++ r /\ many_sp (encode_string s ++ r) = encode_string s ++ r.
Proof.
  intros H. destruct (enc_cases _ _ H) as [->|(-> & Hw & _ & x & t & -> & _)]; [split; reflexivity|].
  destruct (no_ws_not_sptab x (Hw x (in_eq _ _))) as [Hx Hsp].
  split; [exact (space0_head x _ Hx) | exact (many_sp_head x _ Hsp)].
Qed.

Lemma field_no_space heads kvd k v r :
  str_ok heads k -> many_sp (encode_field kvd k v ++ r) = encode_field kvd k v ++ r.
Proof. intros H. unfold encode_field. rewrite <- app_assoc. apply (enc_no_space _ _ _ H). Qed.

Lemma parse_undelimited_enc c p k tail :
  has c k = false -> no_ws k -> ends_field (c :: p) tail -> parse_undelimited (c :: p) (k ++ tail) = (k, tail).
Proof.
  intros Hc Hw Ht. unfold parse_undelimited. rewrite take_until_skip by exact Hc.
  destruct Ht as [->|[more ->]]; [|rewrite (take_until_found _ _ more) by apply strip_prefix_app];
    cbn [take_until strip_prefix]; rewrite app_nil_r, trim_no_ws by exact Hw; reflexivity.
Qed.

Lemma quoted_form s rest :
  (c_dq :: escape_body s ++ [c_dq]) ++ rest = c_dq :: escape_body s ++ c_dq :: rest.
Proof. cbn [app]. rewrite <- app_assoc. reflexivity. Qed.

Section RoundTrip.
  Variables (kc : N) (kvd' : str) (fc : N) (fd' : str).
  Local Notation kvd := (kc :: kvd').
  Local Notation fd := (fc :: fd').
  Hypothesis Hkc : is_sptab kc = false.
  Hypothesis Hfd : fd_ok fc fd'.

  Lemma kvd_term_ok rest : term_ok kvd (kvd ++ rest).
  Proof. left. rewrite pfd_app by apply sptab_fd_ok, Hkc. discriminate. Qed.

  Lemma fd_term_ok tail : ends_field fd tail -> term_ok fd tail.
  Proof. intros [->|[more ->]]; [right; reflexivity | left; rewrite pfd_app by exact Hfd; discriminate]. Qed.

  Lemma parse_key_enc sk k rest :
    str_ok [kc; fc] k ->
    parse_key kvd fd sk (encode_string k ++ kvd ++ rest) = Some (k, kvd ++ rest).
  Proof.
    intros Hk. unfold parse_key. destruct (enc_cases _ _ Hk) as [->|(-> & Hw & Hh & x & t & -> & Hsq & Hdq)].
    - destruct Hk as (Hne & Hnl & _). rewrite quoted_form, !(parse_delimited_head_ne c_sq) by discriminate.
      rewrite (parse_delimited_quoted kvd k _ Hne Hnl (kvd_term_ok rest)).
      destruct k; [contradiction Hne; reflexivity|]. destruct sk; reflexivity.
    - pose proof (parse_undelimited_enc kc kvd' _ (kvd ++ rest) (Hh kc (in_eq _ _)) Hw
                    (or_intror (ex_intro _ rest eq_refl))) as PU.
      cbn [app] in *. rewrite !(parse_delimited_head_ne c_sq), !(parse_delimited_head_ne c_dq), PU by assumption.
      destruct sk; cbn [first_some is_nil negb andb]; [|reflexivity].
      rewrite contains_nohead by (apply Hh; right; left; reflexivity). reflexivity.
  Qed.

  Lemma parse_value_enc v tail :
    str_ok [fc] v -> ends_field fd tail -> parse_value fd (encode_string v ++ tail) = (v, tail).
  Proof.
    intros Hv Ht. unfold parse_value. destruct (enc_cases _ _ Hv) as [->|(-> & Hw & Hh & x & t & -> & Hsq & Hdq)].
    - destruct Hv as (Hne & Hnl & _). rewrite quoted_form, (parse_delimited_head_ne c_sq) by discriminate.
      rewrite (parse_delimited_quoted fd v tail Hne Hnl (fd_term_ok tail Ht)). reflexivity.
    - pose proof (parse_undelimited_enc fc fd' _ tail (Hh fc (in_eq _ _)) Hw Ht) as PU.
      cbn [app] in *. rewrite (parse_delimited_head_ne c_sq), (parse_delimited_head_ne c_dq), PU by assumption.
      reflexivity.
  Qed.

  Lemma parse_sep_enc ws s : space0 s = s -> parse_sep kvd ws (kvd ++ s) = Some s.
  Proof.
    intros Hs. unfold parse_sep. destruct ws; [apply strip_prefix_app|].
    replace (space0 (kvd ++ s)) with (kvd ++ s) by (symmetry; exact (space0_head kc _ Hkc)).
    rewrite strip_prefix_app, Hs. reflexivity.
  Qed.

  Lemma parse_kv_enc ws sk k v tail :
    str_ok [kc; fc] k -> str_ok [fc] v -> ends_field fd tail ->
    parse_kv kvd fd ws sk (encode_field kvd k v ++ tail) = Some ((k, PStr v), tail).
  Proof.
    intros Hk Hv Ht. unfold encode_field, parse_kv. rewrite <- !app_assoc.
    rewrite (proj1 (enc_no_space _ _ _ Hk)), parse_key_enc by exact Hk.
    rewrite parse_sep_enc by apply (enc_no_space _ _ _ Hv).
    rewrite (proj2 (Nat.eqb_neq _ _)) by (rewrite (app_length kvd); cbn [length]; lia).
    rewrite parse_value_enc by assumption. reflexivity.
  Qed.
End RoundTrip.
