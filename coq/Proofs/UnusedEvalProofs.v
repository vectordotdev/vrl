(* C34, semantic half: the Core-VRL evaluator is insensitive to the Target log, every construct is a
   congruence for "same result, same variables / event / metadata", syntactically effect-free
   expressions are pure, and deleting effect-free infallible non-last statements from any blocks of a
   program does not change its run.  Everything is proved for arbitrary F and binop. *)
From Coq Require Import List Bool PeanoNat.
From VRL Require Import Base.Bytes Base.Value Model.ValueCrud Model.Expr Model.Eval Model.Unused Proofs.ExprInd
  Proofs.EvalProofs.
Import ListNotations.
Local Open Scope list_scope.

(* induction over the nested inductive pexpr, phrased with the model's own `children` *)
Lemma pexpr_kids_ind (P : pexpr -> Prop) : (forall e, Forall P (children e) -> P e) -> forall e, P e.
Proof.
  intros H. fix rec 1. intros e. apply H.
  (* only ever applied to lists that are part of e *)
  pose (all := fix all (l : list pexpr) : Forall P l :=
                 match l with [] => Forall_nil P | x :: r => Forall_cons x (rec x) (all r) end).
  destruct e as [ | | | | | |es|es|kvs|c t f| | | | |m| |? ? es| | | | |? ? ? ? es]; cbn [children];
    repeat constructor; try apply rec; try exact (all es).
  - induction kvs; constructor; [apply rec|assumption].
  - destruct f; repeat (apply Forall_app; split); try constructor; apply all.
  - destruct m; constructor; [apply rec|constructor].
Qed.

Definition core (s : state) := (vars s, ev s, md s).

(* same variables, event and metadata; the fault schedule is exhausted (no Target operation is rejected) *)
Definition R (s s' : state) : Prop := core s = core s' /\ faults s = [] /\ faults s' = [].

Lemma R_mk vs e m l l' : R (mkState vs e m l []) (mkState vs e m l' []).
Proof. repeat split. Qed.

Lemma R_inv s s' : R s s' -> exists vs e m l l', s = mkState vs e m l [] /\ s' = mkState vs e m l' [].
Proof. destruct s, s'. intros [H [Hf Hf']]. cbn in *. inversion H. subst. eauto 7. Qed.

(* related states are the two sides of R_mk *)
Ltac dR H := destruct (R_inv _ _ H) as (? & ? & ? & ? & ? & -> & ->).

Lemma R_self s : faults s = [] -> R s s.
Proof. intros H. repeat split; auto. Qed.

Lemma R_trans s1 s2 s3 : R s1 s2 -> R s2 s3 -> R s1 s3.
Proof. intros [A [B C]] [D [E G]]. repeat split; auto. congruence. Qed.

Lemma R_sym s1 s2 : R s1 s2 -> R s2 s1.
Proof. intros [A [B C]]. repeat split; auto. Qed.

Lemma R_faults_l s s1 : R s s1 -> faults s = [].
Proof. intros [_ [H _]]; auto. Qed.

Lemma R_faults_r s s1 : R s s1 -> faults s1 = [].
Proof. intros [_ [_ H]]; auto. Qed.

Lemma R_vars s s' : R s s' -> vars s = vars s'.
Proof. intros H. dR H. reflexivity. Qed.

Definition sim {A} (x y : A * state) : Prop := fst x = fst y /\ R (snd x) (snd y).

Definition beqv {A} (f g : state -> A * state) : Prop := forall s s', R s s' -> sim (f s) (g s').

Lemma sim_ret {A} (a : A) s s' : R s s' -> sim (a, s) (a, s').
Proof. split; auto. Qed.

Lemma sim_bind {A B} (x y : A * state) (k k' : A -> state -> B * state) :
  sim x y -> (forall a, beqv (k a) (k' a)) -> sim (let (a, s) := x in k a s) (let (a, s) := y in k' a s).
Proof. destruct x as [a s], y as [a' s']. intros [E HR] Hk. cbn in E, HR. subst a'. apply Hk, HR. Qed.

(* the common case: a failed first part ends the computation *)
Lemma sim_bindv {A C} (x y : (A + err) * state) (k k' : A -> state -> (C + err) * state) :
  sim x y -> (forall a, beqv (k a) (k' a)) ->
  sim (match x with (inl a, s) => k a s | (inr e, s) => (inr e, s) end)
      (match y with (inl a, s) => k' a s | (inr e, s) => (inr e, s) end).
Proof. intros H Hk. apply sim_bind; [exact H|]. intros [a|e]; [apply Hk|exact (sim_ret _)]. Qed.

(* ... and what follows the first part looks at its value alone *)
Lemma sim_mapv {A C} (h : A -> C + err) (x y : (A + err) * state) :
  sim x y ->
  sim (match x with (inl a, s) => (h a, s) | (inr e, s) => (inr e, s) end)
      (match y with (inl a, s) => (h a, s) | (inr e, s) => (inr e, s) end).
Proof. intros H. apply sim_bindv; [exact H|]. intros a. exact (sim_ret _). Qed.

Lemma Forall2_refl {A} (Q : A -> A -> Prop) l : Forall (fun x => Q x x) l -> Forall2 Q l l.
Proof. induction 1; constructor; auto. Qed.

Lemma loop_cong {A A' B} (f : A -> state -> (B + err) * state) (g : A' -> state -> (B + err) * state) items items' :
  Forall2 (fun a a' => beqv (f a) (g a')) items items' -> beqv (loop f items) (loop g items').
Proof.
  induction 1 as [|a a' r r' Ha _ IH]; intros s s' HR; cbn [loop]; [apply sim_ret, HR|].
  apply sim_bindv; [apply Ha, HR|]. intros b s1 s1' HR1. apply sim_mapv, IH, HR1.
Qed.

Lemma t_get_R pfx p : beqv (fun s => t_get s pfx p) (fun s => t_get s pfx p).
Proof. intros s s' H. dR H. split; [reflexivity|apply R_mk]. Qed.

Lemma t_insert_R s s' pfx p v : R s s' -> R (t_insert s pfx p v) (t_insert s' pfx p v).
Proof. intros H. dR H. destruct pfx; apply R_mk. Qed.

Lemma t_remove_R pfx p c : beqv (fun s => t_remove s pfx p c) (fun s => t_remove s pfx p c).
Proof.
  intros s s' H. dR H. unfold t_remove. cbn. destruct (remove _ p c).
  split; [reflexivity|destruct pfx; apply R_mk].
Qed.

Lemma set_vars_R s s' vs : R s s' -> R (set_vars s vs) (set_vars s' vs).
Proof. intros H. dR H. apply R_mk. Qed.

Lemma target_insert_R s s' t v : R s s' -> R (target_insert s t v) (target_insert s' t v).
Proof.
  intros H. destruct t as [|x p|pfx p]; cbn [target_insert]; [exact H| |apply t_insert_R, H].
  rewrite (R_vars _ _ H). destruct p; [|destruct (var_get _ x)]; apply set_vars_R, H.
Qed.

Lemma bind_param_R x v : beqv (fun s => bind_param s x v) (fun s => bind_param s x v).
Proof.
  intros s s' H. destruct x as [x|]; [|apply sim_ret, H].
  cbn [bind_param]. rewrite (R_vars _ _ H). apply sim_ret, set_vars_R, H.
Qed.

Lemma cleanup_param_R s s' x o : R s s' -> R (cleanup_param s x o) (cleanup_param s' x o).
Proof.
  intros H. destruct x as [x|], o as [o|]; cbn [cleanup_param]; auto; rewrite (R_vars _ _ H); apply set_vars_R, H.
Qed.

Section Semantics.
  Variable F : fname -> list value -> option value.
  Variable binop : opcode -> value -> value -> option value.
  Notation evl := (eval F binop).

  Definition eqv (a b : expr) : Prop := beqv (evl a) (evl b).

  Lemma eqv_group a a' : eqv a a' -> eqv (EGroup a) (EGroup a').
  Proof. intros H. exact H. Qed.

  Lemma eqv_qexpr a a' p : eqv a a' -> eqv (EQExpr a p) (EQExpr a' p).
  Proof. intros H s s' HR. cbn [eval]. apply sim_mapv, H, HR. Qed.

  Lemma eqv_not a a' : eqv a a' -> eqv (ENot a) (ENot a').
  Proof. intros H s s' HR. cbn [eval]. apply sim_mapv, H, HR. Qed.

  Lemma eqv_return a a' : eqv a a' -> eqv (EReturn a) (EReturn a').
  Proof. intros H s s' HR. cbn [eval]. apply sim_mapv, H, HR. Qed.

  Lemma eqv_abort a a' : eqv a a' -> eqv (EAbort (Some a)) (EAbort (Some a')).
  Proof.
    intros H s s' HR. cbn [eval]. apply sim_bind; [apply H, HR|].
    intros [[]|er]; exact (sim_ret _).
  Qed.

  Lemma eqv_assign t a a' : eqv a a' -> eqv (EAssign t a) (EAssign t a').
  Proof.
    intros H s s' HR. cbn [eval]. apply sim_bindv; [apply H, HR|].
    intros v s1 s1' HR1. apply sim_ret, target_insert_R, HR1.
  Qed.

  Lemma eqv_assign_inf ok er_t a a' d : eqv a a' -> eqv (EAssignInf ok er_t a d) (EAssignInf ok er_t a' d).
  Proof.
    intros H s s' HR. rewrite !eval_assign_inf. apply sim_bind; [apply H, HR|].
    intros [v|[]] s1 s1' HR1; apply sim_ret; repeat apply target_insert_R; exact HR1.
  Qed.

  Lemma eqv_op o a a' b b' : eqv a a' -> eqv b b' -> eqv (EOp o a b) (EOp o a' b').
  Proof.
    intros Ha Hb s s' HR. destruct (plain o) eqn:Ep.
    - rewrite !eval_plain by exact Ep. apply sim_bindv; [apply Ha, HR|]. intros v s1 s1' HR1.
      apply sim_mapv, Hb, HR1.
    - destruct o; try discriminate Ep.
      + rewrite !eval_or. apply sim_bindv; [apply Ha, HR|]. intros v.
        destruct (falsy v); [exact Hb|exact (sim_ret _)].
      + rewrite !eval_and. apply sim_bindv; [apply Ha, HR|]. intros v s1 s1' HR1.
        destruct (falsy v); [apply sim_ret, HR1|].
        apply sim_mapv, Hb, HR1.
      + rewrite !eval_err. apply sim_bind; [apply Ha, HR|].
        intros [v|[]]; try exact (sim_ret _). exact Hb.
  Qed.

  (* arrays and calls are `loop evl` over their operands (arr_go_loop, call_go_loop) *)
  Lemma eqv_arr es es' : Forall2 eqv es es' -> eqv (EArr es) (EArr es').
  Proof. intros H s s' HR. rewrite !eval_arr, !arr_go_loop. apply sim_mapv, (loop_cong evl evl _ _ H), HR. Qed.

  Lemma eqv_call f es es' : Forall2 eqv es es' -> eqv (ECall f es) (ECall f es').
  Proof. intros H s s' HR. rewrite !eval_call, !call_go_loop. apply sim_mapv, (loop_cong evl evl _ _ H), HR. Qed.

  Definition kv_eqv (a b : bytes * expr) : Prop := fst a = fst b /\ eqv (snd a) (snd b).

  Lemma obj_go_cong kvs kvs' : Forall2 kv_eqv kvs kvs' ->
    forall acc, beqv (obj_go F binop kvs acc) (obj_go F binop kvs' acc).
  Proof.
    induction 1 as [|[k a] [k' a'] es es' [Hk Ha] _ IH]; intros acc s s' HR; cbn [obj_go]; [apply sim_ret, HR|].
    cbn [fst snd] in Hk, Ha. subst k'. apply sim_bindv; [apply Ha, HR|]. intros v. apply IH.
  Qed.

  Lemma eqv_obj kvs kvs' : Forall2 kv_eqv kvs kvs' -> eqv (EObj kvs) (EObj kvs').
  Proof. intros H. exact (obj_go_cong _ _ H []). Qed.

  (* the two rests may differ in length (blk_drop) *)
  Lemma blk_step x x' r r' : r <> [] -> r' <> [] -> eqv x x' -> beqv (blk F binop r) (blk F binop r') ->
    beqv (blk F binop (x :: r)) (blk F binop (x' :: r')).
  Proof.
    intros Hr Hr' Hx Hb s s' HR. rewrite !blk_cons by assumption.
    apply sim_bindv; [apply Hx, HR|]. intros _. exact Hb.
  Qed.

  Lemma blk_cong es es' : Forall2 eqv es es' -> beqv (blk F binop es) (blk F binop es').
  Proof.
    induction 1 as [|a a' es es' Ha Hes IH]; [exact (sim_ret _)|].
    destruct Hes; [exact Ha|]. apply blk_step; auto; discriminate.
  Qed.

  Lemma eqv_block es es' : beqv (blk F binop es) (blk F binop es') -> eqv (EBlock es) (EBlock es').
  Proof. intros H. exact H. Qed.

  Lemma eqv_if c c' t t' f f' :
    beqv (blk F binop c) (blk F binop c') -> beqv (blk F binop t) (blk F binop t') ->
    match f, f' with
    | Some fb, Some fb' => beqv (blk F binop fb) (blk F binop fb')
    | None, None => True
    | _, _ => False
    end ->
    eqv (EIf c t f) (EIf c' t' f').
  Proof.
    intros Hc Ht Hf s s' HR. rewrite !eval_if. apply sim_bindv; [apply Hc, HR|]. intros v.
    destruct (try_boolean v) as [[|]|]; [exact Ht| |exact (sim_ret _)].
    destruct f, f'; try contradiction; [exact Hf|exact (sim_ret _)].
  Qed.

  Lemma run1_cong body body' p a : beqv body body' -> beqv (run1 body p a) (run1 body' p a).
  Proof.
    intros Hb s s' HR. apply sim_bind; [apply bind_param_R, HR|]. intros old s1 s1' HR1.
    apply sim_bind; [apply Hb, HR1|]. intros r s2 s2' HR2. apply sim_ret, cleanup_param_R, HR2.
  Qed.

  Lemma run2_cong body body' p0 p1 a b : beqv body body' -> beqv (run2 body p0 p1 a b) (run2 body' p0 p1 a b).
  Proof.
    intros Hb s s' HR. apply sim_bind; [apply bind_param_R, HR|]. intros old0 s1 s1' HR1.
    apply sim_bind; [apply bind_param_R, HR1|]. intros old1 s2 s2' HR2.
    apply sim_bind; [apply Hb, HR2|]. intros r s3 s3' HR3. apply sim_ret. repeat apply cleanup_param_R. exact HR3.
  Qed.

  Lemma run_closure_cong body body' ps cf v : beqv body body' ->
    beqv (run_closure body ps cf v) (run_closure body' ps cf v).
  Proof.
    intros Hb s s' HR.
    destruct cf, v; try apply sim_ret, HR; try apply (run1_cong _ _ _ _ Hb), HR;
      apply sim_mapv, loop_cong, HR; apply Forall2_refl, Forall_forall; intros a _ s0 s0' HR0.
    (* every step function runs the body once and then looks at the result alone *)
    all: apply sim_bind; [first [apply (run1_cong _ _ _ _ Hb)|apply (run2_cong _ _ _ _ _ _ Hb)]; exact HR0|].
    all: intros [[]|e]; exact (sim_ret _).
  Qed.

  Lemma eqv_closure cf a a' ps body body' :
    eqv a a' -> beqv (blk F binop body) (blk F binop body') -> eqv (EClosure cf a ps body) (EClosure cf a' ps body').
  Proof.
    intros Ha Hb s s' HR. rewrite !eval_closure. apply sim_bindv; [apply Ha, HR|].
    intros v. apply run_closure_cong, Hb.
  Qed.

  Lemma blk_refl es : Forall (fun e => eqv e e) es -> beqv (blk F binop es) (blk F binop es).
  Proof. intros H. apply blk_cong, Forall2_refl, H. Qed.

  (* evaluation does not look at the Target log *)
  Theorem eqv_refl e : eqv e e.
  Proof.
    induction e using expr_ind'.
    - (* literal *) exact (sim_ret _).
    - (* variable *) intros s s' HR. cbn [eval]. rewrite (R_vars _ _ HR). apply sim_ret, HR.
    - (* query of event or metadata *) intros s s' HR. cbn [eval]. apply sim_bind; [apply t_get_R, HR|]. intros r. exact (sim_ret _).
    - (* query of a variable *) intros s s' HR. cbn [eval]. rewrite (R_vars _ _ HR). apply sim_ret, HR.
    - apply eqv_qexpr; auto.
    - apply eqv_arr, Forall2_refl; auto.
    - apply eqv_obj, Forall2_refl. eapply Forall_impl; [|exact H]. intros kv Hkv. split; auto.
    - apply eqv_block, blk_refl; auto.
    - apply eqv_group; auto.
    - apply eqv_if; try apply blk_refl; auto. destruct f; [apply blk_refl|]; auto.
    - apply eqv_op; auto.
    - apply eqv_not; auto.
    - apply eqv_assign; auto.
    - apply eqv_assign_inf; auto.
    - destruct m as [m|]; [apply eqv_abort; exact H|exact (sim_ret _)].
    - apply eqv_return; auto.
    - apply eqv_call, Forall2_refl; auto.
    - (* del of event or metadata *) intros s s' HR. cbn [eval]. apply sim_bind; [apply t_remove_R, HR|]. intros r. exact (sim_ret _).
    - (* del of a variable *) intros s s' HR. cbn [eval]. rewrite (R_vars _ _ HR). destruct (var_get (vars s') x); [|apply sim_ret, HR].
      destruct (remove v p c). apply sim_ret, set_vars_R, HR.
    - (* exists of event or metadata *) intros s s' HR. cbn [eval]. apply sim_bind; [apply t_get_R, HR|]. intros r. exact (sim_ret _).
    - (* exists of a variable *) intros s s' HR. cbn [eval]. rewrite (R_vars _ _ HR). apply sim_ret, HR.
    - apply eqv_closure; [|apply blk_refl]; auto.
  Qed.

  (* `tf f n`: function f never fails on n arguments *)
  Variable tf : fname -> nat -> bool.
  Hypothesis tf_total : forall f args, tf f (List.length args) = true -> F f args <> None.

  (* the result of a pure evaluation: a value, or (when failure is allowed) a plain error *)
  Definition ok_res (t : bool) (r : res) : Prop :=
    match r with inl _ => True | inr Error => t = false | inr _ => False end.

  Definition pur_f (t : bool) (f : state -> res * state) : Prop :=
    forall s, faults s = [] -> R s (snd (f s)) /\ ok_res t (fst (f s)).
  Definition pur (t : bool) (e : expr) : Prop := pur_f t (evl e).

  Definition pure_at (t : bool) (s : state) (x : res * state) : Prop := R s (snd x) /\ ok_res t (fst x).

  Lemma pur_leaf t r : (forall s, faults s = [] -> R s (snd (r s)) /\ ok_res t (fst (r s))) -> pur_f t r.
  Proof. auto. Qed.

  Lemma ok_weaken t r : ok_res true r -> ok_res t r.
  Proof. destruct r as [v|[ | | | ]]; cbn; auto; discriminate. Qed.

  Lemma pur_weaken e : pur true e -> pur false e.
  Proof. intros H s Hs. destruct (H s Hs). split; auto. apply ok_weaken; auto. Qed.

  Lemma pure_res t s r : faults s = [] -> ok_res t r -> pure_at t s (r, s).
  Proof. intros Hs Hr. split; [apply R_self, Hs|exact Hr]. Qed.

  Lemma pure_ret t s v : faults s = [] -> pure_at t s (inl v, s).
  Proof. intros Hs. apply pure_res; [exact Hs|exact I]. Qed.

  Lemma pure_bind t s x (k : value -> state -> res * state) :
    pure_at t s x -> (forall v, pur_f t (k v)) ->
    pure_at t s (match x with (inl v, s1) => k v s1 | (inr er, s1) => (inr er, s1) end).
  Proof.
    destruct x as [[v|er] s1]; intros [HR Hok] Hk; [|split; auto].
    destruct (Hk v s1 (R_faults_r _ _ HR)) as [HR2 Hok2]. split; [eapply R_trans; eauto|exact Hok2].
  Qed.

  Lemma pur_value f : pur_f true f -> forall s, faults s = [] -> exists v s1, f s = (inl v, s1) /\ R s s1.
  Proof.
    intros H s Hs. destruct (H s Hs) as [HR Hok]. destruct (f s) as [[v|[]] s1]; try contradiction; try discriminate.
    eauto.
  Qed.

  Lemma pur_get t pfx p (g : option value -> value) : pur_f t (fun s => let '(r, s') := t_get s pfx p in (inl (g r), s')).
  Proof. intros s Hs. destruct s. cbn in Hs. subst. split; [apply R_mk|exact I]. Qed.

  Lemma pur_qexpr t a p : pur t a -> pur t (EQExpr a p).
  Proof. intros H s Hs. cbn [eval]. apply pure_bind; [apply H, Hs|]. intros v s1. apply pure_ret. Qed.

  Lemma pur_not a : pur false a -> pur false (ENot a).
  Proof.
    intros H s Hs. cbn [eval]. apply pure_bind; [apply H, Hs|]. intros v s1 Hs1.
    apply pure_res; [exact Hs1|]. destruct (try_boolean v); reflexivity.
  Qed.

  Lemma arr_go_pur t es : Forall (pur t) es -> forall acc, pur_f t (arr_go F binop es acc).
  Proof.
    induction 1 as [|a es Ha _ IH]; intros acc s Hs; cbn [arr_go]; [apply pure_ret, Hs|].
    apply pure_bind; [apply Ha, Hs|]. intros v. apply IH.
  Qed.

  Lemma obj_go_pur t kvs : Forall (fun kv => pur t (snd kv)) kvs -> forall acc, pur_f t (obj_go F binop kvs acc).
  Proof.
    induction 1 as [|[k a] es Ha _ IH]; intros acc s Hs; cbn [obj_go]; [apply pure_ret, Hs|].
    apply pure_bind; [apply Ha, Hs|]. intros v. apply IH.
  Qed.

  (* the call itself may fail unless f is total on that many arguments *)
  Lemma call_go_pur t f es : Forall (pur t) es ->
    forall acc, (t = true -> tf f (List.length es + List.length acc) = true) -> pur_f t (call_go F binop f es acc).
  Proof.
    induction 1 as [|a es Ha _ IH]; intros acc Hf s Hs; cbn [call_go].
    - apply pure_res; [exact Hs|]. destruct (F f (rev acc)) eqn:E; [exact I|].
      destruct t; [exfalso|reflexivity]. apply (tf_total f (rev acc)); [|exact E]. rewrite rev_length. exact (Hf eq_refl).
    - apply pure_bind; [apply Ha, Hs|]. intros v. apply IH.
      intros Ht. cbn [List.length]. rewrite Nat.add_succ_r. exact (Hf Ht).
  Qed.

  Lemma blk_pur t es : es <> [] -> Forall (pur t) es -> pur_f t (blk F binop es).
  Proof.
    intros Hne H. induction H as [|a es Ha _ IH]; [congruence|]. intros s Hs.
    destruct es as [|b es']; [exact (Ha s Hs)|]. rewrite blk_cons by discriminate.
    apply pure_bind; [apply Ha, Hs|]. intros _. apply IH. discriminate.
  Qed.

  Lemma pur_if c t f : pur_f false (blk F binop c) -> pur_f false (blk F binop t) ->
    opt_holds (fun fb => pur_f false (blk F binop fb)) f -> pur false (EIf c t f).
  Proof.
    intros Hc Ht Hf s Hs. rewrite eval_if. apply pure_bind; [apply Hc, Hs|]. intros v s1 Hs1.
    destruct (try_boolean v) as [[|]|]; [exact (Ht s1 Hs1)| |apply pure_res; [exact Hs1|reflexivity]].
    destruct f; [exact (Hf s1 Hs1)|apply pure_ret, Hs1].
  Qed.

  Lemma pur_or t a b : pur t a -> pur t b -> pur t (EOp OOr a b).
  Proof.
    intros Ha Hb s Hs. rewrite eval_or. apply pure_bind; [apply Ha, Hs|]. intros v s1 Hs1.
    destruct (falsy v); [exact (Hb s1 Hs1)|apply pure_ret, Hs1].
  Qed.

  (* `??` recovers from the failure of its left operand *)
  Lemma pur_err t a b : pur false a -> pur t b -> pur t (EOp OErr a b).
  Proof.
    intros Ha Hb s Hs. rewrite eval_err. destruct (Ha s Hs) as [HR Hok].
    destruct (evl a s) as [[v|[]] s1]; cbn [fst snd] in *; try contradiction; [split; [exact HR|exact I]|].
    destruct (Hb s1 (R_faults_r _ _ HR)) as [HR2 Hok2]. split; [eapply R_trans; eauto|exact Hok2].
  Qed.

  Lemma pur_op o a b : pur false a -> pur false b -> pur false (EOp o a b).
  Proof.
    intros Ha Hb. destruct (plain o) eqn:Ep.
    - intros s Hs. rewrite eval_plain by exact Ep. apply pure_bind; [apply Ha, Hs|]. intros v s1 Hs1.
      apply pure_bind; [apply Hb, Hs1|]. intros w s2 Hs2.
      apply pure_res; [exact Hs2|]. destruct (binop o v w); reflexivity.
    - destruct o; try discriminate Ep; [apply pur_or; assumption| |apply pur_err; assumption].
      intros s Hs. rewrite eval_and. apply pure_bind; [apply Ha, Hs|]. intros v s1 Hs1.
      destruct (falsy v); [apply pure_ret, Hs1|].
      apply pure_bind; [apply Hb, Hs1|]. intros w s2 Hs2.
      apply pure_res; [exact Hs2|]. destruct (try_and v w); reflexivity.
  Qed.

  Lemma kv_insert_Forall (Q : bytes * expr -> Prop) k e l : Q (k, e) -> Forall Q l -> Forall Q (kv_insert k e l).
  Proof.
    intros Hq. induction 1 as [|[k' e'] r Hx Hr IH]; cbn [kv_insert]; [constructor; auto|].
    destruct (bytes_cmp k k'); repeat (constructor; auto).
  Qed.

  Lemma kv_sort_Forall (Q : bytes * expr -> Prop) l : Forall Q l -> Forall Q (kv_sort l).
  Proof.
    unfold kv_sort. generalize (Forall_nil Q). generalize (@nil (bytes * expr)).
    induction l as [|[k e] r IH]; intros acc Ha Hl; cbn [fold_left]; [exact Ha|].
    inversion Hl; subst. apply IH; auto. apply kv_insert_Forall; auto.
  Qed.

  Lemma nonempty_map {A B} (g : A -> B) l : nonempty l = true -> map g l <> [].
  Proof. destruct l; discriminate. Qed.

  (* eff_free (t = false: may fail) and total (t = true: cannot fail) side by side *)
  Definition clean (t : bool) : pexpr -> bool := if t then total tf else eff_free.

  Definition Ppure (e : pexpr) : Prop := forall t, clean t e = true -> pur t (elab e).

  Lemma pur_all {A} (g : A -> pexpr) t l :
    Forall (fun a => Ppure (g a)) l -> forallb (fun a => clean t (g a)) l = true -> Forall (fun a => pur t (elab (g a))) l.
  Proof. rewrite !Forall_forall, forallb_forall. intros IH H a Ha. exact (IH a Ha t (H a Ha)). Qed.

  Lemma pur_stmts t es :
    Forall Ppure es -> nonempty es && forallb (clean t) es = true -> pur_f t (blk F binop (map elab es)).
  Proof.
    intros IH H. apply andb_true_iff in H as [Hn H].
    apply blk_pur; [apply nonempty_map, Hn|]. apply Forall_map, (pur_all (fun x => x)); assumption.
  Qed.

  Theorem pure_eval e : Ppure e.
  Proof.
    induction e as [e IH] using pexpr_kids_ind. intros t H.
    (* assignments, abort, return, del and closures pass neither check *)
    destruct e; cbn [children] in IH; cbn [elab]; try (destruct t; discriminate H).
    - (* literal *) intros s Hs. apply pure_ret, Hs.
    - (* variable *) intros s Hs. apply pure_ret, Hs.
    - (* query of event or metadata *) apply pur_get.
    - (* query of a variable *) intros s Hs. apply pure_ret, Hs.
    - (* query of an expression *) apply pur_qexpr, (Forall_inv IH). destruct t; exact H.
    - (* group *) apply (Forall_inv IH). destruct t; exact H.
    - (* block *) apply (pur_stmts t es IH). destruct t; exact H.
    - (* array *) intros s Hs. rewrite eval_arr. apply arr_go_pur; [|exact Hs].
      apply Forall_map, (pur_all (fun x => x)); [exact IH|]. destruct t; exact H.
    - (* object *) intros s Hs. rewrite eval_obj. apply obj_go_pur; [|exact Hs].
      apply kv_sort_Forall, Forall_map, (pur_all snd); [apply Forall_map, IH|]. destruct t; exact H.
    - (* if *) destruct t; [discriminate H|]. cbn [clean eff_free] in H.
      apply Forall_app in IH as [Ic IH]. apply Forall_app in IH as [It If].
      apply andb_true_iff in H as [H Hf]. rewrite <- andb_assoc in H. apply andb_true_iff in H as [Hc Ht].
      apply pur_if; [exact (pur_stmts false c Ic Hc)|exact (pur_stmts false t0 It Ht)|].
      destruct f; [exact (pur_stmts false l If Hf)|exact I].
    - (* operator *) pose proof (Forall_inv IH) as Ia. pose proof (Forall_inv (Forall_inv_tail IH)) as Ib.
      destruct t.
      + destruct o; try discriminate H; apply andb_true_iff in H as [Ha Hb].
        * apply pur_or; [exact (Ia true Ha)|exact (Ib true Hb)].
        * apply pur_err; [exact (Ia false Ha)|exact (Ib true Hb)].
      + apply andb_true_iff in H as [Ha Hb]. apply pur_op; [exact (Ia false Ha)|exact (Ib false Hb)].
    - (* ! *) destruct t; [discriminate H|]. apply pur_not, (Forall_inv IH false H).
    - (* call *) intros s Hs. rewrite eval_call.
      assert (Hb : forallb (clean t) args = true /\ (t = true -> tf f (List.length args) = true)).
      { destruct t; [apply andb_true_iff in H as [Hf H]|]; split; auto; discriminate. }
      apply call_go_pur; [| |exact Hs].
      + apply Forall_map, (pur_all (fun x => x)); [exact IH|apply Hb].
      + cbn [List.length]. rewrite Nat.add_0_r, map_length. apply Hb.
    - (* exists of event or metadata *) apply pur_get.
    - (* exists of a variable *) intros s Hs. apply pure_ret, Hs.
  Qed.

  Corollary total_pure e : total tf e = true ->
    forall s, faults s = [] -> exists v s1, evl (elab e) s = (inl v, s1) /\ R s s1.
  Proof. intros H. exact (pur_value _ (pure_eval e true H)). Qed.

  Lemma blk_skip x r r' : r <> [] -> pur true x -> beqv (blk F binop r) (blk F binop r') ->
    beqv (blk F binop (x :: r)) (blk F binop r').
  Proof.
    intros Hr Hx Hb s s' HR. rewrite blk_cons by exact Hr.
    destruct (pur_value _ Hx s (R_faults_l _ _ HR)) as (v & s1 & E & HR1). rewrite E.
    apply Hb. eapply R_trans; [apply R_sym, HR1|exact HR].
  Qed.

  Notation D := (total tf).

  Definition Pdel (e : pexpr) : Prop :=
    forall sel p, sel_ok D sel p e = true -> eqv (elab e) (elab (pdel sel p e)).

  Lemma mapi_cons {A B} (f : nat -> A -> B) i x r : mapi f i (x :: r) = f i x :: mapi f (S i) r.
  Proof. reflexivity. Qed.

  Lemma drop_stmts_cons {A} (sel : nat -> bool) i (x : A) l : l <> [] ->
    drop_stmts sel i (x :: l) = if sel i then drop_stmts sel (S i) l else x :: drop_stmts sel (S i) l.
  Proof. destruct l; [congruence|reflexivity]. Qed.

  Lemma mapi_nonempty {A B} (f : nat -> A -> B) i l : l <> [] -> mapi f i l <> [].
  Proof. destruct l; [congruence|discriminate]. Qed.

  Lemma drop_stmts_nonempty {A} (sel : nat -> bool) (l : list A) : forall i, l <> [] -> drop_stmts sel i l <> [].
  Proof.
    induction l as [|x r IH]; intros i H; [congruence|].
    destruct r as [|y r']; [discriminate|].
    rewrite drop_stmts_cons by discriminate. destruct (sel i); [apply IH|]; discriminate.
  Qed.

  Lemma stmts_ok_cons {A} (Dx : A -> bool) (sel : nat -> bool) i (x y : A) r :
    stmts_ok Dx sel i (x :: y :: r) = (if sel i then Dx x else true) && stmts_ok Dx sel (S i) (y :: r).
  Proof. reflexivity. Qed.

  Lemma foralli_cons {A} (f : nat -> A -> bool) i x r : foralli f i (x :: r) = f i x && foralli f (S i) r.
  Proof. reflexivity. Qed.

  (* pdel's `kids`: children that are not statements are related one by one *)
  Lemma kids_cong sel p es : Forall Pdel es -> forall off,
    foralli (fun i x => sel_ok D sel (p ++ [i]) x) off es = true ->
    Forall2 eqv (map elab es) (map elab (mapi (fun i x => pdel sel (p ++ [i]) x) off es)).
  Proof.
    induction 1 as [|x r Hx Hr IH]; intros off Hb; [constructor|].
    rewrite foralli_cons in Hb. apply andb_true_iff in Hb as [H1 H2]. constructor; auto.
  Qed.

  (* pdel's `stmts`: the selected non-last statements are dropped as well *)
  Lemma blk_drop sel p es : Forall Pdel es -> forall off,
    stmts_ok D (fun i => sel (p ++ [i])) off es = true ->
    foralli (fun i x => sel_ok D sel (p ++ [i]) x) off es = true ->
    beqv (blk F binop (map elab es))
         (blk F binop (map elab (drop_stmts (fun i => sel (p ++ [i])) off
                                            (mapi (fun i x => pdel sel (p ++ [i]) x) off es)))).
  Proof.
    induction 1 as [|x r Hx _ IH]; intros off Hs Hk; [exact (sim_ret _)|].
    rewrite foralli_cons in Hk. apply andb_true_iff in Hk as [H1 H2].
    destruct r as [|y r']; [exact (Hx _ _ H1)|].
    rewrite stmts_ok_cons in Hs. apply andb_true_iff in Hs as [Hd Hs]. specialize (IH (S off) Hs H2).
    rewrite mapi_cons, drop_stmts_cons by (apply mapi_nonempty; discriminate).
    destruct (sel (p ++ [off])).
    - apply blk_skip; [discriminate|exact (pure_eval x true Hd)|exact IH].
    - apply blk_step; [discriminate| |exact (Hx _ _ H1)|exact IH].
      intros C. apply map_eq_nil in C. revert C. apply drop_stmts_nonempty, mapi_nonempty. discriminate.
  Qed.

  Lemma kv_insert_cong k e e' l l' : eqv e e' -> Forall2 kv_eqv l l' ->
    Forall2 kv_eqv (kv_insert k e l) (kv_insert k e' l').
  Proof.
    intros He. induction 1 as [|[k1 a] [k2 b] r r' [Hk Hab] Hr IH]; cbn [kv_insert].
    - constructor; [split; auto|constructor].
    - cbn [fst snd] in Hk, Hab. subst k2.
      destruct (bytes_cmp k k1); repeat (constructor; [split; auto|]); assumption.
  Qed.

  Lemma kv_sort_cong l l' : Forall2 kv_eqv l l' -> Forall2 kv_eqv (kv_sort l) (kv_sort l').
  Proof.
    intros H. unfold kv_sort. generalize (Forall2_nil kv_eqv).
    (* the two empty accumulators become any two related ones *)
    generalize (@nil (bytes * expr)) at 1 3. generalize (@nil (bytes * expr)).
    induction H as [|[k a] [k' b] r r' [Hk Hab] _ IH]; intros acc' acc Ha; cbn [fold_left]; [exact Ha|].
    cbn [fst snd] in *. subst k'. apply IH, kv_insert_cong; assumption.
  Qed.

  Theorem pdel_eqv e : Pdel e.
  Proof.
    induction e as [e IH] using pexpr_kids_ind. intros sel q Hok.
    destruct e; cbn [children] in IH; cbn [sel_ok] in Hok; cbn [pdel elab]; try apply eqv_refl.
    - apply eqv_qexpr, (Forall_inv IH), Hok.
    - apply eqv_group, (Forall_inv IH), Hok.
    - apply andb_true_iff in Hok as [H1 H2]. apply eqv_block, blk_drop; assumption.
    - apply eqv_arr, kids_cong; assumption.
    - apply eqv_obj, kv_sort_cong. rewrite Forall_map in IH.
      revert Hok. generalize 0. induction IH as [|kv r Hx _ IHr]; intros off Hb; [constructor|].
      rewrite foralli_cons in Hb. apply andb_true_iff in Hb as [H1 H2].
      constructor; [split; [reflexivity|exact (Hx _ _ H1)]|exact (IHr _ H2)].
    - apply Forall_app in IH as [Ic IH]. apply Forall_app in IH as [It If].
      apply andb_true_iff in Hok as [Hok Hf]. apply andb_true_iff in Hok as [Hc Ht].
      apply andb_true_iff in Ht as [Ht1 Ht2].
      apply eqv_if; [apply blk_cong, kids_cong; assumption|apply blk_drop; assumption|].
      destruct f; [|exact I]. apply andb_true_iff in Hf as [Hf1 Hf2]. apply blk_drop; assumption.
    - apply andb_true_iff in Hok as [Ha Hb].
      apply eqv_op; [exact (Forall_inv IH _ _ Ha)|exact (Forall_inv (Forall_inv_tail IH) _ _ Hb)].
    - apply eqv_not, (Forall_inv IH), Hok.
    - apply eqv_assign, (Forall_inv IH), Hok.
    - apply eqv_assign_inf, (Forall_inv IH), Hok.
    - destruct m; [|apply eqv_refl]. apply eqv_abort, (Forall_inv IH), Hok.
    - apply eqv_return, (Forall_inv IH), Hok.
    - apply eqv_call, kids_cong; assumption.
    - apply andb_true_iff in Hok as [Ha Hb]. apply andb_true_iff in Hb as [Hb1 Hb2].
      apply eqv_closure; [exact (Forall_inv IH _ _ Ha)|apply blk_drop; [exact (Forall_inv_tail IH)|assumption..]].
  Qed.

  Definition outcome_of (r : res) : outcome :=
    match r with
    | inl v | inr (Return v) => Success v
    | inr (Abort m) => Aborted m
    | inr Error => Failed
    | inr Panic => Panicked
    end.

  Lemma run_blk es s : faults s = [] ->
    run F binop es s = (outcome_of (fst (blk F binop es s)), snd (blk F binop es s)).
  Proof.
    destruct s as [vs e m l fs]. cbn [faults]. intros ->. unfold run. cbn [pop_fault faults vars ev md tlog].
    rewrite eval_block. destruct (blk F binop es _) as [[v|[]] s1]; reflexivity.
  Qed.

  (* two programs end alike from s: same outcome, same variables, event and metadata *)
  Definition same_run (es es' : list expr) (s : state) : Prop :=
    fst (run F binop es s) = fst (run F binop es' s) /\ core (snd (run F binop es s)) = core (snd (run F binop es' s)).

  Lemma run_agree es es' : beqv (blk F binop es) (blk F binop es') -> forall s, faults s = [] -> same_run es es' s.
  Proof.
    intros H s Hs. unfold same_run. rewrite !run_blk by exact Hs. destruct (H s s (R_self s Hs)) as [E [Hc _]].
    cbn [fst snd]. rewrite E. auto.
  Qed.

  Theorem pdel_run sel es : sel_ok_prog D sel es = true ->
    forall s, faults s = [] -> same_run (elab_prog es) (elab_prog (pdel_prog sel es)) s.
  Proof.
    intros Hok. apply andb_true_iff in Hok as [H1 H2]. apply run_agree.
    apply (blk_drop sel [] es); [|assumption..]. apply Forall_forall. intros x _. apply pdel_eqv.
  Qed.
End Semantics.
