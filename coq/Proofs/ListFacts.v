(* Facts about the standard library's list functions that the library does not state in this form. *)
From Coq Require Import List Bool Arith NArith Lia.
Import ListNotations.

Lemma firstn_app_exact {A} (l1 l2 : list A) : firstn (length l1) (l1 ++ l2) = l1.
Proof. induction l1; cbn; [reflexivity|]. f_equal. assumption. Qed.

Lemma skipn_app_exact {A} (l1 l2 : list A) : skipn (length l1) (l1 ++ l2) = l2.
Proof. induction l1; cbn; [reflexivity|]. assumption. Qed.

Lemma firstn_app_sub {A} (w s : list A) : firstn (length (w ++ s) - length s) (w ++ s) = w.
Proof. rewrite app_length, Nat.add_sub. apply firstn_app_exact. Qed.

Lemma Forall_firstn_skipn {A} (P : A -> Prop) n l : Forall P l -> Forall P (firstn n l) /\ Forall P (skipn n l).
Proof. rewrite <- (firstn_skipn n l) at 1. apply Forall_app. Qed.

Lemma existsb_false_iff {A} (f : A -> bool) l : existsb f l = false <-> forall x, In x l -> f x = false.
Proof.
  rewrite <- not_true_iff_false, existsb_exists. split.
  - intros H x Hx. destruct (f x) eqn:E; [destruct H; eauto | reflexivity].
  - intros H (x & Hx & E). rewrite (H x Hx) in E. discriminate.
Qed.

Lemma existsb_ext_in {A} (f g : A -> bool) l :
  (forall x, In x l -> f x = g x) -> existsb f l = existsb g l.
Proof.
  induction l as [|x l IH]; intros H; cbn; auto.
  rewrite (H x (or_introl eq_refl)), IH; auto. intros y Hy; apply H; right; exact Hy.
Qed.

Lemma filter_const {A} (P : A -> bool) b l : (forall x, In x l -> P x = b) -> filter P l = if b then l else [].
Proof.
  induction l as [|x l IH]; intros H; [destruct b; reflexivity|]. cbn [filter].
  rewrite (H x (or_introl eq_refl)), IH by (intros y Hy; apply H; right; exact Hy). destruct b; reflexivity.
Qed.

Lemma filter_length_le {A} (f : A -> bool) l : length (filter f l) <= length l.
Proof. induction l as [|x l IH]; [reflexivity|]. cbn [filter]. destruct (f x); cbn [length]; lia. Qed.

Lemma Forall_filter_map {A B} (P : B -> Prop) (p : B -> bool) (f : A -> B) l :
  Forall (fun x => p (f x) = true -> P (f x)) l -> Forall P (filter p (map f l)).
Proof.
  induction 1 as [|x l Hx _ IH]; [constructor|]. cbn [map filter].
  destruct (p (f x)); [constructor; auto | exact IH].
Qed.

Lemma filter_map_id {A} (p : A -> bool) (f : A -> A) l :
  Forall (fun x => f x = x /\ p x = true) l -> filter p (map f l) = l.
Proof. induction 1 as [|x l [E K] _ IH]; [reflexivity|]. cbn [map filter]. rewrite E, K, IH. reflexivity. Qed.

Lemma nodup_app {A} (l1 l2 : list A) :
  NoDup l1 -> NoDup l2 -> (forall x, In x l1 -> ~ In x l2) -> NoDup (l1 ++ l2).
Proof.
  induction l1 as [|x l1 IH]; intros H1 H2 Hd; [exact H2|]. cbn [app]. apply NoDup_cons_iff in H1 as [Hx H1]. constructor.
  - intros Hin. apply in_app_or in Hin as [Hin|Hin]; [contradiction|]. apply (Hd x); [left; reflexivity | exact Hin].
  - apply IH; auto. intros y Hy. apply Hd. right; exact Hy.
Qed.

(* a property checked by evaluation on 0..n-1 holds of every x below n *)
Fixpoint Nrange (n : nat) : list N :=
  match n with O => [] | S k => Nrange k ++ [N.of_nat k] end.

Lemma forallb_Nrange (P : N -> bool) (n : nat) :
  forallb P (Nrange n) = true -> forall x, (x < N.of_nat n)%N -> P x = true.
Proof.
  induction n as [|k IH]; intros H x Hx; [lia|].
  cbn [Nrange] in H. rewrite forallb_app in H. apply andb_true_iff in H as [H1 H2].
  cbn in H2. rewrite andb_true_r in H2.
  destruct (N.eq_dec x (N.of_nat k)) as [->|Hne]; [exact H2 | apply IH; [exact H1 | lia]].
Qed.

Lemma last_cons {A} (l : list A) : forall v d, last (v :: l) d = last l v.
Proof.
  induction l as [|a l IH]; intros v d; [reflexivity|].
  change (last (v :: a :: l) d) with (last (a :: l) d). rewrite !IH. reflexivity.
Qed.

Lemma flat_map_map {A B C} (g : A -> B) (f : B -> list C) l :
  flat_map f (map g l) = flat_map (fun a => f (g a)) l.
Proof. induction l as [|a l IH]; cbn; [|rewrite IH]; reflexivity. Qed.

Lemma nth_error_app_off {A} (l1 l2 : list A) j : nth_error (l1 ++ l2) (List.length l1 + j) = nth_error l2 j.
Proof. rewrite nth_error_app2 by lia. f_equal. lia. Qed.

Lemma nth_error_app_l {A} (l1 l2 : list A) j a : nth_error l1 j = Some a -> nth_error (l1 ++ l2) j = Some a.
Proof. intros H. rewrite nth_error_app1; [exact H|]. apply nth_error_Some. congruence. Qed.

(* a property that every step of a fold keeps holds of its result *)
Lemma fold_left_inv {A B} (P : A -> Prop) (f : A -> B -> A) l : forall a,
  P a -> (forall a b, P a -> P (f a b)) -> P (fold_left f l a).
Proof. induction l; cbn; auto. Qed.
