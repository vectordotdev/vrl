(* C21: UTF-8 lemmas (validity, lossy conversion) and the string printer/parser round trip. *)
From Coq Require Import List NArith ZArith Bool Lia.
From VRL Require Import Base.Bytes Model.Json.
Import ListNotations.
Local Open Scope N_scope.

Definition is_char (c : bytes) : Prop :=
  match c with
  | [b0] => lead_of b0 = L1
  | [b0; b1] => lead_of b0 = L2 /\ is_cont b1 = true
  | [b0; b1; b2] => lead_of b0 = L3 /\ second_ok b0 b1 = true /\ is_cont b2 = true
  | [b0; b1; b2; b3] => lead_of b0 = L4 /\ second_ok b0 b1 = true /\ is_cont b2 = true /\ is_cont b3 = true
  | _ => False
  end.

Lemma utf8_ok_char c s : is_char c -> utf8_ok (c ++ s) = utf8_ok s.
Proof.
  destruct c as [|b0 [|b1 [|b2 [|b3 [|? ?]]]]]; cbn [is_char]; try contradiction; cbn [app utf8_ok];
    [intros -> | intros [-> ->] | intros (-> & -> & ->) | intros (-> & -> & -> & ->)]; reflexivity.
Qed.

Lemma lossy_char c s : is_char c -> lossy_utf8 (c ++ s) = c ++ lossy_utf8 s.
Proof.
  destruct c as [|b0 [|b1 [|b2 [|b3 [|? ?]]]]]; cbn [is_char]; try contradiction.
  - intros H. cbn [app lossy_utf8]. rewrite H. reflexivity.
  - intros [H1 H2]. cbn [app lossy_utf8]. rewrite H1, H2. reflexivity.
  - intros (H1 & H2 & H3). cbn [app lossy_utf8]. rewrite H1, H2, H3. reflexivity.
  - intros (H1 & H2 & H3 & H4). cbn [app lossy_utf8]. rewrite H1, H2, H3, H4. reflexivity.
Qed.

(* induction principle: a valid string is a sequence of characters *)
Lemma utf8_ok_ind (P : bytes -> Prop) :
  P [] ->
  (forall c s, is_char c -> utf8_ok s = true -> P s -> P (c ++ s)) ->
  forall s, utf8_ok s = true -> P s.
Proof.
  intros Hnil Hstep s. induction s as [s IH] using (induction_ltof1 _ (@length N)). unfold ltof in IH.
  destruct s as [|b0 r]; [intros _; exact Hnil|]. cbn [utf8_ok].
  destruct (lead_of b0) eqn:Hl; [| destruct r as [|b1 r] | destruct r as [|b1 [|b2 r]]
                                 | destruct r as [|b1 [|b2 [|b3 r]]] |]; try discriminate;
    rewrite ?andb_true_iff; intros Hok.
  - apply (Hstep [b0]); [exact Hl | exact Hok | apply IH; [cbn; lia | exact Hok]].
  - apply (Hstep [b0; b1]); [cbn; tauto | tauto | apply IH; [cbn; lia | tauto]].
  - apply (Hstep [b0; b1; b2]); [cbn; tauto | tauto | apply IH; [cbn; lia | tauto]].
  - apply (Hstep [b0; b1; b2; b3]); [cbn; tauto | tauto | apply IH; [cbn; lia | tauto]].
Qed.

Lemma utf8_ok_app a b : utf8_ok a = true -> utf8_ok (a ++ b) = utf8_ok b.
Proof.
  intros H. revert a H. apply (utf8_ok_ind (fun a => utf8_ok (a ++ b) = utf8_ok b)); [reflexivity|].
  intros c s Hc Hs IH. rewrite <- app_assoc, utf8_ok_char by assumption. assumption.
Qed.

Lemma lossy_app a b : utf8_ok a = true -> lossy_utf8 (a ++ b) = a ++ lossy_utf8 b.
Proof.
  intros H. revert a H. apply (utf8_ok_ind (fun a => lossy_utf8 (a ++ b) = a ++ lossy_utf8 b)); [reflexivity|].
  intros c s Hc Hs IH. rewrite <- !app_assoc, lossy_char by assumption. f_equal. assumption.
Qed.

Lemma lossy_id s : utf8_ok s = true -> lossy_utf8 s = s.
Proof. intros H. rewrite <- (app_nil_r s) at 1. rewrite lossy_app by assumption. cbn. apply app_nil_r. Qed.

Lemma utf8_ok_FFFD s : utf8_ok (FFFD ++ s) = utf8_ok s.
Proof. reflexivity. Qed.

(* the lossy conversion of any bytes is valid UTF-8 *)
Lemma lossy_is_valid s : utf8_ok (lossy_utf8 s) = true.
Proof.
  induction s as [s IH] using (induction_ltof1 _ (@length N)). unfold ltof in IH.
  destruct s as [|b0 r]; [reflexivity|]. cbn [lossy_utf8].
  (* the case tree of lossy_utf8: every leaf is U+FFFD or a character that passed utf8_ok's own tests, followed
     by the conversion of a proper suffix *)
  destruct (lead_of b0) eqn:Hl;
    [| destruct r as [|b1 r]; [|destruct (is_cont b1) eqn:H1]
     | destruct r as [|b1 r]; [|destruct (second_ok b0 b1) eqn:H1;
         [destruct r as [|b2 r]; [|destruct (is_cont b2) eqn:H2]|]]
     | destruct r as [|b1 r]; [|destruct (second_ok b0 b1) eqn:H1;
         [destruct r as [|b2 r]; [|destruct (is_cont b2) eqn:H2;
           [destruct r as [|b3 r]; [|destruct (is_cont b3) eqn:H3]|]]|]]
     |];
    try reflexivity; rewrite ?utf8_ok_FFFD; cbn [utf8_ok]; rewrite ?Hl, ?H1, ?H2, ?H3; apply IH; cbn [length]; lia.
Qed.

Lemma lossy_idem s : lossy_utf8 (lossy_utf8 s) = lossy_utf8 s.
Proof. apply lossy_id, lossy_is_valid. Qed.

Definition ascii (s : bytes) : Prop := Forall (fun b => b < 128) s.

Lemma ascii_utf8_ok s : ascii s -> utf8_ok s = true.
Proof.
  induction 1 as [|b r Hb _ IH]; [reflexivity|].
  cbn [utf8_ok]. unfold lead_of. apply N.ltb_lt in Hb. rewrite Hb. exact IH.
Qed.

Lemma ascii_app a b : ascii a -> ascii b -> ascii (a ++ b).
Proof. intros; apply Forall_app; split; assumption. Qed.

Lemma ascii_forallb s : forallb (fun b => b <? 128) s = true -> ascii s.
Proof.
  intros H. apply Forall_forall. intros x Hx.
  rewrite forallb_forall in H. apply N.ltb_lt. apply H. exact Hx.
Qed.

(* only quotes, backslashes and control characters are escaped *)
Lemma escape_byte_plain b :
  (b =? 34) || (b =? 92) || (b <? 32) = false -> escape_byte b = [b].
Proof.
  rewrite !orb_false_iff, !N.eqb_neq, N.ltb_ge. intros H. unfold escape_byte.
  rewrite !(proj2 (N.eqb_neq b _)), (proj2 (N.ltb_ge b 32)) by lia. reflexivity.
Qed.

Lemma escape_body_high c : Forall (fun b => 128 <= b) c -> escape_body c = c.
Proof.
  induction 1 as [|b c Hb _ IH]; [reflexivity|]. cbn [escape_body]. rewrite IH, escape_byte_plain; [reflexivity|].
  rewrite !orb_false_iff, !N.eqb_neq, N.ltb_ge. lia.
Qed.

Lemma hexdig_ascii n : n < 16 -> hexdig n < 128.
Proof. unfold hexdig. intros. destruct (n <? 10); lia. Qed.

Lemma escape_byte_ascii b : b < 128 -> ascii (escape_byte b).
Proof.
  intros Hb. unfold escape_byte. repeat (destruct (_ =? _); [repeat constructor; lia|]).
  destruct (b <? 32); repeat constructor; try lia; apply hexdig_ascii;
    [apply N.div_lt_upper_bound | apply N.mod_lt]; lia.
Qed.

Lemma is_char_bytes c : is_char c -> (exists b, c = [b] /\ b < 128) \/ Forall (fun b => 128 <= b) c.
Proof.
  assert (Hlead : forall b, lead_of b <> L1 -> 128 <= b).
  { intros b. unfold lead_of. destruct (N.ltb_spec b 128); [congruence | trivial]. }
  assert (Hcont : forall b, is_cont b = true -> 128 <= b).
  { intros b. unfold is_cont, between. rewrite andb_true_iff, N.leb_le. tauto. }
  assert (Hsecond : forall b0 b, second_ok b0 b = true -> 128 <= b).
  { intros b0 b. unfold second_ok, is_cont, between.
    repeat (destruct (b0 =? _)); rewrite andb_true_iff, N.leb_le; lia. }
  destruct c as [|b0 [|b1 [|b2 [|b3 [|? ?]]]]]; cbn [is_char]; try contradiction; intros H.
  - left. exists b0. split; [reflexivity|]. unfold lead_of in H. destruct (N.ltb_spec b0 128); [assumption|].
    repeat (destruct (between _ _ b0)); discriminate.
  - right. destruct H as [H0 H1]. repeat constructor; [apply Hlead; congruence | auto].
  - right. destruct H as (H0 & H1 & H2). repeat constructor; [apply Hlead; congruence | eauto | auto].
  - right. destruct H as (H0 & H1 & H2 & H3). repeat constructor; [apply Hlead; congruence | eauto | auto | auto].
Qed.

Lemma escape_body_app a b : escape_body (a ++ b) = escape_body a ++ escape_body b.
Proof. induction a as [|x a IH]; [reflexivity|]. cbn [app escape_body]. rewrite IH, app_assoc. reflexivity. Qed.

Lemma escape_body_utf8 s : utf8_ok s = true -> utf8_ok (escape_body s) = true.
Proof.
  revert s. apply (utf8_ok_ind (fun s => utf8_ok (escape_body s) = true)); [reflexivity|].
  intros c s Hc Hs IH. rewrite escape_body_app.
  destruct (is_char_bytes c Hc) as [(b & -> & Hb)|Hhigh].
  - cbn [escape_body]. rewrite app_nil_r, utf8_ok_app by apply ascii_utf8_ok, escape_byte_ascii, Hb. exact IH.
  - rewrite escape_body_high, utf8_ok_char by assumption. exact IH.
Qed.

Lemma print_string_utf8 s : utf8_ok s = true -> utf8_ok (print_string s) = true.
Proof.
  intros H. unfold print_string. change (34 :: escape_body s ++ [34]) with ([34] ++ escape_body s ++ [34]).
  rewrite (utf8_ok_app [34]), utf8_ok_app by (try apply escape_body_utf8; trivial). reflexivity.
Qed.

Lemma hexv_hexdig n : n < 16 -> hexv (hexdig n) = Some n.
Proof.
  intros H. unfold hexdig, hexv, between. destruct (N.ltb_spec n 10).
  - rewrite (proj2 (N.leb_le 48 _)), (proj2 (N.leb_le _ 57)) by lia. cbn [andb]. f_equal. lia.
  - rewrite (proj2 (N.leb_gt _ 57)), (proj2 (N.leb_gt _ 70)), (proj2 (N.leb_le 97 _)), (proj2 (N.leb_le _ 102)), !andb_false_r
      by lia. cbn [andb]. f_equal. lia.
Qed.

(* \u00XX is read back as the byte XX *)
Lemma parse_escape_u00 b rest :
  b < 128 -> parse_escape (117 :: 48 :: 48 :: hexdig (b / 16) :: hexdig (b mod 16) :: rest) = Some ([b], rest).
Proof.
  intros Hb. change (parse_escape (117 :: ?r)) with (parse_unicode_escape r).
  unfold parse_unicode_escape, hex4. change (hexv 48) with (Some 0).
  rewrite !hexv_hexdig by (try apply N.div_lt_upper_bound; try apply N.mod_lt; lia).
  replace (((0 * 16 + 0) * 16 + b / 16) * 16 + b mod 16) with b by (pose proof (N.div_mod b 16); lia).
  unfold between, encode_cp.
  rewrite (proj2 (N.leb_gt 56320 b)), (proj2 (N.ltb_lt b 55296)), (proj2 (N.ltb_lt b 128)) by lia. reflexivity.
Qed.

Lemma parse_escaped_byte b rest :
  (b =? 34) || (b =? 92) || (b <? 32) = true ->
  exists esc, escape_byte b = 92 :: esc /\ parse_escape (esc ++ rest) = Some ([b], rest).
Proof.
  intros H. unfold escape_byte.
  destruct (N.eqb_spec b 34) as [->|?]; [eexists; split; reflexivity|].
  destruct (N.eqb_spec b 92) as [->|?]; [eexists; split; reflexivity|].
  cbn [orb] in H. rewrite H. apply N.ltb_lt in H.
  repeat (destruct (b =? _) eqn:E; [apply N.eqb_eq in E as ->; eexists; split; reflexivity | clear E]).
  eexists; split; [reflexivity | apply parse_escape_u00; lia].
Qed.

Lemma escape_byte_length b : (length (escape_byte b) >= 1)%nat.
Proof.
  unfold escape_byte. repeat (destruct (_ =? _); [cbn; lia|]). destruct (b <? 32); cbn; lia.
Qed.

(* one printed byte is read back as that byte, for one unit of fuel *)
Lemma parse_str_body_byte f b r :
  parse_str_body (S f) (escape_byte b ++ r)
  = match parse_str_body f r with Some (t, r') => Some (b :: t, r') | None => None end.
Proof.
  destruct ((b =? 34) || (b =? 92) || (b <? 32)) eqn:Hb.
  - destruct (parse_escaped_byte b r Hb) as (esc & -> & Hp).
    cbn [app parse_str_body]. change (92 =? 34) with false. change (92 =? 92) with true. cbv iota.
    rewrite Hp. destruct (parse_str_body f r) as [[t r']|]; reflexivity.
  - rewrite (escape_byte_plain b Hb). rewrite !orb_false_iff in Hb. destruct Hb as [[H1 H2] H3].
    cbn [app parse_str_body]. rewrite H1, H2, H3. reflexivity.
Qed.

(* the contents of a printed string are read back exactly, whatever follows the closing quote *)
Lemma parse_str_body_escape s : forall fuel rest,
  (length (escape_body s) < fuel)%nat ->
  parse_str_body fuel (escape_body s ++ 34 :: rest) = Some (s, rest).
Proof.
  induction s as [|b s IH]; intros [|fuel] rest Hf; try (cbn in Hf; lia); [reflexivity|].
  cbn [escape_body] in *. rewrite app_length in Hf. pose proof (escape_byte_length b).
  rewrite <- app_assoc, parse_str_body_byte, IH by lia. reflexivity.
Qed.

Lemma parse_string_print s rest :
  parse_string (escape_body s ++ 34 :: rest) = Some (s, rest).
Proof.
  unfold parse_string. apply parse_str_body_escape. rewrite app_length. cbn. lia.
Qed.
